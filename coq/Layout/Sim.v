(** C10 — the lexer does not depend on where it is: a relational (two-run) logic for the lexer model of C08.

    Two lexer states are similar ([simk k]) when they agree on everything the control flow of the lexer can look at:
    the remaining input, the indentation stack, the enclosure level, the kind of the previous token, the
    interpolation stack, how far the cursor has run past the end of the input, and the last [k] characters
    consumed ([Lexer::peek_prev_ch] / [peek_prev_prev_ch] look back one / two characters).  They may differ in
    everything else: the text consumed before, cursor, length, and all line / column bookkeeping.
    [R2 RA k k' m1 m2]: run from similar states, the two computations fail alike or return results related by
    [RA] in states that are similar again.  Tokens are related when they agree on kind and content
    (positions erased). *)
From Coq Require Import ZArith List Bool Arith Lia.
Require Import ErgV.Lexer.Model ErgV.Lexer.Spec ErgV.Lexer.Proofs .
Import ListNotations.
Open Scope Z_scope.

Inductive eitem :=
| ETok (k : tkind) (c : list Z)
| EErr (e : errclass) (k : tkind) (c : list Z).
Definition erase_item (i : item) : eitem :=
  match i with
  | ITok t => ETok (tk_kind t) (tk_content t)
  | IErr e t => EErr e (tk_kind t) (tk_content t)
  end.
Definition erase (l : list item) : list eitem := map erase_item l.

Definition tok_sim (t1 t2 : token) : Prop := tk_kind t1 = tk_kind t2 /\ tk_content t1 = tk_content t2.
Definition item_sim (i1 i2 : item) : Prop := erase_item i1 = erase_item i2.
Definition oitem_sim (o1 o2 : option item) : Prop :=
  match o1, o2 with
  | Some a, Some b => item_sim a b
  | None, None => True
  | _, _ => False
  end.
Definition step_sim (s1 s2 : step) : Prop :=
  match s1, s2 with
  | SNone, SNone => True
  | SAgain, SAgain => True
  | SItem a, SItem b => item_sim a b
  | _, _ => False
  end.
Definition any {A} (_ _ : A) : Prop := True.

(** the part of the invariant of C08 that the control flow needs *)
Record Lt (st : lstate) : Prop := {
  lt_cur : zlen (pre st) <= cursor st;
  lt_over : zlen (pre st) < cursor st -> post st = [];
  lt_len : len st = zlen (pre st) + zlen (post st);
  lt_head : 0 <= line_head st <= zlen (pre st)
}.

Definition ctl (a b : lstate) : Prop :=
  post a = post b /\ indent_stack a = indent_stack b /\ encl a = encl b /\ prev_kind a = prev_kind b /\
  interpol a = interpol b /\ cursor a - zlen (pre a) = cursor b - zlen (pre b).

Definition simk (k : nat) (a b : lstate) : Prop :=
  Lt a /\ Lt b /\ ctl a b /\ firstn k (pre a) = firstn k (pre b).

Lemma simk_le k k' a b : (k' <= k)%nat -> simk k a b -> simk k' a b.
Proof.
  intros HK (A & B & C & D). split; [exact A|]. split; [exact B|]. split; [exact C|].
  rewrite <- (Nat.min_l k' k HK), <- !firstn_firstn, D. reflexivity.
Qed.

Lemma simk_weaken k a b : simk (S k) a b -> simk k a b.
Proof. apply simk_le. lia. Qed.

Definition R2 {A} (RA : A -> A -> Prop) (k k' : nat) (m1 m2 : M A) : Prop :=
  forall a b, simk k a b ->
    match m1 a, m2 b with
    | Ok (x, a'), Ok (y, b') => RA x y /\ simk k' a' b'
    | Panic, Panic => True
    | Fuel, Fuel => True
    | _, _ => False
    end.

(** what [R2] says of the two outcomes, with any relation [Q] on the states reached *)
Definition alike {A} (RA : A -> A -> Prop) (Q : lstate -> lstate -> Prop) (o1 o2 : res (A * lstate)) : Prop :=
  match o1, o2 with
  | Ok (x, a'), Ok (y, b') => RA x y /\ Q a' b'
  | Panic, Panic => True
  | Fuel, Fuel => True
  | _, _ => False
  end.

Lemma alike_bind {A B} (RA : A -> A -> Prop) (RB : B -> B -> Prop) (Q R : lstate -> lstate -> Prop)
      (m1 m2 : M A) (f1 f2 : A -> M B) a b :
  alike RA Q (m1 a) (m2 b) -> (forall x y a' b', RA x y -> Q a' b' -> alike RB R (f1 x a') (f2 y b')) ->
  alike RB R (bind m1 f1 a) (bind m2 f2 b).
Proof.
  intros H1 H2. unfold bind.
  destruct (m1 a) as [[x a']| |], (m2 b) as [[y b']| |]; try contradiction; try exact I.
  destruct H1 as [HR HS]. exact (H2 x y a' b' HR HS).
Qed.

Lemma R2_bind {A B} (RA : A -> A -> Prop) (RB : B -> B -> Prop) k k1 k2 (m1 m2 : M A) (f1 f2 : A -> M B) :
  R2 RA k k1 m1 m2 -> (forall x y, RA x y -> R2 RB k1 k2 (f1 x) (f2 y)) -> R2 RB k k2 (bind m1 f1) (bind m2 f2).
Proof. intros H1 H2 a b S. apply (alike_bind RA RB (simk k1)); [exact (H1 a b S)|]. intros x y a' b' HR. exact (H2 x y HR a' b'). Qed.

Lemma R2_ret {A} (RA : A -> A -> Prop) k (x y : A) : RA x y -> R2 RA k k (ret x) (ret y).
Proof. intros H a b S. cbn. split; assumption. Qed.

Lemma R2_post {A} (RA RA' : A -> A -> Prop) k k1 k2 (m1 m2 : M A) :
  R2 RA k k1 m1 m2 -> (forall x y, RA x y -> RA' x y) -> (k2 <= k1)%nat -> R2 RA' k k2 m1 m2.
Proof.
  intros H HR HK a b S. specialize (H a b S).
  destruct (m1 a) as [[x a']| |], (m2 b) as [[y b']| |]; try contradiction; try exact I.
  destruct H as [H1 H2]. split; [apply HR; exact H1|]. eapply simk_le; eassumption.
Qed.

Lemma R2_pre {A} (RA : A -> A -> Prop) k0 k k1 (m1 m2 : M A) :
  R2 RA k k1 m1 m2 -> (k <= k0)%nat -> R2 RA k0 k1 m1 m2.
Proof. intros H HK a b S. apply H. eapply simk_le; eassumption. Qed.

Lemma R2_panic {A} (RA : A -> A -> Prop) k k' : R2 RA k k' panic panic.
Proof. intros a b S. exact I. Qed.
Lemma R2_fuel {A} (RA : A -> A -> Prop) k k' : R2 RA k k' out_of_fuel out_of_fuel.
Proof. intros a b S. exact I. Qed.
Lemma R2_bind_panic {A B} (RB : B -> B -> Prop) k k' (f1 f2 : A -> M B) : R2 RB k k' (bind panic f1) (bind panic f2).
Proof. intros a b S. exact I. Qed.
Lemma R2_bind_fuel {A B} (RB : B -> B -> Prop) k k' (f1 f2 : A -> M B) : R2 RB k k' (bind out_of_fuel f1) (bind out_of_fuel f2).
Proof. intros a b S. exact I. Qed.

Lemma R2_if {A} (RA : A -> A -> Prop) k k' (c : bool) (m1 m1' m2 m2' : M A) :
  R2 RA k k' m1 m2 -> R2 RA k k' m1' m2' -> R2 RA k k' (if c then m1 else m1') (if c then m2 else m2').
Proof. destruct c; auto. Qed.

Lemma R2_assoc {A B C} (RC : C -> C -> Prop) k k' (m1 m2 : M A) (f1 f2 : A -> M B) (g1 g2 : B -> M C) :
  R2 RC k k' (bind m1 (fun x => bind (f1 x) g1)) (bind m2 (fun x => bind (f2 x) g2)) ->
  R2 RC k k' (bind (bind m1 f1) g1) (bind (bind m2 f2) g2).
Proof.
  intros H a b S. specialize (H a b S). unfold bind in *.
  destruct (m1 a) as [[x a']| |], (m2 b) as [[y b']| |]; exact H.
Qed.

Lemma R2_gets {A} (RA : A -> A -> Prop) k (f1 f2 : lstate -> A) :
  (forall a b, simk k a b -> RA (f1 a) (f2 b)) -> R2 RA k k (gets f1) (gets f2).
Proof. intros H a b S. cbn. split; [apply H; exact S|exact S]. Qed.

Lemma R2_modify k (f1 f2 : lstate -> lstate) :
  (forall a b, simk k a b -> simk k (f1 a) (f2 b)) -> R2 eq k k (modify f1) (modify f2).
Proof. intros H a b S. cbn. split; [reflexivity|apply H; exact S]. Qed.

Ltac simk_fields :=
  cbn [pre post cursor len indent_stack encl prev_kind lineno col cur_line line_head interpol
       set_zip set_indent set_encl set_prev set_lineno set_col set_curline set_interpol] in *.

Lemma Lt_same a a' :
  pre a' = pre a -> post a' = post a -> cursor a' = cursor a -> len a' = len a -> line_head a' = line_head a ->
  Lt a -> Lt a'.
Proof. intros H1 H2 H3 H4 H5 [A B C D]. constructor; rewrite ?H1, ?H2, ?H3, ?H4, ?H5; assumption. Qed.

(** the typical update: both sides set control fields to equal values, position fields to anything *)
Ltac sim_upd :=
  let a := fresh "a" in let b := fresh "b" in
  let A := fresh in let B := fresh in let C := fresh in let D := fresh in
  intros a b (A & B & C & D);
  split; [apply (Lt_same a); [reflexivity..|exact A]|];
  split; [apply (Lt_same b); [reflexivity..|exact B]|];
  split;
  [ destruct C as (? & ? & ? & ? & ? & ?); unfold ctl; simk_fields; repeat split; congruence
  | exact D ].

Lemma peek_sim k a b : simk k a b -> peek_cur_ch a = peek_cur_ch b /\ peek_next_ch a = peek_next_ch b.
Proof. intros (_ & _ & (P & _) & _). unfold peek_cur_ch, peek_next_ch. rewrite P. split; reflexivity. Qed.

Lemma R2_peek_cur k : R2 eq k k peek_cur peek_cur.
Proof. apply R2_gets. intros a b S. apply (peek_sim k a b S). Qed.
Lemma R2_peek_next k : R2 eq k k peek_next peek_next.
Proof. apply R2_gets. intros a b S. apply (peek_sim k a b S). Qed.

Lemma R2_gets_any {A} k (f1 f2 : lstate -> A) : R2 any k k (gets f1) (gets f2).
Proof. apply R2_gets. intros; exact I. Qed.

Lemma R2_fuel_of k : R2 eq k k (gets fuel_of) (gets fuel_of).
Proof. apply R2_gets. intros a b (_ & _ & (P & _) & _). unfold fuel_of. rewrite P. reflexivity. Qed.
Lemma R2_prev_kind k : R2 eq k k (gets prev_kind) (gets prev_kind).
Proof. apply R2_gets. intros a b (_ & _ & (_ & _ & _ & P & _) & _). exact P. Qed.
Lemma R2_interpol k : R2 eq k k (gets interpol) (gets interpol).
Proof. apply R2_gets. intros a b (_ & _ & (_ & _ & _ & _ & P & _) & _). exact P. Qed.
Lemma R2_indent_stack k : R2 eq k k (gets indent_stack) (gets indent_stack).
Proof. apply R2_gets. intros a b (_ & _ & (_ & P & _) & _). exact P. Qed.
Lemma R2_encl k : R2 eq k k (gets encl) (gets encl).
Proof. apply R2_gets. intros a b (_ & _ & (_ & _ & P & _) & _). exact P. Qed.
Lemma R2_recv k : R2 eq k k (gets prev_can_be_receiver) (gets prev_can_be_receiver).
Proof. apply R2_gets. intros a b (_ & _ & (_ & _ & _ & P & _) & _). unfold prev_can_be_receiver. rewrite P. reflexivity. Qed.
Lemma R2_ghost k : R2 any k k ghost_pos ghost_pos.
Proof. apply R2_gets_any. Qed.

Lemma R2_emit k kd c g1 g2 : R2 tok_sim k k (emit_singleline_token kd c g1) (emit_singleline_token kd c g2).
Proof.
  intros a b S. unfold emit_singleline_token. split; [split; reflexivity|].
  revert a b S. sim_upd.
Qed.

Lemma R2_emit_multi k kd cb1 cb2 c g1 g2 :
  R2 tok_sim k k (emit_multiline_token true kd cb1 c g1) (emit_multiline_token true kd cb2 c g2).
Proof.
  intros a b S. unfold emit_multiline_token. split; [split; reflexivity|].
  revert a b S. sim_upd.
Qed.

Lemma R2_last_interpol k : R2 eq k k last_interpol last_interpol.
Proof.
  unfold last_interpol. eapply R2_bind; [apply R2_interpol|]. intros x y <-.
  destruct x; [apply R2_panic|apply R2_ret; reflexivity].
Qed.

Lemma ghost_lt st : Lt st -> Z.min (cursor st) (len st) = zlen (pre st).
Proof.
  intros [A B C D]. pose proof (zlen_nonneg (post st)).
  destruct (Z.eq_dec (cursor st) (zlen (pre st))); [lia|]. rewrite B, zlen_nil in C by lia. lia.
Qed.

(** the state after sync_token_starts *)
Definition sy (s : lstate) : lstate :=
  set_col (set_lineno s (cur_line s)) (Z.min (cursor s) (len s) - line_head s).

Lemma sync_run s : Lt s -> sync_token_starts true s = Ok (tt, sy s).
Proof.
  intros L. unfold sync_token_starts. pose proof (ghost_lt s L). pose proof (lt_head s L).
  destruct (Z.ltb_spec (Z.min (cursor s) (len s)) (line_head s)); [lia|reflexivity].
Qed.

Lemma simk_sy k a b : simk k a b -> simk k (sy a) (sy b).
Proof. revert a b. unfold sy. sim_upd. Qed.

Lemma R2_sync k : R2 eq k k (sync_token_starts true) (sync_token_starts true).
Proof.
  intros a b S. pose proof S as (LA & LB & _). rewrite (sync_run a LA), (sync_run b LB).
  split; [reflexivity|apply simk_sy; exact S].
Qed.

Lemma no_over s : Lt s -> post s <> [] -> cursor s = zlen (pre s).
Proof.
  intros [A B C D] H. destruct (Z.eq_dec (cursor s) (zlen (pre s))); [assumption|]. exfalso. apply H, B. lia.
Qed.

Lemma Lt_adv st c r : Lt st -> post st = c :: r -> Lt (adv st c r).
Proof.
  intros L E. pose proof (no_over st L ltac:(rewrite E; discriminate)) as HC. destruct L as [A B C D].
  constructor; autorewrite with st.
  - rewrite zlen_cons. lia.
  - rewrite zlen_cons. lia.
  - rewrite C, E, !zlen_cons. lia.
  - unfold adv. rewrite zlen_cons. destruct (c =? 10); cbn [line_head cursor set_curline set_zip]; lia.
Qed.

Lemma Lt_adv_eof st : Lt st -> post st = [] -> Lt (adv_eof st).
Proof.
  intros [A B C D] E. constructor; cbn [pre post cursor len line_head adv_eof set_zip].
  - lia.
  - reflexivity.
  - rewrite C, E. reflexivity.
  - exact D.
Qed.

Lemma consume_cons st c r : post st = c :: r -> consume true st = Ok (Some c, adv st c r).
Proof. intros E. unfold consume, adv. rewrite E. cbn [andb]. reflexivity. Qed.
Lemma consume_nil st : post st = [] -> consume true st = Ok (None, adv_eof st).
Proof. intros E. unfold consume, adv_eof. rewrite E. reflexivity. Qed.

Lemma simk_adv k a b c r :
  simk k a b -> post a = c :: r -> simk (S k) (adv a c r) (adv b c r).
Proof.
  intros (A & B & C & D) E. pose proof C as (P & I1 & I2 & I3 & I4 & I5).
  assert (E' : post b = c :: r) by congruence.
  split; [apply Lt_adv; assumption|]. split; [apply Lt_adv; assumption|]. split.
  - unfold ctl. autorewrite with st. rewrite !zlen_cons. repeat split; try assumption. lia.
  - autorewrite with st. cbn [firstn]. f_equal. exact D.
Qed.

Lemma simk_adv_eof k a b : simk k a b -> post a = [] -> simk k (adv_eof a) (adv_eof b).
Proof.
  intros (A & B & C & D) E. pose proof C as (P & I1 & I2 & I3 & I4 & I5).
  assert (E' : post b = []) by congruence.
  split; [apply Lt_adv_eof; assumption|]. split; [apply Lt_adv_eof; assumption|]. split.
  - unfold ctl. cbn [pre post cursor indent_stack encl prev_kind interpol adv_eof set_zip]. repeat split; try assumption. lia.
  - exact D.
Qed.

(** binding the character consumed: the continuation may look back one character further *)
Lemma R2_bind_consume {B} (RB : B -> B -> Prop) k k' (f1 f2 : option Z -> M B) :
  (forall c, R2 RB (S k) k' (f1 (Some c)) (f2 (Some c))) -> R2 RB k k' (f1 None) (f2 None) ->
  R2 RB k k' (bind (consume true) f1) (bind (consume true) f2).
Proof.
  intros H1 H2 a b S. pose proof S as (_ & _ & (P & _) & _). unfold bind.
  destruct (post a) as [|c r] eqn:E.
  - rewrite (consume_nil a E), (consume_nil b) by congruence. apply H2, simk_adv_eof; assumption.
  - rewrite (consume_cons a c r E), (consume_cons b c r) by congruence. apply H1, simk_adv; assumption.
Qed.

Lemma R2_consume k : R2 eq k k (consume true) (consume true).
Proof.
  intros a b S. pose proof S as (_ & _ & (P & _) & _).
  destruct (post a) as [|c r] eqn:E.
  - rewrite (consume_nil a E), (consume_nil b) by congruence. split; [reflexivity|apply simk_adv_eof; assumption].
  - rewrite (consume_cons a c r E), (consume_cons b c r) by congruence.
    split; [reflexivity|apply simk_weaken, simk_adv; assumption].
Qed.

(** the primitives that return the same result in both runs *)
Create HintDb rprim.
#[export] Hint Resolve R2_consume R2_peek_cur R2_peek_next R2_fuel_of R2_prev_kind R2_interpol R2_indent_stack R2_encl
  R2_recv R2_last_interpol : rprim.
