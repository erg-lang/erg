(** How two runs of the lexer that differ by a `#` comment, blanks, a blank line, a comment line or a `\`
    continuation at a token boundary come together again: what single calls of Iterator::next do at a line end, what
    two runs that both stand at a line break have in common ([nl_tail_nl_sim]), and from which states the two runs
    emit the same items modulo positions ([joins]). *)
From Coq Require Import ZArith List Bool Arith Lia.
From ErgV Require Import Common.Lists.
Require Import ErgV.Lexer.Model ErgV.Lexer.Spec ErgV.Lexer.Proofs ErgV.Lexer.ProofsSub ErgV.Lexer.ProofsNext .
Require Import ErgV.Layout.Sim ErgV.Layout.SimSub ErgV.Layout.SimNext ErgV.Layout.Model .
Import ListNotations.
Open Scope Z_scope.

(** line / column bookkeeping is left open: all that is kept of it is [Lt] *)
Definition moved (s s' : lstate) (l : list Z) : Prop :=
  Lt s' /\ pre s' = rev l ++ pre s /\ post s = l ++ post s' /\ cursor s' = cursor s + zlen l /\
  indent_stack s' = indent_stack s /\ encl s' = encl s /\ prev_kind s' = prev_kind s /\ interpol s' = interpol s.

Lemma moved_refl s : Lt s -> moved s s [].
Proof. intros L. split; [exact L|]. cbn [rev app]. rewrite zlen_nil. repeat split. lia. Qed.

Lemma moved_step s0 s l c r : moved s0 s l -> post s = c :: r -> moved s0 (adv s c r) (l ++ [c]).
Proof.
  intros (L & H1 & H2 & H3 & H4 & H5 & H6 & H7) E. split; [apply Lt_adv; assumption|].
  rewrite pre_adv, post_adv, cursor_adv, indent_adv, encl_adv, prev_adv, interpol_adv.
  rewrite rev_app_distr, zlen_app, H1, H2, E, <- !app_assoc. change (zlen [c]) with 1.
  repeat split; try assumption. lia.
Qed.

Lemma moved_trans s s' s'' l l' : moved s s' l -> moved s' s'' l' -> moved s s'' (l ++ l').
Proof.
  intros (_ & A1 & A2 & A3 & A4 & A5 & A6 & A7) (L & B1 & B2 & B3 & B4 & B5 & B6 & B7). split; [exact L|].
  rewrite B1, A1, A2, B2, B3, A3, rev_app_distr, zlen_app, <- !app_assoc. repeat split; try congruence. lia.
Qed.

Lemma moved_set_col s s' l v : moved s s' l -> moved s (set_col s' v) l.
Proof. intros (L & H). split; [apply (Lt_same s'); [reflexivity..|exact L]|exact H]. Qed.
Lemma moved_set_lineno s s' l v : moved s s' l -> moved s (set_lineno s' v) l.
Proof. intros (L & H). split; [apply (Lt_same s'); [reflexivity..|exact L]|exact H]. Qed.

Lemma moved_set_prev s s' l k : moved s s' l -> moved (set_prev s k) (set_prev s' k) l.
Proof.
  intros (L & H1 & H2 & H3 & H4 & H5 & H6 & H7). split; [apply (Lt_same s'); [reflexivity..|exact L]|].
  repeat split; assumption.
Qed.

Lemma moved_sy s : Lt s -> moved s (sy s) [].
Proof. intros L. apply moved_set_col, moved_set_lineno, moved_refl. exact L. Qed.

Lemma moved_first s c r : Lt s -> post s = c :: r -> moved s (adv (sy s) c r) [c].
Proof. intros L E. apply (moved_step s (sy s) []); [apply moved_sy; exact L|exact E]. Qed.

Lemma kind_eqb_false a b : a <> b -> kind_eqb a b = false.
Proof. intros H. destruct (kind_eqb a b) eqn:E; [apply kind_eqb_eq in E; contradiction|reflexivity]. Qed.

(** Single runs are stepped through with the wp rules of Lexer/Proofs.v and [ws], none of which asks for [Inv];
    [moved] is carried along the way [Good] is there. Where two runs are compared, the run is needed as an
    equation. *)
Lemma consume_spaces_run s0 r (Q : list Z -> lstate -> Prop) : forall j n sp s,
  moved s0 s sp -> post s = repeat 32 j ++ r -> hd_error r <> Some 32 -> (j < n)%nat ->
  (forall s', moved s0 s' (sp ++ repeat 32 j) -> post s' = r -> Q (sp ++ repeat 32 j) s') ->
  wp (consume_spaces true n sp) Q s.
Proof.
  induction j as [|j IH]; intros n sp s MV E HR Hn HQ; (destruct n as [|n]; [lia|]);
    cbn [consume_spaces repeat app] in *; ws.
  - rewrite (opt_is_false _ _ HR). rewrite app_nil_r in HQ. ws. apply HQ; assumption.
  - cbn [Z.eqb Pos.eqb]. ws.
    apply IH; [apply moved_step; assumption|apply post_adv|exact HR|lia|]. rewrite <- app_assoc. exact HQ.
Qed.

(** [j] blanks at the cursor make the indentation logic emit nothing: the previous token does not end a line, or
    the blanks are exactly the indentation of the open block (Ordering::Equal in lex_indent_dedent) *)
Definition blanks_silent (s : lstate) (j : nat) : Prop :=
  (prev_kind s <> Newline /\ prev_kind s <> Dedent /\ (j <> 0%nat -> prev_kind s <> BOF)) \/
  ((prev_kind s = Newline \/ prev_kind s = Dedent) /\ Z.of_nat j = zsum (indent_stack s) /\ Z.of_nat j <= 100).

Lemma blanks_after_token s j :
  prev_kind s <> Newline -> prev_kind s <> Dedent -> (j <> 0%nat -> prev_kind s <> BOF) -> blanks_silent s j.
Proof. intros A B C. left. split; [exact A|]. split; assumption. Qed.

Lemma lex_indent_dedent_equal s j (Q : option item -> lstate -> Prop) :
  Z.of_nat j = zsum (indent_stack s) -> Z.of_nat j <= 100 -> Q None (set_col s (col s + Z.of_nat j)) ->
  wp (lex_indent_dedent (repeat 32 j)) Q s.
Proof.
  intros HJ H100 HQ. unfold lex_indent_dedent, ghost_pos. rewrite zlen_repeat. ws.
  destruct (Z.ltb_spec 100 (Z.of_nat j)); [lia|]. ws.
  pose proof (fold_indent_sum (rev (indent_stack s)) 0 false (Z.of_nat j)) as FS.
  rewrite zsum_rev in FS.
  destruct (fold_indent (rev (indent_stack s)) 0 false (Z.of_nat j)) as [sum_indent is_valid].
  cbn [fst] in FS. subst sum_indent. rewrite Z.add_0_l, <- HJ, Z.ltb_irrefl. ws. exact HQ.
Qed.

Lemma blanks_silent_moved s s' l j : moved s s' l -> blanks_silent s j -> blanks_silent s' j.
Proof. intros (_ & _ & _ & _ & HI & _ & HP & _). unfold blanks_silent. rewrite HI, HP. exact (fun H => H). Qed.

(** the part of lex_space_indent_dedent after the run of blanks; [m]: what it does with blanks at the start of the
    file *)
Lemma blanks_silent_run s j (m : M (option item)) (Q : option item -> lstate -> Prop) :
  blanks_silent s j -> Q None (set_col s (col s + Z.of_nat j)) ->
  wp (prev <- gets prev_kind ;;
   if negb (match repeat 32 j with [] => true | _ => false end) && kind_eqb prev BOF then m
   else if kind_eqb prev Newline || kind_eqb prev Dedent then lex_indent_dedent (repeat 32 j)
   else modify (fun st => set_col st (col st + zlen (repeat 32 j))) ;;; ret None) Q s.
Proof.
  intros HK HQ. ws.
  destruct HK as [(PN & PD & PB)|(PK & HJ & H100)].
  - rewrite (kind_eqb_false _ _ PN), (kind_eqb_false _ _ PD).
    replace (negb (match repeat 32 j with [] => true | _ => false end) && kind_eqb (prev_kind s) BOF) with false
      by (destruct j; [reflexivity|]; symmetry; apply andb_false_intro2, kind_eqb_false, PB; discriminate).
    rewrite zlen_repeat. ws. exact HQ.
  - replace (negb (match repeat 32 j with [] => true | _ => false end) && kind_eqb (prev_kind s) BOF) with false
      by (destruct PK as [-> | ->]; symmetry; apply andb_false_r).
    replace (kind_eqb (prev_kind s) Newline || kind_eqb (prev_kind s) Dedent) with true
      by (destruct PK as [-> | ->]; reflexivity).
    apply lex_indent_dedent_equal; assumption.
Qed.

Lemma lex_comment_loop_run g s0 rest (Q : option item -> lstate -> Prop) : forall text n acc s l0,
  moved s0 s l0 -> post s = text ++ rest -> Forall (fun c => c <> 10 /\ is_bidi c = false) text ->
  (rest = [] \/ hd_error rest = Some 10) -> (length text < n)%nat ->
  (forall s', moved s0 s' (l0 ++ text) -> post s' = rest -> Q None s') ->
  wp (lex_comment_loop true n acc g) Q s.
Proof.
  induction text as [|c text IH]; intros n acc s l0 MV E F R Hn HQ; (destruct n as [|n]; [cbn in Hn; lia|]);
    cbn [lex_comment_loop app] in *; ws.
  - rewrite app_nil_r in HQ.
    destruct R as [->|R]; [|destruct rest as [|d rest']; [discriminate|]; injection R as ->; cbn [Z.eqb Pos.eqb]];
      ws; apply HQ; assumption.
  - inversion F as [|? ? [C1 C2] F']; subst. apply Z.eqb_neq in C1. rewrite C1, C2. ws.
    apply (IH _ _ _ (l0 ++ [c])); [apply moved_step; assumption|apply post_adv|exact F'|exact R|cbn in Hn; lia|].
    rewrite <- app_assoc. exact HQ.
Qed.

Section NL.
Variable xs xc : Z -> bool.

Lemma next_rest_plain s :
  opt_is (peek_cur_ch s) 35 = false -> next_rest xs xc s = nl_tail xs xc s.
Proof.
  intros H. rewrite next_rest_eq. unfold bind at 1, peek_cur, gets.
  unfold bind at 1, peek_next, gets. rewrite H. unfold bind at 1, ret. reflexivity.
Qed.

Lemma next_rest_comment s text rest :
  Lt s -> post s = 35 :: text ++ rest -> comment_text text -> (rest = [] \/ hd_error rest = Some 10) ->
  exists s', moved s s' (35 :: text) /\ post s' = rest /\ next_rest xs xc s = nl_tail xs xc s'.
Proof.
  intros L E [F H91] R.
  assert (P1 : opt_is (peek_next_ch s) 91 = false).
  { apply opt_is_false. unfold peek_next_ch. rewrite E. cbn [nth_error]. destruct text; cbn [app]; [|exact H91].
    destruct R as [->|R]; [discriminate|]. destruct rest; [discriminate|]. cbn in *. congruence. }
  assert (exists s', lex_comment true s = Ok (None, s') /\ moved s s' (35 :: text) /\ post s' = rest)
    as (s' & EC & MV & P).
  { apply wp_run. unfold lex_comment, ghost_pos. ws.
    apply (lex_comment_loop_run _ s rest _ (35 :: text) _ _ _ []);
      [apply moved_refl; exact L|exact E|constructor; [split; [discriminate|reflexivity]|exact F]|exact R| |].
    - unfold fuel_of. rewrite E. cbn [length]. rewrite app_length. lia.
    - intros s' MV P. split; [reflexivity|]. split; assumption. }
  exists s'. split; [exact MV|]. split; [exact P|].
  rewrite next_rest_eq. unfold bind at 1, peek_cur, gets.
  unfold bind at 1, peek_next, gets. unfold peek_cur_ch at 1. rewrite E, P1.
  cbn [hd_error opt_is Z.eqb Pos.eqb]. unfold bind at 1. rewrite EC. reflexivity.
Qed.

(** decides the comparisons of the literal [c] with the literals of a chain of tests *)
Ltac lit c :=
  repeat match goal with
         | |- context [c =? ?n] =>
           let v := eval compute in (c =? n) in change (c =? n) with v
         end; cbv iota.

Lemma dispatch_10 g :
  dispatch xs xc true true 10 g =
  (cur <- peek_cur ;; nx <- peek_next ;;
   e <- gets encl ;;
   if 0 <? e then modify (fun st => set_col (set_lineno st (lineno st + 1)) 0) ;;; ret SAgain
   else t <- emit_singleline_token Newline [10] g ;;
        modify (fun st => set_col (set_lineno st (lineno st + 1)) 0) ;;; ret (SItem (ITok t))).
Proof. unfold dispatch. lit 10. reflexivity. Qed.

Lemma dispatch_10_sim k g1 g2 :
  R2 step_sim k k (dispatch xs xc true true 10 g1) (dispatch xs xc true true 10 g2).
Proof. rewrite !dispatch_10. rs. Qed.

Lemma nl_tail_cons s c r :
  Lt s -> post s = c :: r ->
  nl_tail xs xc s = dispatch xs xc true true c (Z.min (cursor s) (len s)) (adv (sy s) c r).
Proof.
  intros L E. unfold nl_tail. unfold bind at 1. rewrite (sync_run s L).
  unfold bind at 1, ghost_pos, gets.
  unfold bind at 1. rewrite (consume_cons (sy s) c r E). reflexivity.
Qed.

Lemma nl_tail_nl_sim a b :
  simk 0 a b -> hd_error (post a) = Some 10 -> alike step_sim (simk 1) (nl_tail xs xc a) (nl_tail xs xc b).
Proof.
  intros HS HP. pose proof HS as (LA & LB & (PP & _) & _).
  destruct (post a) as [|c r] eqn:EA; [discriminate|]. cbn in HP. injection HP as ->.
  assert (EB : post b = 10 :: r) by congruence.
  rewrite (nl_tail_cons a 10 r LA EA), (nl_tail_cons b 10 r LB EB).
  apply (dispatch_10_sim 1). apply simk_adv; [apply simk_sy; exact HS|exact EA].
Qed.

Lemma nl_tail_newline s b :
  Lt s -> post s = 10 :: b -> encl s = 0 ->
  exists t s', nl_tail xs xc s = Ok (SItem (ITok t), s') /\ tk_kind t = Newline /\ tk_content t = [10] /\
               moved (set_prev s Newline) s' [10] /\ post s' = b.
Proof.
  intros L E EN. rewrite (nl_tail_cons s 10 b L E), dispatch_10. eexists. apply wp_run. ws.
  rewrite encl_adv. change (encl (sy s)) with (encl s). rewrite EN. cbn [Z.ltb Z.compare]. run_wp.
  split; [reflexivity|]. split; [reflexivity|]. split; [reflexivity|]. split; [|apply post_adv].
  apply moved_set_col, moved_set_lineno, moved_set_col, moved_set_prev, moved_first; assumption.
Qed.

Lemma nl_tail_skip s b :
  Lt s -> post s = 10 :: b -> 0 < encl s ->
  exists s', nl_tail xs xc s = Ok (SAgain, s') /\ moved s s' [10] /\ post s' = b.
Proof.
  intros L E EN. rewrite (nl_tail_cons s 10 b L E), dispatch_10. apply wp_run. ws.
  rewrite encl_adv. change (encl (sy s)) with (encl s). destruct (Z.ltb_spec 0 (encl s)); [|lia]. ws.
  split; [reflexivity|]. split; [|apply post_adv]. apply moved_set_col, moved_set_lineno, moved_first; assumption.
Qed.

Lemma dispatch_92 g :
  dispatch xs xc true true 92 g =
  (cur <- peek_cur ;; nx <- peek_next ;;
   match cur with
   | Some other =>
     if other =? 10 then
       consume true ;;; modify (fun st => set_col (set_lineno st (lineno st + 1)) 0) ;;; ret SAgain
     else reject E_BackslashNonNewline Illegal [92; other] g
   | None => reject E_SimpleSyntax Illegal [92] g
   end).
Proof. unfold dispatch. lit 92. reflexivity. Qed.

Lemma nl_tail_continuation s b :
  Lt s -> post s = 92 :: 10 :: b ->
  exists s', nl_tail xs xc s = Ok (SAgain, s') /\ moved s s' [92; 10] /\ post s' = b.
Proof.
  intros L E. rewrite (nl_tail_cons s 92 (10 :: b) L E), dispatch_92. apply wp_run.
  assert (E2 : post (adv (sy s) 92 (10 :: b)) = 10 :: b) by apply post_adv.
  ws. cbn [Z.eqb Pos.eqb]. ws. split; [reflexivity|]. split; [|apply post_adv].
  apply moved_set_col, moved_set_lineno, (moved_step s _ [92]); [apply moved_first; assumption|exact E2].
Qed.
End NL.

Definition same_ctl (a b : lstate) : Prop :=
  indent_stack a = indent_stack b /\ encl a = encl b /\ prev_kind a = prev_kind b /\ interpol a = interpol b.

(** the test of lex_space_indent_dedent for a Dedent at the first column of a line *)
Definition toplevel_cond (s : lstate) : bool :=
  (0 <? cursor s) && negb (match indent_stack s with [] => true | _ => false end) && opt_is (peek_prev_ch s) 10
  && negb (opt_is (peek_cur_ch s) 32 || opt_is (peek_cur_ch s) 10) && (encl s =? 0).

Lemma same_ctl_trans a b c : same_ctl a b -> same_ctl b c -> same_ctl a c.
Proof. intros (A1 & A2 & A3 & A4) (B1 & B2 & B3 & B4). repeat split; congruence. Qed.
Lemma same_ctl_sym a b : same_ctl a b -> same_ctl b a.
Proof. intros (A1 & A2 & A3 & A4). repeat split; congruence. Qed.
Lemma moved_ctl s s' l : moved s s' l -> same_ctl s s'.
Proof. intros (_ & _ & _ & _ & A & B & C & D). repeat split; symmetry; assumption. Qed.
Lemma moved_ctl2 a b a' b' la lb : same_ctl a b -> moved a a' la -> moved b b' lb -> same_ctl a' b'.
Proof.
  intros SC A B. eapply same_ctl_trans; [apply same_ctl_sym; eapply moved_ctl; exact A|].
  eapply same_ctl_trans; [exact SC|eapply moved_ctl; exact B].
Qed.

Lemma simk_of k a b :
  Lt a -> Lt b -> same_ctl a b -> post a = post b -> cursor a = zlen (pre a) -> cursor b = zlen (pre b) ->
  firstn k (pre a) = firstn k (pre b) -> simk k a b.
Proof.
  intros LA LB (C1 & C2 & C3 & C4) P OA OB F.
  split; [exact LA|]. split; [exact LB|]. split; [|exact F].
  unfold ctl. rewrite OA, OB. repeat split; try assumption. lia.
Qed.

Lemma line_start_simk st1 s s' :
  Lt st1 -> cursor st1 = zlen (pre st1) -> hd_error (pre st1) = Some 10 ->
  same_ctl st1 s -> cursor s = zlen (pre s) -> moved s s' [10] -> post s' = post st1 -> simk 1 st1 s'.
Proof.
  intros L1 O1 H1 SC OS MV P. pose proof MV as (L' & HP & _ & HC & _). cbn [rev app] in HP.
  apply simk_of; [exact L1|exact L'| |symmetry; exact P|exact O1| |].
  - eapply same_ctl_trans; [exact SC|eapply moved_ctl; exact MV].
  - rewrite HP, HC, OS, !zlen_cons, zlen_nil. lia.
  - rewrite HP. destruct (pre st1) as [|c p]; [discriminate|]. cbn in H1. injection H1 as ->. reflexivity.
Qed.

Lemma lsid_skip s j r :
  Lt s -> post s = repeat 32 j ++ r -> hd_error r <> Some 32 ->
  toplevel_cond s = false -> opt_is (peek_cur_ch s) 10 && (encl s =? 0) = false -> blanks_silent s j ->
  exists s', lex_space_indent_dedent true s = Ok (None, s') /\ moved s s' (repeat 32 j) /\ post s' = r.
Proof.
  intros L E HR T1 T2 HK. unfold lex_space_indent_dedent, ghost_pos.
  unfold bind at 1. rewrite (sync_run s L). apply wp_run.
  (* sync_token_starts has changed nothing the tests look at *)
  change (toplevel_cond (sy s) = false) in T1.
  change (opt_is (peek_cur_ch (sy s)) 10 && (encl (sy s) =? 0) = false) in T2.
  unfold toplevel_cond, peek_cur_ch in T1, T2. ws. rewrite T1, T2. ws.
  apply (consume_spaces_run s r _ j); [apply moved_sy; exact L|exact E|exact HR| |].
  - change (fuel_of (sy s)) with (S (length (post s))). rewrite E, app_length, repeat_length. lia.
  - intros s' MV PS. apply blanks_silent_run; [exact (blanks_silent_moved s s' _ j MV HK)|].
    split; [reflexivity|]. split; [apply moved_set_col; exact MV|exact PS].
Qed.

Section T.
Variable xs xc : Z -> bool.

Notation next := (next xs xc true true).

(** with blanks in front the indentation logic has no other case; without, the cursor must not be where a Dedent is
    due, nor at a line break outside every enclosure *)
Lemma next_blanks s j r :
  Lt s -> post s = repeat 32 j ++ r -> hd_error r <> Some 32 -> prev_kind s <> EOF ->
  (j = 0%nat -> toplevel_cond s = false /\ (hd_error r = Some 10 -> encl s <> 0)) -> blanks_silent s j ->
  exists s', moved s s' (repeat 32 j) /\ post s' = r /\ next s = next_rest xs xc s'.
Proof.
  intros L E HR PE HT HK.
  assert (T : toplevel_cond s = false /\ opt_is (peek_cur_ch s) 10 && (encl s =? 0) = false).
  { destruct j as [|j'].
    - destruct (HT eq_refl) as [T1 T2]. split; [exact T1|].
      unfold peek_cur_ch. rewrite E. cbn [repeat app]. destruct r as [|c r']; [reflexivity|]. cbn [hd_error opt_is].
      destruct (c =? 10) eqn:EC; [|reflexivity]. apply Z.eqb_eq in EC. subst c.
      apply Z.eqb_neq, T2. reflexivity.
    - unfold toplevel_cond, peek_cur_ch. rewrite E. cbn [repeat app hd_error opt_is Z.eqb Pos.eqb orb negb].
      rewrite !andb_false_r. split; reflexivity. }
  destruct T as [T1 T2].
  destruct (lsid_skip s j r L E HR T1 T2 HK) as (s' & EL & A & P).
  exists s'. split; [exact A|]. split; [exact P|].
  rewrite next_eq. unfold bind at 1, gets. rewrite (kind_eqb_false _ _ PE).
  unfold bind at 1. rewrite EL. reflexivity.
Qed.

(** lex_space_indent_dedent yields the Newline token exactly as the big match would *)
Lemma next_nl_top s b :
  Lt s -> post s = 10 :: b -> encl s = 0 -> prev_kind s <> EOF -> next s = nl_tail xs xc s.
Proof.
  intros L E EN PE. rewrite (nl_tail_cons xs xc s 10 b L E), dispatch_10, next_eq.
  unfold bind at 1, gets. rewrite (kind_eqb_false _ _ PE).
  unfold lex_space_indent_dedent. unfold bind at 1. unfold bind at 1. rewrite (sync_run s L).
  unfold bind at 1, gets at 1. unfold bind at 1, ghost_pos, gets at 1.
  change (peek_cur_ch (sy s)) with (peek_cur_ch s). change (encl (sy s)) with (encl s).
  assert (PC : peek_cur_ch s = Some 10) by (unfold peek_cur_ch; rewrite E; reflexivity).
  rewrite PC, EN. cbn [opt_is Z.eqb Pos.eqb orb negb andb]. rewrite !andb_false_r. cbn [andb].
  unfold bind at 1. rewrite (consume_cons (sy s) 10 b E).
  unfold bind, peek_cur, peek_next, gets. rewrite encl_adv.
  change (encl (sy s)) with (encl s). rewrite EN. reflexivity.
Qed.

(** the call of next at [s] passes over [l] without emitting anything and goes on, at [s'], to the big match on a
    line break *)
Definition to_nl (s : lstate) (l b : list Z) (s' : lstate) : Prop :=
  moved s s' l /\ post s' = 10 :: b /\ next s = nl_tail xs xc s'.

Lemma to_nl_blanks s j b :
  Lt s -> post s = repeat 32 j ++ 10 :: b -> prev_kind s <> EOF -> (j = 0%nat -> encl s <> 0) -> blanks_silent s j ->
  exists s', to_nl s (repeat 32 j) b s'.
Proof.
  intros L E PE EN HK.
  destruct (next_blanks s j (10 :: b) L E ltac:(discriminate) PE) as (s' & A & P & N); [|exact HK|].
  - intros ->. split; [|intros _; exact (EN eq_refl)].
    unfold toplevel_cond, peek_cur_ch. rewrite E. cbn [repeat app hd_error opt_is Z.eqb Pos.eqb orb negb].
    rewrite !andb_false_r. reflexivity.
  - exists s'. split; [exact A|]. split; [exact P|].
    rewrite N. apply next_rest_plain. unfold peek_cur_ch. rewrite P. reflexivity.
Qed.

Lemma to_nl_comment s j text b :
  Lt s -> post s = repeat 32 j ++ 35 :: text ++ 10 :: b -> comment_text text -> prev_kind s <> EOF ->
  (j = 0%nat -> toplevel_cond s = false) -> blanks_silent s j ->
  exists s', to_nl s (repeat 32 j ++ 35 :: text) b s'.
Proof.
  intros L E CT PE HT HK.
  destruct (next_blanks s j (35 :: text ++ 10 :: b) L E ltac:(discriminate) PE) as (sa & A & P & N); [|exact HK|].
  - intros J. split; [exact (HT J)|discriminate].
  - destruct (next_rest_comment xs xc sa text (10 :: b) (proj1 A) P CT ltac:(right; reflexivity)) as (s' & B & Q & M).
    exists s'. split; [exact (moved_trans _ _ _ _ _ A B)|]. split; [exact Q|]. rewrite N. exact M.
Qed.

Lemma to_nl_at s b :
  Lt s -> post s = 10 :: b -> prev_kind s <> EOF ->
  (encl s <> 0 -> prev_kind s <> Newline /\ prev_kind s <> Dedent) ->
  exists s', to_nl s [] b s'.
Proof.
  intros L E PE PK. destruct (Z.eq_dec (encl s) 0) as [EN|EN].
  - exists s. split; [apply moved_refl; exact L|]. split; [exact E|]. apply (next_nl_top s b); assumption.
  - destruct (PK EN) as [PN PD]. apply (to_nl_blanks s 0 b L E PE); [intros _; exact EN|].
    apply blanks_after_token; congruence.
Qed.

Lemma line_end_join st1 st2 l1 l2 b s1 s2 :
  same_ctl st1 st2 -> to_nl st1 l1 b s1 -> to_nl st2 l2 b s2 -> joins xs xc [] st1 st2.
Proof.
  intros SC (A1 & P1 & N1) (A2 & P2 & N2). apply joins_alike.
  pose proof A1 as (L1 & _). pose proof A2 as (L2 & _).
  rewrite N1, N2. apply nl_tail_nl_sim; [|rewrite P1; reflexivity].
  apply simk_of; [exact L1|exact L2|exact (moved_ctl2 _ _ _ _ _ _ SC A1 A2)|congruence| | |reflexivity].
  - apply no_over; [exact L1|rewrite P1; discriminate].
  - apply no_over; [exact L2|rewrite P2; discriminate].
Qed.

Lemma same_ctl_set_prev a b k : same_ctl a b -> prev_kind a = k -> same_ctl a (set_prev b k).
Proof. intros (C1 & C2 & C3 & C4) K. repeat split; assumption. Qed.

Lemma extra_newline_token st1 st2 l s :
  to_nl st2 l (post st1) s -> Lt st1 -> same_ctl st1 st2 ->
  cursor st1 = zlen (pre st1) -> hd_error (pre st1) = Some 10 -> prev_kind st1 = Newline -> encl st1 = 0 ->
  joins xs xc [ETok Newline [10]] st1 st2.
Proof.
  intros (A & E & N) L1 SC2 O1 H1 PK EN. pose proof A as (L & _).
  assert (SC : same_ctl st1 s) by (eapply same_ctl_trans; [exact SC2|eapply moved_ctl; exact A]).
  destruct (nl_tail_newline xs xc s (post st1) L E) as (t & s2 & NT & K & CT & MV & P2).
  { destruct SC as (_ & X & _). congruence. }
  rewrite <- N in NT. replace (ETok Newline [10]) with (erase_item (ITok t)) by (cbn; rewrite K, CT; reflexivity).
  apply (joins_item _ _ _ _ _ _ _ NT), joins_sim.
  apply (line_start_simk st1 (set_prev s Newline) s2 L1 O1 H1); [| |exact MV|exact P2].
  - apply same_ctl_set_prev; assumption.
  - exact (no_over s L ltac:(rewrite E; discriminate)).
Qed.

Lemma extra_newline_skipped st1 st2 l s :
  to_nl st2 l (post st1) s -> Lt st1 -> same_ctl st1 st2 ->
  cursor st1 = zlen (pre st1) -> hd_error (pre st1) = Some 10 -> 0 < encl st1 -> joins xs xc [] st1 st2.
Proof.
  intros (A & E & N) L1 SC2 O1 H1 EN. pose proof A as (L & _).
  assert (SC : same_ctl st1 s) by (eapply same_ctl_trans; [exact SC2|eapply moved_ctl; exact A]).
  destruct (nl_tail_skip xs xc s (post st1) L E) as (s2 & NT & MV & P2).
  { destruct SC as (_ & X & _). lia. }
  rewrite <- N in NT. apply (joins_again _ _ _ _ _ _ NT), joins_sim.
  apply (line_start_simk st1 s s2 L1 O1 H1 SC); [exact (no_over s L ltac:(rewrite E; discriminate))|exact MV|exact P2].
Qed.

Lemma blanks_alike a b j k r :
  Lt a -> Lt b -> same_ctl a b -> post a = repeat 32 (S j) ++ r -> post b = repeat 32 (S k) ++ r ->
  hd_error r <> Some 32 -> r <> [] ->
  prev_kind a <> Newline -> prev_kind a <> Dedent -> prev_kind a <> BOF -> prev_kind a <> EOF ->
  alike step_sim (simk 1) (next a) (next b).
Proof.
  intros LA LB SC EA EB HR RN PN PD PB PE. pose proof SC as (C1 & C2 & C3 & C4).
  destruct (next_blanks a (S j) r LA EA HR PE ltac:(discriminate)) as (a' & MA & PA & NA);
    [apply blanks_after_token; congruence|].
  destruct (next_blanks b (S k) r LB EB HR ltac:(congruence) ltac:(discriminate)) as (b' & MB & PB' & NB);
    [apply blanks_after_token; congruence|].
  rewrite NA, NB. apply (next_rest_sim xs xc 0).
  pose proof MA as (LA' & HPA & _). pose proof MB as (LB' & HPB & _).
  apply simk_of; [exact LA'|exact LB'|exact (moved_ctl2 _ _ _ _ _ _ SC MA MB)|congruence| | |].
  - apply no_over; [exact LA'|rewrite PA; exact RN].
  - apply no_over; [exact LB'|rewrite PB'; exact RN].
  - rewrite HPA, HPB, !rev_repeat. reflexivity.
Qed.
End T.
