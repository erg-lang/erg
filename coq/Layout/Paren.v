(** What a function of the precedence-climbing reference (ExprParse/Spec.v, which
    [ExprParse.Props_C11.parse_is_climb] proves equal to the operator-stack parser of the implementation) reads does
    not depend on what follows it ([stable]): this is what makes parentheses around an operand redundant
    ([Props_C10.paren_invariant]). *)
From Coq Require Import ZArith NArith List Bool Arith Lia.
Require Import ErgV.ExprParse.Model ErgV.ExprParse.Spec ErgV.ExprParse.Proofs .
Import ListNotations.
Local Open Scope nat_scope.

(** [compat]: what may follow a complete piece of an expression without changing how the piece is read: the same
    next token, or one on which every loop of the parser stops *)
Definition inert (l : list tok) : Prop :=
  match l with
  | [] => True
  | TBin _ :: _ | TDot _ :: _ | TLP _ :: _ => False
  | _ => True
  end.
Definition compat (rem rem2 : list tok) : Prop := hd_error rem2 = hd_error rem \/ inert rem2.

Lemma compat_app o rem rem2 : compat rem rem2 -> compat (o ++ rem) (o ++ rem2).
Proof. intros H. destruct o as [|t o]; [exact H|]. left. reflexivity. Qed.

Lemma compat_refl r : compat r r.
Proof. left. reflexivity. Qed.

Definition stable {A} (g : list tok -> option (A * list tok)) : Prop :=
  forall ts v rem, g ts = Some (v, rem) ->
    exists o, ts = o ++ rem /\ forall rem2, compat rem rem2 -> g (o ++ rem2) = Some (v, rem2).

(** [stable g] says [reads g ts v rem] of every result [g ts = Some (v, rem)] *)
Definition reads {A} (g : list tok -> option (A * list tok)) (ts : list tok) (v : A) (rem : list tok) : Prop :=
  exists o, ts = o ++ rem /\ forall rem2, compat rem rem2 -> g (o ++ rem2) = Some (v, rem2).

Lemma compat_head (P : option tok -> Prop) rem rem2 :
  (forall x, inert x -> P (hd_error x)) -> P (hd_error rem) -> compat rem rem2 -> P (hd_error rem2).
Proof. intros Hi HP [C|C]; [rewrite C; exact HP|apply Hi; exact C]. Qed.

Lemma reads_ret {A} (v : A) rem : reads (fun x => Some (v, x)) rem v rem.
Proof. exists []. split; reflexivity. Qed.

Lemma reads_guard {A} (g h : list tok -> option (A * list tok)) (P : option tok -> Prop) p ts v rem :
  (forall x, P (hd_error x) -> g (p ++ x) = h x) -> (forall x, inert x -> P (hd_error x)) -> P (hd_error ts) ->
  reads h ts v rem -> reads g (p ++ ts) v rem.
Proof.
  intros G Hi HP (o & -> & S). exists (p ++ o). split; [apply app_assoc|]. intros rem2 C.
  rewrite <- app_assoc, G; [apply S; exact C|].
  destruct o as [|t o]; [exact (compat_head P rem rem2 Hi HP C)|exact HP].
Qed.

Lemma reads_pre {A} (g h : list tok -> option (A * list tok)) p ts v rem :
  (forall x, g (p ++ x) = h x) -> reads h ts v rem -> reads g (p ++ ts) v rem.
Proof. intros G. apply (reads_guard g h (fun _ => True)); auto. Qed.

Lemma reads_seq {A B} (g : list tok -> option (A * list tok)) (g1 : list tok -> option (B * list tok))
      (g2 : list tok -> option (A * list tok)) p ts x r v rem :
  (forall y r', g1 y = Some (x, r') -> g (p ++ y) = g2 r') ->
  reads g1 ts x r -> reads g2 r v rem -> reads g (p ++ ts) v rem.
Proof.
  intros G (o1 & -> & S1) (o2 & -> & S2). exists (p ++ o1 ++ o2). split; [rewrite !app_assoc; reflexivity|].
  intros rem2 C. rewrite <- !app_assoc, (G _ (o2 ++ rem2)); [apply S2; exact C|]. apply S1, compat_app, C.
Qed.

Lemma c_expr_stable f m :
  stable (c_operand f) -> (forall l, stable (c_loop f m l)) -> stable (c_expr (S f) m).
Proof.
  intros IHo IHl ts v rem H. cbn [c_expr] in H.
  destruct (c_operand f ts) as [[l r1]|] eqn:E; [|discriminate].
  apply (reads_seq _ (c_operand f) (c_loop f m l) [] ts l r1); [|apply IHo; exact E|apply IHl; exact H].
  intros y r' Ey. cbn [app c_expr]. rewrite Ey. reflexivity.
Qed.

(** the loop stops at everything but an operator that binds at least as tightly as [m] *)
Lemma c_loop_stable f m l :
  (forall m', stable (c_expr f m')) -> (forall l', stable (c_loop f m l')) -> stable (c_loop (S f) m l).
Proof.
  intros IHe IHl ts v rem H. cbn [c_loop] in H.
  set (P := fun t => match t with Some (TBin o) => lvl o < m | _ => True end).
  assert (STOP : P (hd_error ts) -> Some (l, ts) = Some (v, rem) -> reads (c_loop (S f) m l) ts v rem).
  { intros Hts X. injection X as <- <-.
    apply (reads_guard _ (fun x => Some (l, x)) P [] ts); [| |exact Hts|apply reads_ret].
    - intros x Hx. cbn [app c_loop]. destruct x as [|[] x']; try reflexivity.
      apply Nat.leb_gt in Hx. rewrite Hx. reflexivity.
    - intros [|[] x] Hx; cbn in *; trivial; contradiction. }
  destruct ts as [|t r0]; [apply STOP; [exact I|exact H]|].
  destruct t; try (apply STOP; [exact I|exact H]).
  destruct (m <=? lvl o) eqn:EL; [|apply STOP; [apply Nat.leb_gt; exact EL|exact H]].
  destruct (c_expr f (S (lvl o)) r0) as [[rhs r']|] eqn:E; [|discriminate].
  apply (reads_seq _ (c_expr f (S (lvl o))) (c_loop f m (EBin o l rhs)) [TBin o] r0 rhs r');
    [|apply IHe; exact E|apply IHl; exact H].
  intros y r'' Ey. cbn [app c_loop]. rewrite EL, Ey. reflexivity.
Qed.

Lemma c_operand_stable f :
  (forall m, stable (c_expr f m)) -> (forall obj, stable (c_postfix f obj)) -> stable (c_operand (S f)).
Proof.
  intros IHe IHp ts v rem H. cbn [c_operand] in H. destruct ts as [|t r0]; [discriminate|].
  destruct t; try discriminate.
  - apply (reads_pre _ (c_postfix f (EId n)) [TSym n]); [intros x; reflexivity|apply IHp; exact H].
  - apply (reads_pre _ (c_postfix f (ELit k s)) [TLit k s]); [intros x; reflexivity|apply IHp; exact H].
  - destruct (c_expr f (S pre_lvl) r0) as [[e1 r1]|] eqn:E; [|discriminate]. injection H as <- <-.
    apply (reads_seq _ (c_expr f (S pre_lvl)) (fun x => Some (EUn p e1, x)) [TPre p] r0 e1 r1);
      [|apply IHe; exact E|apply reads_ret].
    intros y r' Ey. cbn [app c_operand]. rewrite Ey. reflexivity.
  - destruct (c_expr f 0 r0) as [[e1 r1]|] eqn:E; [|discriminate].
    destruct r1 as [|t1 r1]; [discriminate|]. destruct t1; try discriminate.
    apply (reads_seq _ (c_expr f 0) (fun x => match x with TRP :: x' => c_postfix f e1 x' | _ => None end)
                     [TLP adj] r0 e1 (TRP :: r1)); [|apply IHe; exact E|].
    + intros y r' Ey. cbn [app c_operand]. rewrite Ey. reflexivity.
    + apply (reads_pre _ (c_postfix f e1) [TRP]); [intros x; reflexivity|apply IHp; exact H].
Qed.

Lemma c_postfix_stable f obj :
  (forall obj', stable (c_postfix f obj')) -> stable (c_args f) -> stable (c_postfix (S f) obj).
Proof.
  intros IHp IHa ts v rem H. cbn [c_postfix] in H.
  set (P := fun t => match t with Some (TDot _) => False | _ => True end).
  assert (STOP : P (hd_error ts) -> Some (obj, ts) = Some (v, rem) -> reads (c_postfix (S f) obj) ts v rem).
  { intros Hts X. injection X as <- <-.
    apply (reads_guard _ (fun x => Some (obj, x)) P [] ts); [| |exact Hts|apply reads_ret].
    - intros x Hx. cbn [app c_postfix]. destruct x as [|[] x']; try reflexivity. contradiction.
    - intros [|[] x] Hx; cbn in *; trivial. }
  destruct ts as [|t r0]; [apply STOP; [exact I|exact H]|].
  destruct t; try (apply STOP; [exact I|exact H]).
  destruct adj; [|discriminate].
  destruct r0 as [|t2 r1]; [discriminate|]. destruct t2; try discriminate.
  (* what follows the name must not become an adjacent `(`, and no token on which the parser stops is one *)
  set (Q := fun t => match t with Some (TLP true) => False | _ => True end).
  assert (ATTR : Q (hd_error r1) -> c_postfix f (EAttr obj n) r1 = Some (v, rem) ->
                 reads (c_postfix (S f) obj) (TDot true :: TSym n :: r1) v rem).
  { intros NLP H'.
    apply (reads_guard _ (c_postfix f (EAttr obj n)) Q [TDot true; TSym n] r1); [| |exact NLP|apply IHp; exact H'].
    - intros x Hx. cbn [app c_postfix]. destruct x as [|[] x']; try reflexivity.
      destruct adj; [contradiction|reflexivity].
    - intros [|[] x] Hx; cbn in *; trivial; contradiction. }
  destruct r1 as [|t3 r2]; [apply ATTR; [exact I|exact H]|].
  destruct t3; try (apply ATTR; [exact I|exact H]).
  destruct adj; [|apply ATTR; [exact I|exact H]].
  destruct (c_args f r2) as [[args r3]|] eqn:E; [|discriminate].
  apply (reads_seq _ (c_args f) (c_postfix f (ECall obj (Some n) args)) [TDot true; TSym n; TLP true] r2 args r3);
    [|apply IHa; exact E|apply IHp; exact H].
  intros y r' Ey. cbn [app c_postfix]. rewrite Ey. reflexivity.
Qed.

(** an expression does not begin with `)`, so the first argument is read the same way after the replacement *)
Lemma c_args_stable f :
  stable (c_expr f 0) -> (forall acc, stable (c_args_tl f acc)) -> stable (c_args (S f)).
Proof.
  intros IHe IHt ts v rem H. cbn [c_args] in H.
  assert (GEN : match c_expr f 0 ts with Some (a, r) => c_args_tl f [a] r | None => None end = Some (v, rem) ->
                reads (c_args (S f)) ts v rem).
  { intros H'. destruct (c_expr f 0 ts) as [[a r1]|] eqn:E; [|discriminate].
    apply (reads_seq _ (c_expr f 0) (c_args_tl f [a]) [] ts a r1); [|apply IHe; exact E|apply IHt; exact H'].
    intros y r' Ey. cbn [app c_args]. rewrite Ey. pose proof (c_expr_head _ _ _ _ _ Ey) as HH.
    destruct y as [|[] y']; try reflexivity; contradiction. }
  destruct ts as [|t r0]; [apply GEN; exact H|].
  destruct t; try (apply GEN; exact H).
  injection H as <- <-. apply (reads_pre _ (fun x => Some ([], x)) [TRP]); [intros x; reflexivity|apply reads_ret].
Qed.

Lemma c_args_tl_stable f acc :
  stable (c_expr f 0) -> (forall acc', stable (c_args_tl f acc')) -> stable (c_args_tl (S f) acc).
Proof.
  intros IHe IHt ts v rem H. cbn [c_args_tl] in H. destruct ts as [|t r0]; [discriminate|].
  destruct t; try discriminate.
  - injection H as <- <-. apply (reads_pre _ (fun x => Some (acc, x)) [TRP]); [intros x; reflexivity|apply reads_ret].
  - destruct (c_expr f 0 r0) as [[a r1]|] eqn:E; [|discriminate].
    apply (reads_seq _ (c_expr f 0) (c_args_tl f (acc ++ [a])) [TComma] r0 a r1);
      [|apply IHe; exact E|apply IHt; exact H].
    intros y r' Ey. cbn [app c_args_tl]. rewrite Ey. reflexivity.
Qed.
