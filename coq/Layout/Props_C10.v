(** C10 — Parsing is deterministic and insensitive to comments and layout.

    Lexer level: the model of C08 (Lexer/Model.v at the switches [true true]).  [rest xs xc n st] are the
    items Iterator::next still yields from the lexer state [st]; [erase] drops every source position (tokens are
    compared by kind and content, errors by class).  [Lt st] is the part of C08's state invariant the control flow
    depends on (every state of a run satisfies it: [reachable_Lt]).
    Parser level: the expression grammar of C11 (ExprParse/Spec.v), which ExprParse.Props_C11.parse_is_climb
    proves equal to the operator-stack parser of the implementation.

    Determinism: the models are functions.  For the implementation it is observed by the check (every text is
    parsed twice).

    PARTIAL.  The lexer theorems are stated for an insertion at a token boundary of a run (any lexer state there,
    with any history), for the WHOLE rest of the file.  What they do not cover: (i) that the at most two tokens
    BEFORE the insertion, whose look-ahead reaches the inserted text, are unchanged -- false in general, see
    [trailing_space_opfix_refuted]; (ii) the statement parser (blocks, definitions, ...), which is not modelled: its
    invariance is sampled by the check on the real parser.  Full statement, for the record:
      forall src p ins, (ins at p is one of the rewrites above) ->
        erase (lex (insert_at src p ins)) = erase (lex src)
      (plus one Newline token for a blank / comment line), and the same for the syntax tree of the real parser. *)
From Coq Require Import ZArith NArith List Bool Arith Lia.
Require Import ErgV.Lexer.Model ErgV.Lexer.Spec ErgV.Lexer.Proofs .
Require Import ErgV.Layout.Sim ErgV.Layout.SimSub ErgV.Layout.SimNext ErgV.Layout.Model ErgV.Layout.Proofs .
Require ErgV.ExprParse.Model ErgV.ExprParse.Spec ErgV.Layout.Paren .
Import ListNotations.
Open Scope Z_scope.

Theorem reachable_Lt : forall (src : list Z) (st : lstate), Inv src st -> Lt st.
Proof.
  intros src st I. constructor.
  - apply (inv_cur _ _ I).
  - apply (inv_over _ _ I).
  - rewrite (inv_len _ _ I). symmetry. apply Inv_pre_le. exact I.
  - rewrite (inv_head _ _ I). pose proof (since_nl_bounds (pre st)). lia.
Qed.

(** THE LEXER DOES NOT DEPEND ON WHERE IT IS.  Two lexer states that agree on the remaining input, the indentation
    stack, the enclosure level, the kind of the previous token, the interpolation stack and the last character
    consumed ([simk 1]) yield the same items modulo positions -- whatever text, line and column came before. *)
Theorem lex_position_independent : forall (xs xc : Z -> bool) (n1 n2 : nat) (a b : lstate) (r1 r2 : list item),
  simk 1 a b -> rest xs xc n1 a = Ok r1 -> rest xs xc n2 b = Ok r2 -> erase r1 = erase r2.
Proof. intros xs xc n1 n2 a b r1 r2 S E1 E2. symmetry. exact (joins_rest xs xc [] a b (joins_sim xs xc a b S) n1 n2 r1 r2 E1 E2). Qed.

(** a lexer state between two tokens: [p] consumed (last character first), [q] to come *)
Definition st_at (p q : list Z) (ind : list Z) (e : Z) (pk : tkind) : lstate :=
  mkst p q (zlen p) (zlen p + zlen q) ind e pk 0 0 0 0 [INot].
Lemma Lt_st_at p q ind e pk : Lt (st_at p q ind e pk).
Proof. constructor; cbn; pose proof (zlen_nonneg p); pose proof (zlen_nonneg q); lia. Qed.

(** COMMENT.  A `#` comment inserted before a line break, after a token of the same line
    ([toplevel_cond]: the comment does not stand in column 0 of a line inside an indented block -- that is the known
    finding [comment_line_indent_refuted]): the rest of the stream is unchanged. *)
Theorem comment_invariant_partial :
  forall (xs xc : Z -> bool) (st1 st2 : lstate) (text b : list Z),
  Lt st1 -> Lt st2 -> same_ctl st1 st2 ->
  post st1 = 10 :: b -> post st2 = 35 :: text ++ 10 :: b -> comment_text text ->
  prev_kind st1 <> Newline -> prev_kind st1 <> Dedent -> prev_kind st1 <> EOF ->
  toplevel_cond st2 = false ->
  forall n1 n2 r1 r2, rest xs xc n1 st1 = Ok r1 -> rest xs xc n2 st2 = Ok r2 -> erase r1 = erase r2.
Proof.
  intros xs xc st1 st2 text b L1 L2 SC E1 E2 CT PN PD PE T2 n1 n2 r1 r2 R1 R2. pose proof SC as (C1 & C2 & C3 & C4).
  destruct (to_nl_at xs xc st1 b L1 E1 PE ltac:(intros _; split; assumption)) as (s1 & H1).
  destruct (to_nl_comment xs xc st2 0 text b L2 E2 CT ltac:(congruence) ltac:(intros _; exact T2)) as (s2 & H2);
    [apply blanks_after_token; congruence|].
  symmetry. exact (joins_rest xs xc [] _ _ (line_end_join xs xc st1 st2 _ _ b s1 s2 SC H1 H2) n1 n2 r1 r2 R1 R2).
Qed.

Example comment_example :
  (* after `x = 1`: a line break, then `y`;  with ` c` as comment text *)
  let p := [49;32;61;32;120] in
  let st1 := st_at p (10 :: [121;10]) [] 0 NatLit in
  let st2 := st_at p (35 :: [32;99] ++ 10 :: [121;10]) [] 0 NatLit in
  Lt st1 /\ Lt st2 /\ same_ctl st1 st2 /\ comment_text [32;99] /\ toplevel_cond st2 = false /\
  prev_kind st1 <> Newline /\ prev_kind st1 <> Dedent /\ prev_kind st1 <> EOF.
Proof.
  cbv zeta. split; [apply Lt_st_at|]. split; [apply Lt_st_at|]. split; [repeat split|].
  split; [split; [repeat constructor; discriminate|discriminate]|]. split; [reflexivity|].
  repeat split; discriminate.
Qed.

(** TRAILING BLANKS before a line break, after a token of the same line. *)
Theorem trailing_space_invariant_partial :
  forall (xs xc : Z -> bool) (st1 st2 : lstate) (j : nat) (b : list Z),
  Lt st1 -> Lt st2 -> same_ctl st1 st2 ->
  post st1 = 10 :: b -> post st2 = repeat 32 (S j) ++ 10 :: b ->
  prev_kind st1 <> Newline -> prev_kind st1 <> Dedent -> prev_kind st1 <> BOF -> prev_kind st1 <> EOF ->
  forall n1 n2 r1 r2, rest xs xc n1 st1 = Ok r1 -> rest xs xc n2 st2 = Ok r2 -> erase r1 = erase r2.
Proof.
  intros xs xc st1 st2 j b L1 L2 SC E1 E2 PN PD PB PE n1 n2 r1 r2 R1 R2. pose proof SC as (C1 & C2 & C3 & C4).
  destruct (to_nl_at xs xc st1 b L1 E1 PE ltac:(intros _; split; assumption)) as (s1 & H1).
  destruct (to_nl_blanks xs xc st2 (S j) b L2 E2 ltac:(congruence) ltac:(discriminate)) as (s2 & H2);
    [apply blanks_after_token; congruence|].
  symmetry. exact (joins_rest xs xc [] _ _ (line_end_join xs xc st1 st2 _ _ b s1 s2 SC H1 H2) n1 n2 r1 r2 R1 R2).
Qed.

Example trailing_space_example :
  let p := [49;32;61;32;120] in
  let st1 := st_at p (10 :: [121;10]) [4] 1 NatLit in
  let st2 := st_at p (repeat 32 3 ++ 10 :: [121;10]) [4] 1 NatLit in
  Lt st1 /\ Lt st2 /\ same_ctl st1 st2 /\ prev_kind st1 <> Newline /\ prev_kind st1 <> BOF.
Proof. cbv zeta. split; [apply Lt_st_at|]. split; [apply Lt_st_at|]. split; [repeat split|]. split; discriminate. Qed.

(** A BLANK LINE.  What the lexer does with one more line break at the start of a line: outside every enclosure
    (after a Newline token) exactly one more Newline token is yielded, the rest is unchanged; inside an enclosure
    nothing is yielded. *)
Theorem blank_line_invariant_partial :
  forall (xs xc : Z -> bool) (st1 st2 : lstate),
  Lt st1 -> Lt st2 -> same_ctl st1 st2 -> post st2 = 10 :: post st1 ->
  cursor st1 = zlen (pre st1) -> hd_error (pre st1) = Some 10 ->
  prev_kind st1 = Newline -> encl st1 = 0 ->
  forall n1 n2 r1 r2, rest xs xc n1 st1 = Ok r1 -> rest xs xc n2 st2 = Ok r2 ->
  erase r2 = ETok Newline [10] :: erase r1.
Proof.
  intros xs xc st1 st2 L1 L2 SC E2 O1 H1 PK EN. pose proof SC as (C1 & C2 & C3 & C4).
  destruct (to_nl_at xs xc st2 (post st1) L2 E2 ltac:(congruence) ltac:(congruence)) as (s2 & H2).
  exact (joins_rest xs xc _ _ _ (extra_newline_token xs xc st1 st2 _ s2 H2 L1 SC O1 H1 PK EN)).
Qed.

Theorem blank_line_in_enclosure_partial :
  forall (xs xc : Z -> bool) (st1 st2 : lstate),
  Lt st1 -> Lt st2 -> same_ctl st1 st2 -> post st2 = 10 :: post st1 ->
  cursor st1 = zlen (pre st1) -> hd_error (pre st1) = Some 10 ->
  prev_kind st1 <> Newline -> prev_kind st1 <> Dedent -> prev_kind st1 <> EOF -> 0 < encl st1 ->
  forall n1 n2 r1 r2, rest xs xc n1 st1 = Ok r1 -> rest xs xc n2 st2 = Ok r2 -> erase r2 = erase r1.
Proof.
  intros xs xc st1 st2 L1 L2 SC E2 O1 H1 PN PD PE EN. pose proof SC as (C1 & C2 & C3 & C4).
  destruct (to_nl_at xs xc st2 (post st1) L2 E2 ltac:(congruence) ltac:(intros _; split; congruence)) as (s2 & H2).
  exact (joins_rest xs xc [] _ _ (extra_newline_skipped xs xc st1 st2 _ s2 H2 L1 SC O1 H1 EN)).
Qed.

Example blank_line_example :
  let p := [10;49;32;61;32;120] in
  let st1 := st_at p [121;10] [] 0 Newline in
  let st2 := st_at p (10 :: [121;10]) [] 0 Newline in
  Lt st1 /\ Lt st2 /\ same_ctl st1 st2 /\ post st2 = 10 :: post st1 /\ cursor st1 = zlen (pre st1) /\
  hd_error (pre st1) = Some 10.
Proof. cbv zeta. split; [apply Lt_st_at|]. split; [apply Lt_st_at|]. repeat split. Qed.

(** A COMMENT LINE whose blanks are exactly the indentation of the open block ([zsum] of the indentation stack):
    exactly one more Newline token.  (With any other number of blanks: [comment_line_indent_refuted].) *)
Theorem comment_line_invariant_partial :
  forall (xs xc : Z -> bool) (st1 st2 : lstate) (j : nat) (text : list Z),
  Lt st1 -> Lt st2 -> same_ctl st1 st2 ->
  post st2 = repeat 32 j ++ 35 :: text ++ 10 :: post st1 -> comment_text text ->
  cursor st1 = zlen (pre st1) -> hd_error (pre st1) = Some 10 ->
  prev_kind st1 = Newline -> encl st1 = 0 ->
  Z.of_nat j = ProofsNext.zsum (indent_stack st1) -> Z.of_nat j <= 100 -> (j = 0%nat -> indent_stack st1 = []) ->
  forall n1 n2 r1 r2, rest xs xc n1 st1 = Ok r1 -> rest xs xc n2 st2 = Ok r2 ->
  erase r2 = ETok Newline [10] :: erase r1.
Proof.
  intros xs xc st1 st2 j text L1 L2 SC E2 CT O1 H1 PK EN HJ H100 HJ0. pose proof SC as (C1 & C2 & C3 & C4).
  (* the first call of run 2: the blanks (Ordering::Equal), the comment, then the line break *)
  destruct (to_nl_comment xs xc st2 j text (post st1) L2 E2 CT ltac:(congruence)) as (s2 & H2).
  { intros ->. unfold toplevel_cond. rewrite <- C1, (HJ0 eq_refl). cbn [negb andb]. rewrite !andb_false_r. reflexivity. }
  { right. split; [left; congruence|]. split; [congruence|exact H100]. }
  exact (joins_rest xs xc _ _ _ (extra_newline_token xs xc st1 st2 _ s2 H2 L1 SC O1 H1 PK EN)).
Qed.

Example comment_line_example :
  let p := [10;121;32;32;32;32;10;61;32;120;32;102] in       (* f x = NL four blanks y NL *)
  let st1 := st_at p [32;32;32;32;122;10] [4] 0 Newline in
  let st2 := st_at p (repeat 32 4 ++ 35 :: [32;99] ++ 10 :: [32;32;32;32;122;10]) [4] 0 Newline in
  Lt st1 /\ Lt st2 /\ same_ctl st1 st2 /\ Z.of_nat 4 = ProofsNext.zsum (indent_stack st1) /\ comment_text [32;99].
Proof.
  cbv zeta. split; [apply Lt_st_at|]. split; [apply Lt_st_at|]. split; [repeat split|]. split; [reflexivity|].
  split; [repeat constructor; discriminate|discriminate].
Qed.

(** A CONTINUATION: a backslash and a line break between two tokens that are separated by blanks; the next token keeps
    at least one blank in front of it (otherwise: [continuation_col0_refuted], [trailing_space_opfix_refuted]). *)
Theorem continuation_invariant_partial :
  forall (xs xc : Z -> bool) (st1 st2 : lstate) (j j1 j2 : nat) (r : list Z),
  Lt st1 -> Lt st2 -> same_ctl st1 st2 ->
  post st1 = repeat 32 (S j) ++ r -> post st2 = repeat 32 j1 ++ 92 :: 10 :: repeat 32 (S j2) ++ r ->
  hd_error r <> Some 32 -> r <> [] ->
  prev_kind st1 <> Newline -> prev_kind st1 <> Dedent -> prev_kind st1 <> BOF -> prev_kind st1 <> EOF ->
  toplevel_cond st2 = false ->
  forall n1 n2 r1 r2, rest xs xc n1 st1 = Ok r1 -> rest xs xc n2 st2 = Ok r2 -> erase r1 = erase r2.
Proof.
  intros xs xc st1 st2 j j1 j2 r L1 L2 SC E1 E2 HR RN PN PD PB PE T2 n1 n2 r1 r2 R1 R2.
  pose proof SC as (C1 & C2 & C3 & C4).
  (* run 2, first call: blanks, backslash, line break: nothing is emitted *)
  destruct (next_blanks xs xc st2 j1 (92 :: 10 :: repeat 32 (S j2) ++ r) L2 E2 ltac:(discriminate) ltac:(congruence))
    as (s2a & A2 & P2 & N2).
  { intros _. split; [exact T2|discriminate]. }
  { apply blanks_after_token; congruence. }
  destruct (nl_tail_continuation xs xc s2a (repeat 32 (S j2) ++ r) (proj1 A2) P2) as (s2c & N2c & CA & QC).
  rewrite <- (next_rest_plain xs xc s2a), <- N2 in N2c by (unfold peek_cur_ch; rewrite P2; reflexivity).
  (* then both runs stand before blanks and the same token *)
  symmetry. refine (joins_rest xs xc [] _ _ (joins_again _ _ _ _ _ _ N2c (joins_alike _ _ _ _ _)) n1 n2 r1 r2 R1 R2).
  apply (blanks_alike xs xc st1 s2c j j2 r L1 (proj1 CA)); try assumption.
  eapply same_ctl_trans; [exact SC|]. exact (moved_ctl _ _ _ (moved_trans _ _ _ _ _ A2 CA)).
Qed.

Example continuation_example :
  let p := [49;32;61;32;120] in                                 (* x = 1 *)
  let st1 := st_at p (repeat 32 1 ++ [43;32;50;10]) [] 0 NatLit in
  let st2 := st_at p (repeat 32 1 ++ 92 :: 10 :: repeat 32 4 ++ [43;32;50;10]) [] 0 NatLit in
  Lt st1 /\ Lt st2 /\ same_ctl st1 st2 /\ toplevel_cond st2 = false /\ hd_error [43;32;50;10] <> Some 32.
Proof.
  cbv zeta. split; [apply Lt_st_at|]. split; [apply Lt_st_at|]. split; [repeat split|]. split; [reflexivity|discriminate].
Qed.

Definition ascii_letter (c : Z) : bool := ((97 <=? c) && (c <=? 122)) || ((65 <=? c) && (c <=? 90)).
Definition ascii_cont (c : Z) : bool := ascii_letter c || ((48 <=? c) && (c <=? 57)) || (c =? 95).
Definition elex (src : list Z) : option (list eitem) :=
  match lex ascii_letter ascii_cont true true src with Ok items => Some (erase items) | _ => None end.

(** the rewrites on concrete texts: `x = 1 NL y = 2 NL` with a trailing comment / trailing blanks (same stream), with a
    blank line (one more Newline); a block with a comment line at its indentation (one more Newline); a continuation *)
Example rewrites_on_texts :
  let a := [120;32;61;32;49;10;121;32;61;32;50;10] in
  elex [120;32;61;32;49;32;35;32;99;10;121;32;61;32;50;10] = elex a /\
  elex [120;32;61;32;49;32;32;32;10;121;32;61;32;50;10] = elex a /\
  (exists l1 l2, elex a = Some (l1 ++ ETok Newline [10] :: l2) /\
                 elex [120;32;61;32;49;10;10;121;32;61;32;50;10] = Some (l1 ++ ETok Newline [10] :: ETok Newline [10] :: l2)) /\
  (exists l1 l2, elex [102;32;120;32;61;10;32;32;32;32;121;10;32;32;32;32;122;10] = Some (l1 ++ l2) /\
                 elex [102;32;120;32;61;10;32;32;32;32;121;10;32;32;32;32;35;32;99;10;32;32;32;32;122;10]
                 = Some (l1 ++ ETok Newline [10] :: l2) /\ l1 <> [] /\ l2 <> []) /\
  elex [120;32;61;32;49;32;92;10;32;32;32;32;43;32;50;10] = elex [120;32;61;32;49;32;43;32;50;10].
Proof.
  cbv zeta. split; [vm_compute; reflexivity|]. split; [vm_compute; reflexivity|]. split.
  - exists [ETok Symbol [120]; ETok Assign [61]; ETok NatLit [49]],
           [ETok Symbol [121]; ETok Assign [61]; ETok NatLit [50]; ETok Newline [10]; ETok EOF [0]].
    split; vm_compute; reflexivity.
  - split; [|vm_compute; reflexivity].
    exists [ETok Symbol [102]; ETok Symbol [120]; ETok Assign [61]; ETok Newline [10]; ETok Indent [32;32;32;32];
            ETok Symbol [121]; ETok Newline [10]],
           [ETok Symbol [122]; ETok Newline [10]; ETok Dedent []; ETok EOF [0]].
    split; [vm_compute; reflexivity|]. split; [vm_compute; reflexivity|]. split; discriminate.
Qed.

(** a comment line in column 0 inside an indented block closes the block (a Dedent is yielded) *)
Theorem comment_line_indent_refuted :
  exists src src', (exists a b, src = a ++ b /\ src' = a ++ [35;32;99;10] ++ b) /\
                   elex src <> None /\ elex src' <> None /\
                   (forall l1 l2, elex src = Some (l1 ++ l2) -> elex src' <> Some (l1 ++ ETok Newline [10] :: l2)).
Proof.
  set (a := [102;32;120;32;61;10;32;32;32;32;121;10]). set (b := [32;32;32;32;122;10]).
  exists (a ++ b), (a ++ [35;32;99;10] ++ b).
  split; [exists a, b; split; reflexivity|].
  split; [vm_compute; discriminate|]. split; [vm_compute; discriminate|].
  (* the two streams have 11 and 14 items *)
  intros l1 l2 H1 H2.
  apply (f_equal (option_map (@length eitem))) in H1, H2. cbn [option_map] in H1, H2.
  rewrite app_length in H1, H2. cbn [length] in H2.
  assert (L1 : option_map (@length eitem) (elex (a ++ b)) = Some 11%nat) by (vm_compute; reflexivity).
  assert (L2 : option_map (@length eitem) (elex (a ++ [35;32;99;10] ++ b)) = Some 14%nat) by (vm_compute; reflexivity).
  rewrite H1 in L1. rewrite H2 in L2. injection L1 as L1. injection L2 as L2. lia.
Qed.

(** `(x +` line break `1)` and the same with a blank after the `+`: prefix plus in one, infix plus in the other *)
Theorem trailing_space_opfix_refuted :
  exists src src', (exists a b, src = a ++ b /\ src' = a ++ [32] ++ b /\ hd_error b = Some 10) /\
                   elex src <> None /\ elex src' <> None /\ elex src <> elex src'.
Proof.
  exists [40;120;32;43;10;49;41], [40;120;32;43;32;10;49;41].
  split; [exists [40;120;32;43], [10;49;41]; repeat split|].
  split; [vm_compute; discriminate|]. split; [vm_compute; discriminate|]. vm_compute. discriminate.
Qed.

(** a block comment followed by a blank is a lexical error *)
Theorem block_comment_blank_refuted :
  exists src src', src' = [35;91;99;93;35;32] ++ src /\
                   (exists items, lex ascii_letter ascii_cont true true src = Ok items /\ errors_of items = []) /\
                   (exists items, lex ascii_letter ascii_cont true true src' = Ok items /\ errors_of items <> []).
Proof.
  exists [120;32;61;32;49;10]. eexists. split; [reflexivity|].
  split; eexists; (split; [vm_compute; reflexivity|]); [reflexivity|discriminate].
Qed.

(** a continuation line that starts in column 0 inside an indented block closes the block *)
Theorem continuation_col0_refuted :
  exists src src', (exists a b, src = a ++ [32] ++ b /\ src' = a ++ [32;92;10] ++ b) /\
                   elex src <> None /\ elex src' <> None /\ elex src <> elex src'.
Proof.
  set (a := [102;32;120;32;61;10;32;32;32;32;121]). set (b := [43;32;49;10]).
  exists (a ++ [32] ++ b), (a ++ [32;92;10] ++ b).
  split; [exists a, b; split; reflexivity|].
  split; [vm_compute; discriminate|]. split; [vm_compute; discriminate|]. vm_compute. discriminate.
Qed.

Import ErgV.ExprParse.Model ErgV.ExprParse.Spec ErgV.Layout.Paren.
Local Open Scope nat_scope.

(** Every function of the expression grammar reads a prefix of its input and is insensitive to what follows it,
    as long as the next token stays the same or becomes one on which the grammar stops anyway. *)
Theorem parse_prefix_stable : forall f,
  (forall m, stable (c_expr f m)) /\ (forall m l, stable (c_loop f m l)) /\ stable (c_operand f) /\
  (forall obj, stable (c_postfix f obj)) /\ stable (c_args f) /\ (forall acc, stable (c_args_tl f acc)).
Proof.
  induction f as [|f IH]; [repeat split; intros; intros ts v rem H; discriminate|].
  destruct IH as (IHe & IHl & IHo & IHp & IHa & IHt).
  split; [intros m; apply c_expr_stable; [exact IHo|apply IHl]|].
  split; [intros m l; apply c_loop_stable; [exact IHe|apply IHl]|].
  split; [apply c_operand_stable; assumption|].
  split; [intros obj; apply c_postfix_stable; assumption|].
  split; [apply c_args_stable; [apply IHe|exact IHt]|].
  intros acc. apply c_args_tl_stable; [apply IHe|exact IHt].
Qed.

(** REDUNDANT PARENTHESES around an operand: wherever the grammar reads an operand [o] (tree [e], continuing with
    [r], which -- as after every complete operand -- does not begin with a member access), it reads `(` [o] `)` as the
    same tree with the same continuation, whether or not the parenthesis touches the previous token ([b]). *)
Theorem paren_invariant : forall (f : nat) (ts : list tok) (e : expr) (r : list tok),
  c_operand f ts = Some (e, r) -> (match r with TDot _ :: _ => False | _ => True end) ->
  exists o, ts = o ++ r /\ forall b, c_operand (S (S f)) (TLP b :: o ++ TRP :: r) = Some (e, r).
Proof.
  intros f ts e r H ND. destruct (parse_prefix_stable f) as (_ & _ & SO & _).
  destruct (SO ts e r H) as (o & -> & S1). exists o. split; [reflexivity|]. intros b.
  cbn [c_operand c_expr]. rewrite (S1 (TRP :: r)) by (right; exact I).
  destruct f as [|f']; [discriminate|]. cbn [c_loop]. apply ErgV.ExprParse.Proofs.c_postfix_nodot; [lia|exact ND].
Qed.

(** a * (b.m(c)) + d   against   a * b.m(c) + d : the reference grammar and the operator-stack parser of the
    implementation (parse_is_climb) give the same tree *)
Example paren_example :
  let plain := [TSym 1; TBin Star; TSym 2; TDot true; TSym 20; TLP true; TSym 3; TRP; TBin Plus; TSym 4] in
  let wrapped := [TSym 1; TBin Star; TLP false; TSym 2; TDot true; TSym 20; TLP true; TSym 3; TRP; TRP; TBin Plus; TSym 4] in
  climb wrapped = climb plain /\ parse wrapped = parse plain /\
  climb plain = Some (EBin Plus (EBin Star (EId 1) (ECall (EId 2) (Some 20%Z) [EId 3])) (EId 4)) /\
  c_operand 10 (skipn 2 plain) = Some (ECall (EId 2) (Some 20%Z) [EId 3], [TBin Plus; TSym 4]).
Proof. vm_compute. repeat split; reflexivity. Qed.

(** the known finding at the parser level: `f x + 1` is the call f(x + 1), `f (x) + 1` is f(x) + 1 *)
Theorem paren_juxtaposed_refuted :
  exists t1 t2,
    parse_chunk false [TSym 9; TSym 1; TBin Plus; TLit NatLit [49%Z]] = Ok t1 /\
    parse_chunk false [TSym 9; TLP false; TSym 1; TRP; TBin Plus; TLit NatLit [49%Z]] = Ok t2 /\ t1 <> t2.
Proof. eexists. eexists. split; [vm_compute; reflexivity|]. split; [vm_compute; reflexivity|]. discriminate. Qed.
