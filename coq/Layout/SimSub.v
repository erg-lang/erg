(** C10 — relational logic, part 2: the sub-lexers (comments, numbers, symbols, strings, interpolation, raw
    identifiers, back-quoted operators) behave alike from similar states.  Each of them is a composition of the
    primitives of Sim.v; [rs] walks through it, applying at every bind the rule of the primitive that is bound. *)
From Coq Require Import ZArith List Bool Arith Lia.
Require Import ErgV.Lexer.Model ErgV.Lexer.Spec ErgV.Lexer.Proofs ErgV.Layout.Sim .
Import ListNotations.
Open Scope Z_scope.

Lemma item_sim_tok t1 t2 : tok_sim t1 t2 -> item_sim (ITok t1) (ITok t2).
Proof. intros [A B]. unfold item_sim. cbn. congruence. Qed.
Lemma item_sim_err e t1 t2 : tok_sim t1 t2 -> item_sim (IErr e t1) (IErr e t2).
Proof. intros [A B]. unfold item_sim. cbn. congruence. Qed.

Ltac rleaf :=
  first
    [ exact I
    | reflexivity
    | apply item_sim_tok; assumption
    | apply item_sim_err; assumption ].

Create HintDb rsim.

Ltac rs1 :=
  cbv zeta;
  lazymatch goal with
  | |- R2 _ _ _ (bind (gets col) _) (bind (gets col) _) => eapply R2_bind; [apply R2_gets_any | intros ? ? _]
  | |- R2 _ _ _ (bind ghost_pos _) (bind ghost_pos _) => eapply R2_bind; [apply R2_ghost | intros ? ? _]
  | |- R2 _ _ _ (bind (emit_singleline_token _ _ _) _) (bind (emit_singleline_token _ _ _) _) =>
    eapply R2_bind; [apply R2_emit | intros ? ? ?]
  | |- R2 _ _ _ (bind (emit_multiline_token _ _ _ _ _) _) (bind (emit_multiline_token _ _ _ _ _) _) =>
    eapply R2_bind; [apply R2_emit_multi | intros ? ? ?]
  | |- R2 _ _ _ (bind (modify _) _) (bind (modify _) _) => eapply R2_bind; [apply R2_modify; sim_upd | intros ? ? _]
  | |- R2 _ _ _ (bind (push_interpol _) _) (bind (push_interpol _) _) => unfold push_interpol
  | |- R2 _ _ _ (bind pop_interpol _) (bind pop_interpol _) => unfold pop_interpol
  | |- R2 _ _ _ (bind (bump_line_nofix true) _) (bind (bump_line_nofix true) _) => unfold bump_line_nofix; cbn [negb]
  | |- R2 _ _ _ (bind (unwrap ?o) _) (bind (unwrap ?o) _) => destruct o; cbn [unwrap]
  | |- R2 _ _ _ (bind (ret _) _) (bind (ret _) _) => eapply R2_bind; [apply R2_ret; reflexivity | intros ? ? <-]
  | |- R2 _ _ _ (bind panic _) (bind panic _) => apply R2_bind_panic
  | |- R2 _ _ _ (bind out_of_fuel _) (bind out_of_fuel _) => apply R2_bind_fuel
  | |- R2 _ _ _ (bind (bind _ _) _) (bind (bind _ _) _) => apply R2_assoc
  | |- R2 _ _ _ (bind (if ?b then _ else _) _) (bind (if ?b then _ else _) _) => destruct b
  (* the computations that return the same result on both sides: the primitives of [rprim], the loops of [rsim] *)
  | |- R2 _ _ _ (bind ?m _) (bind ?m _) => eapply R2_bind; [solve [auto with rprim rsim] | intros ? ? <-]
  (* [if] is also how a match on an option without bound variables reads *)
  | |- R2 _ _ _ (if ?b then _ else _) (if ?b then _ else _) => first [apply R2_if | destruct b]
  | |- R2 _ _ _ (match ?x with _ => _ end) (match ?x with _ => _ end) => destruct x
  | |- R2 _ _ _ (ret _) (ret _) => apply R2_ret
  | |- R2 _ _ _ (ok_tok _) (ok_tok _) => apply R2_ret
  | |- R2 _ _ _ (err_tok _ _) (err_tok _ _) => apply R2_ret
  | |- R2 _ _ _ panic panic => apply R2_panic
  | |- R2 _ _ _ out_of_fuel out_of_fuel => apply R2_fuel
  | |- R2 _ _ _ (accept _ _ _) (accept _ _ _) => unfold accept
  | |- R2 _ _ _ (reject _ _ _ _) (reject _ _ _ _) => unfold reject
  | |- R2 _ _ _ (invalid_unicode_character _ _) (invalid_unicode_character _ _) => unfold invalid_unicode_character
  end.

Ltac rs := repeat first [ rs1 | solve [rleaf] | solve [auto with rsim] ].

Section Sub.
Variable xc : Z -> bool.
Variable k : nat.

Lemma lex_comment_loop_sim g1 g2 : forall n s,
  R2 oitem_sim k k (lex_comment_loop true n s g1) (lex_comment_loop true n s g2).
Proof. induction n as [|n IH]; intros s; cbn [lex_comment_loop]; rs. Qed.

Lemma lex_multi_line_comment_loop_sim g1 g2 : forall n s nest,
  R2 oitem_sim k k (lex_multi_line_comment_loop true n s nest g1) (lex_multi_line_comment_loop true n s nest g2).
Proof. induction n as [|n IH]; intros s nest; cbn [lex_multi_line_comment_loop]; rs. Qed.

Lemma take_while_sim p : forall n acc, R2 eq k k (take_while true n p acc) (take_while true n p acc).
Proof. induction n as [|n IH]; intros acc; cbn [take_while]; rs. Qed.
Hint Resolve take_while_sim : rsim.

Lemma lex_exponent_sim m g1 g2 : R2 item_sim k k (lex_exponent true m g1) (lex_exponent true m g2).
Proof. unfold lex_exponent. rs. Qed.
Hint Resolve lex_exponent_sim : rsim.

Lemma lex_ratio_sim m g1 g2 : R2 item_sim k k (lex_ratio true m g1) (lex_ratio true m g2).
Proof. unfold lex_ratio. rs. Qed.
Hint Resolve lex_ratio_sim : rsim.

Lemma lex_radix_sim kd p m g1 g2 : R2 item_sim k k (lex_radix true kd p m g1) (lex_radix true kd p m g2).
Proof. unfold lex_radix. rs. Qed.
Hint Resolve lex_radix_sim : rsim.

Lemma lex_num_dot_sim m g1 g2 : R2 item_sim k k (lex_num_dot xc true m g1) (lex_num_dot xc true m g2).
Proof. unfold lex_num_dot. rs. Qed.
Hint Resolve lex_num_dot_sim : rsim.

Lemma lex_num_loop_sim g1 g2 : forall n m, R2 item_sim k k (lex_num_loop xc true n m g1) (lex_num_loop xc true n m g2).
Proof. induction n as [|n IH]; intros m; cbn [lex_num_loop]; rs. Qed.

Lemma lex_num_sim c g1 g2 : R2 item_sim k k (lex_num xc true c g1) (lex_num xc true c g2).
Proof. unfold lex_num. rs. apply lex_num_loop_sim. Qed.

Lemma lex_symbol_sim c g1 g2 : R2 item_sim k k (lex_symbol xc true c g1) (lex_symbol xc true c g2).
Proof. unfold lex_symbol. rs. Qed.

Lemma lex_single_str_loop_sim g1 g2 : forall n s,
  R2 item_sim k k (lex_single_str_loop true true n s g1) (lex_single_str_loop true true n s g2).
Proof. induction n as [|n IH]; intros s; cbn [lex_single_str_loop]; rs. Qed.

Lemma lex_multi_line_str_loop_sim g1 g2 q cb1 cb2 : forall n s,
  R2 item_sim k k (lex_multi_line_str_loop true true n q cb1 s g1) (lex_multi_line_str_loop true true n q cb2 s g2).
Proof. induction n as [|n IH]; intros s; cbn [lex_multi_line_str_loop]; rs. Qed.

Lemma lex_interpolation_mid_loop_sim g1 g2 : forall n s,
  R2 item_sim k k (lex_interpolation_mid_loop true true n s g1) (lex_interpolation_mid_loop true true n s g2).
Proof. induction n as [|n IH]; intros s; cbn [lex_interpolation_mid_loop]; rs. Qed.

Lemma lex_raw_ident_loop_sim g1 g2 : forall n s,
  R2 item_sim k k (lex_raw_ident_loop true n s g1) (lex_raw_ident_loop true n s g2).
Proof. induction n as [|n IH]; intros s; cbn [lex_raw_ident_loop]; rs. Qed.

Lemma lex_backquote_loop_sim g1 g2 : forall n op,
  R2 step_sim k k (lex_backquote_loop true n op g1) (lex_backquote_loop true n op g2).
Proof. induction n as [|n IH]; intros op; cbn [lex_backquote_loop]; rs. Qed.

Lemma lex_single_str_sim g1 g2 : R2 item_sim k k (lex_single_str true true g1) (lex_single_str true true g2).
Proof. unfold lex_single_str. rs. apply lex_single_str_loop_sim. Qed.
Lemma lex_multi_line_str_sim q g1 g2 : R2 item_sim k k (lex_multi_line_str true true q g1) (lex_multi_line_str true true q g2).
Proof. unfold lex_multi_line_str. rs. apply lex_multi_line_str_loop_sim. Qed.
Lemma lex_interpolation_mid_sim g1 g2 : R2 item_sim k k (lex_interpolation_mid true true g1) (lex_interpolation_mid true true g2).
Proof. unfold lex_interpolation_mid. rs. apply lex_interpolation_mid_loop_sim. Qed.
Lemma lex_raw_ident_sim g1 g2 : R2 item_sim k k (lex_raw_ident true g1) (lex_raw_ident true g2).
Proof. unfold lex_raw_ident. rs. apply lex_raw_ident_loop_sim. Qed.

Lemma lift_sim (m1 m2 : M item) : R2 item_sim k k m1 m2 -> R2 step_sim k k (lift m1) (lift m2).
Proof. intros H. unfold lift. eapply R2_bind; [exact H|]. intros i1 i2 Hi. apply R2_ret. exact Hi. Qed.
End Sub.
