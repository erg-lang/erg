(** Iterator::next behaves alike from similar states ([next_sim]); two runs of Lexer::lex whose next calls are alike return
    the same items, positions erased ([emits_alike]); [joins]: the same after a given prefix of items. *)
From Coq Require Import ZArith List Bool Arith Lia.
From ErgV Require Import Common.Lists.
Require Import ErgV.Lexer.Model ErgV.Lexer.Spec ErgV.Lexer.Proofs ErgV.Lexer.ProofsNext .
Require Import ErgV.Layout.Sim ErgV.Layout.SimSub ErgV.Layout.Model .
Import ListNotations.
Open Scope Z_scope.

Lemma zlen_0_nil (l : list Z) : zlen l = 0 -> l = [].
Proof. destruct l; [reflexivity|]. rewrite zlen_cons. pose proof (zlen_nonneg l). lia. Qed.

(** chars.get(cursor - 1) and chars.get(cursor - 2) on the zipper; the cursor may have run past the end *)
Lemma peek_prev_lt st : Lt st ->
  peek_prev_ch st = if cursor st - zlen (pre st) =? 0 then nth_error (pre st) 0%nat else None.
Proof.
  intros [A B C D]. unfold peek_prev_ch. pose proof (zlen_nonneg (pre st)) as HP. pose proof (zlen_nonneg (post st)) as HQ.
  destruct (Z.eqb_spec (cursor st - zlen (pre st)) 0) as [E|E].
  - destruct (Z.ltb_spec (cursor st) 1); [rewrite (zlen_0_nil (pre st)) by lia; reflexivity|].
    destruct (Z.ltb_spec (cursor st - 1) (len st)); [reflexivity|lia].
  - rewrite B in C by lia. rewrite zlen_nil in C.
    destruct (Z.ltb_spec (cursor st) 1); [reflexivity|].
    destruct (Z.ltb_spec (cursor st - 1) (len st)); [lia|reflexivity].
Qed.

Lemma peek_prev_prev_lt st : Lt st ->
  peek_prev_prev_ch st =
    if cursor st - zlen (pre st) =? 0 then nth_error (pre st) 1%nat
    else if cursor st - zlen (pre st) =? 1 then nth_error (pre st) 0%nat else None.
Proof.
  intros [A B C D]. unfold peek_prev_prev_ch. pose proof (zlen_nonneg (pre st)) as HP. pose proof (zlen_nonneg (post st)) as HQ.
  destruct (Z.eqb_spec (cursor st - zlen (pre st)) 0) as [E|E].
  - destruct (Z.ltb_spec (cursor st) 2); [symmetry; apply nth_error_None; unfold zlen in *; lia|].
    destruct (Z.ltb_spec (cursor st - 2) (len st)); [|lia].
    destruct (Z.leb_spec (cursor st) (len st)); [reflexivity|lia].
  - rewrite B in C by lia. rewrite zlen_nil in C.
    destruct (Z.eqb_spec (cursor st - zlen (pre st)) 1) as [E1|E1].
    + destruct (Z.ltb_spec (cursor st) 2); [rewrite (zlen_0_nil (pre st)) by lia; reflexivity|].
      destruct (Z.ltb_spec (cursor st - 2) (len st)); [|lia].
      destruct (Z.leb_spec (cursor st) (len st)); [lia|reflexivity].
    + destruct (Z.ltb_spec (cursor st) 2); [reflexivity|].
      destruct (Z.ltb_spec (cursor st - 2) (len st)); [lia|reflexivity].
Qed.

Lemma nth_error_firstn_eq {A} : forall k (l m : list A) i,
  firstn k l = firstn k m -> (i < k)%nat -> nth_error l i = nth_error m i.
Proof.
  induction k as [|k IH]; intros l m i H Hi; [lia|].
  destruct l as [|x l], m as [|y m]; cbn [firstn] in H; try discriminate; [reflexivity|].
  injection H as -> H. destruct i as [|i]; [reflexivity|]. cbn [nth_error]. apply (IH l m i H). lia.
Qed.

Lemma pp_sim k a b : simk (S k) a b -> peek_prev_ch a = peek_prev_ch b.
Proof.
  intros (A & B & (_ & _ & _ & _ & _ & O) & D). rewrite (peek_prev_lt a A), (peek_prev_lt b B), O.
  rewrite (nth_error_firstn_eq _ _ _ 0%nat D) by lia. reflexivity.
Qed.

Lemma ppp_sim k a b : simk (S (S k)) a b -> peek_prev_prev_ch a = peek_prev_prev_ch b.
Proof.
  intros (A & B & (_ & _ & _ & _ & _ & O) & D). rewrite (peek_prev_prev_lt a A), (peek_prev_prev_lt b B), O.
  rewrite (nth_error_firstn_eq _ _ _ 0%nat D), (nth_error_firstn_eq _ _ _ 1%nat D) by lia. reflexivity.
Qed.

Lemma op_fix_sim : R2 eq 2 2 op_fix op_fix.
Proof.
  unfold op_fix. apply R2_gets. intros a b S.
  pose proof (ppp_sim 0 a b S) as P2. destruct (peek_sim 2 a b S) as [P0 _].
  pose proof S as (_ & _ & (_ & _ & _ & PK & _) & _). rewrite PK, P2, P0. reflexivity.
Qed.

Ltac rs2 :=
  repeat first
    [ lazymatch goal with
      | |- R2 _ _ _ (bind op_fix _) (bind op_fix _) => eapply R2_bind; [apply op_fix_sim | intros ? ? <-]
      | |- R2 _ _ _ (lift _) (lift _) => apply lift_sim
      | |- R2 _ _ _ (by_fix _ _ _ _ _) (by_fix _ _ _ _ _) => unfold by_fix
      end
    | rs1 | solve [rleaf] | solve [auto with rsim] ].

Section Next.
Variable xs xc : Z -> bool.

Hint Resolve lex_num_sim lex_ratio_sim lex_symbol_sim lex_single_str_sim lex_multi_line_str_sim
     lex_interpolation_mid_sim lex_raw_ident_sim lex_backquote_loop_sim : rsim.

Lemma dispatch_sim c g1 g2 : R2 step_sim 2 2 (dispatch xs xc true true c g1) (dispatch xs xc true true c g2).
Proof. unfold dispatch. rs2. Qed.

(** [R2] with any relations on the states before and after (used with [spaced]) *)
Definition R2G {A} (RA : A -> A -> Prop) (P Q : lstate -> lstate -> Prop) (m1 m2 : M A) : Prop :=
  forall a b, P a b ->
    match m1 a, m2 b with
    | Ok (x, a'), Ok (y, b') => RA x y /\ Q a' b'
    | Panic, Panic => True
    | Fuel, Fuel => True
    | _, _ => False
    end.

Lemma R2G_bind {A B} (RA : A -> A -> Prop) (RB : B -> B -> Prop) (P Q R : lstate -> lstate -> Prop) (m1 m2 : M A) (f1 f2 : A -> M B) :
  R2G RA P Q m1 m2 -> (forall x y, RA x y -> R2G RB Q R (f1 x) (f2 y)) -> R2G RB P R (bind m1 f1) (bind m2 f2).
Proof. intros H1 H2 a b S. apply (alike_bind RA RB Q); [exact (H1 a b S)|]. intros x y a' b' HR. exact (H2 x y HR a' b'). Qed.
Lemma R2G_gets {A} (RA : A -> A -> Prop) (P : lstate -> lstate -> Prop) (f1 f2 : lstate -> A) :
  (forall a b, P a b -> RA (f1 a) (f2 b)) -> R2G RA P P (gets f1) (gets f2).
Proof. intros H a b S. cbn. split; [apply H; exact S|exact S]. Qed.
Lemma R2G_pre {A} (RA : A -> A -> Prop) (P P' Q : lstate -> lstate -> Prop) (m1 m2 : M A) :
  R2G RA P' Q m1 m2 -> (forall a b, P a b -> P' a b) -> R2G RA P Q m1 m2.
Proof. intros H HP a b S. apply H, HP, S. Qed.

(** both runs are [j] blanks past [a0], [b0]: what the rewind of a dedent needs *)
Definition spaced (k : nat) (a0 b0 : lstate) (j : nat) (a b : lstate) : Prop :=
  simk k a b /\ spaces_from a0 a j /\ spaces_from b0 b j.

Lemma consume_spaces_sim k a0 b0 : forall n j a b,
  spaced k a0 b0 j a b ->
  match consume_spaces true n (repeat 32 j) a, consume_spaces true n (repeat 32 j) b with
  | Ok (s1, a'), Ok (s2, b') => exists j', s1 = repeat 32 j' /\ s2 = repeat 32 j' /\ spaced k a0 b0 j' a' b'
  | Fuel, Fuel => True
  | _, _ => False
  end.
Proof.
  induction n as [|n IH]; intros j a b SP; [exact I|].
  pose proof SP as (HS & SA & SB). pose proof HS as (_ & _ & (PP & _) & _).
  cbn [consume_spaces]. unfold bind, peek_cur, gets, peek_cur_ch. rewrite <- PP.
  destruct (post a) as [|c r] eqn:EA; cbn [hd_error opt_is].
  - cbn [ret]. exists j. split; [reflexivity|]. split; [reflexivity|exact SP].
  - destruct (c =? 32) eqn:E.
    + apply Z.eqb_eq in E. subst c.
      assert (EB : post b = 32 :: r) by congruence.
      rewrite (consume_cons a 32 r EA), (consume_cons b 32 r EB).
      replace (repeat 32 j ++ [32]) with (repeat 32 (S j)) by (cbn [repeat]; apply repeat_cons).
      apply IH. split; [apply simk_weaken, simk_adv; assumption|]. split; apply spaces_from_adv; assumption.
    + cbn [ret]. exists j. split; [reflexivity|]. split; [reflexivity|exact SP].
Qed.

Lemma rewind_spaces_lt st st' j :
  Lt st -> Lt st' -> spaces_from st st' j -> rewind (Z.of_nat j) st' = Ok (tt, st).
Proof. intros L L'. apply rewind_spaces_gen; [exact (ghost_lt _ L)|exact (ghost_lt _ L')|exact (lt_cur _ L)]. Qed.

Lemma R2_spaced {A} (RA : A -> A -> Prop) k k' a0 b0 j (m1 m2 : M A) :
  R2 RA k k' m1 m2 -> R2G RA (spaced k a0 b0 j) (simk k') m1 m2.
Proof. intros H. apply (R2G_pre RA _ (simk k)); [exact H|]. intros a b S. apply S. Qed.

Lemma R2_bind_spaces {B} (RB : B -> B -> Prop) k k' n (f1 f2 : list Z -> M B) :
  (forall j a0 b0, simk k a0 b0 -> R2G RB (spaced k a0 b0 j) (simk k') (f1 (repeat 32 j)) (f2 (repeat 32 j))) ->
  R2 RB k k' (bind (consume_spaces true n []) f1) (bind (consume_spaces true n []) f2).
Proof.
  intros H a b HAB. unfold bind.
  pose proof (consume_spaces_sim k a b n 0 a b (conj HAB (conj (spaces_from_refl a) (spaces_from_refl b)))) as CS.
  cbn [repeat] in CS.
  destruct (consume_spaces true n [] a) as [[s1 a']| |], (consume_spaces true n [] b) as [[s2 b']| |];
    try contradiction; try exact I.
  destruct CS as (j & -> & -> & SP). exact (H j a b HAB a' b' SP).
Qed.

Lemma lex_indent_dedent_sim k a0 b0 j :
  simk k a0 b0 ->
  R2G oitem_sim (spaced k a0 b0 j) (simk k) (lex_indent_dedent (repeat 32 j)) (lex_indent_dedent (repeat 32 j)).
Proof.
  intros S0. unfold lex_indent_dedent. rewrite zlen_repeat.
  eapply R2G_bind; [apply (R2G_gets any); intros; exact I|]. intros g1 g2 _.
  destruct (100 <? Z.of_nat j); [apply R2_spaced; rs|].
  eapply R2G_bind; [apply (R2G_gets eq); intros a b ((_ & _ & (_ & P & _) & _) & _); exact P|]. intros stack ? <-.
  destruct (fold_indent (rev stack) 0 false (Z.of_nat j)) as [sum_indent is_valid].
  destruct (sum_indent <? Z.of_nat j); [apply R2_spaced; rs|].
  destruct (Z.of_nat j <? sum_indent); [|apply R2_spaced; rs].
  (* Ordering::Greater: the rewind takes both runs back to [a0], [b0] *)
  eapply R2G_bind with (RA := eq) (Q := simk k).
  - intros a b (S & SA & SB). pose proof S as (LA & LB & _). pose proof S0 as (LA0 & LB0 & _).
    rewrite (rewind_spaces_lt a0 a j LA0 LA SA), (rewind_spaces_lt b0 b j LB0 LB SB). split; [reflexivity|exact S0].
  - intros ? ? _. change (R2G oitem_sim (simk k) (simk k)) with (@R2 (option item) oitem_sim k k). rs.
Qed.

Lemma is_empty_list_eq {A} (l : list A) : (match l with [] => true | _ => false end) = (match l with [] => true | _ :: _ => false end).
Proof. reflexivity. Qed.

(** [is_line_break_after] needs no test of the cursor: there is a previous character only if it is positive *)
Lemma line_break_after_eq s b :
  (0 <? cursor s) && b && opt_is (peek_prev_ch s) 10 = b && opt_is (peek_prev_ch s) 10.
Proof.
  unfold peek_prev_ch. destruct (cursor s <? 1) eqn:E; [cbn [opt_is]; rewrite !andb_false_r; reflexivity|].
  apply Z.ltb_ge in E. replace (0 <? cursor s) with true by (symmetry; apply Z.ltb_lt; lia). reflexivity.
Qed.

Lemma lex_space_indent_dedent_sim k :
  R2 oitem_sim (S k) (S k) (lex_space_indent_dedent true) (lex_space_indent_dedent true).
Proof.
  unfold lex_space_indent_dedent.
  eapply R2_bind; [apply R2_sync|]. intros ? ? _.
  eapply R2_bind with (RA := simk (S k)); [apply R2_gets; intros a b S; exact S|]. intros sa sb HS.
  eapply R2_bind; [apply R2_ghost|]. intros g1 g2 _.
  pose proof (pp_sim k sa sb HS) as PP. destruct (peek_sim _ sa sb HS) as [P0 _].
  pose proof HS as (_ & _ & (_ & IS & EN & _) & _).
  rewrite (line_break_after_eq sa), (line_break_after_eq sb), <- PP, <- IS, <- P0, <- EN.
  destruct (negb (match indent_stack sa with [] => true | _ => false end) && opt_is (peek_prev_ch sa) 10
            && negb (opt_is (peek_cur_ch sa) 32 || opt_is (peek_cur_ch sa) 10) && (encl sa =? 0)); [rs|].
  destruct (opt_is (peek_cur_ch sa) 10 && (encl sa =? 0)); [rs|].
  eapply R2_bind; [apply R2_fuel_of|]. intros n ? <-.
  apply R2_bind_spaces. intros j a b HAB.
  eapply R2G_bind; [apply (R2G_gets eq); intros u v ((_ & _ & (_ & _ & _ & P & _) & _) & _); exact P|]. intros prev ? <-.
  destruct (negb (match repeat 32 j with [] => true | _ => false end) && kind_eqb prev BOF); [apply R2_spaced; rs|].
  destruct (kind_eqb prev Newline || kind_eqb prev Dedent); [|apply R2_spaced; rs].
  apply lex_indent_dedent_sim. exact HAB.
Qed.

Lemma next_rest_eq :
  next_rest xs xc =
  (cur <- peek_cur ;; nx <- peek_next ;;
   cm <- (if opt_is cur 35 then if opt_is nx 91 then lex_multi_line_comment true else lex_comment true else ret None) ;;
   match cm with Some it => ret (SItem it) | None => nl_tail xs xc end).
Proof. reflexivity. Qed.

(** the character consumed for the big match is looked back at by op_fix *)
Lemma nl_tail_sim k : R2 step_sim (S k) 1 (nl_tail xs xc) (nl_tail xs xc).
Proof.
  unfold nl_tail.
  eapply R2_bind; [apply R2_sync|]. intros ? ? _.
  eapply R2_bind; [apply R2_ghost|]. intros g1 g2 _.
  apply R2_bind_consume.
  - intros c. apply R2_pre with (k := 2%nat); [|lia].
    apply R2_post with (RA := step_sim) (k1 := 2%nat); [apply dispatch_sim|auto|lia].
  - apply R2_post with (RA := step_sim) (k1 := S k); [rs|auto|lia].
Qed.

Lemma next_rest_sim k : R2 step_sim (S k) 1 (next_rest xs xc) (next_rest xs xc).
Proof.
  rewrite next_rest_eq.
  eapply R2_bind; [apply R2_peek_cur|]. intros cur ? <-.
  eapply R2_bind; [apply R2_peek_next|]. intros nx ? <-.
  eapply R2_bind with (RA := oitem_sim) (k1 := S k).
  { destruct (opt_is cur 35); [|apply R2_ret; exact I].
    destruct (opt_is nx 91).
    - unfold lex_multi_line_comment. rs. apply lex_multi_line_comment_loop_sim.
    - unfold lex_comment. rs. apply lex_comment_loop_sim. }
  intros c1 c2 HC. destruct c1 as [i1|], c2 as [i2|]; cbn [oitem_sim] in HC; try contradiction.
  - apply R2_post with (RA := step_sim) (k1 := S k); [apply R2_ret; exact HC|auto|lia].
  - apply nl_tail_sim.
Qed.

Lemma next_eq :
  next xs xc true true =
  (prev <- gets prev_kind ;;
   if kind_eqb prev EOF then ret SNone
   else r <- lex_space_indent_dedent true ;;
        match r with Some it => ret (SItem it) | None => next_rest xs xc end).
Proof. reflexivity. Qed.

Lemma next_sim k :
  R2 step_sim (S k) 1 (next xs xc true true) (next xs xc true true).
Proof.
  rewrite next_eq.
  eapply R2_bind; [apply R2_prev_kind|]. intros prev ? <-.
  destruct (kind_eqb prev EOF); [apply R2_post with (RA := step_sim) (k1 := S k); [apply R2_ret; exact I|auto|lia]|].
  eapply R2_bind; [apply lex_space_indent_dedent_sim|]. intros r1 r2 HR.
  destruct r1 as [i1|], r2 as [i2|]; cbn [oitem_sim] in HR; try contradiction.
  - apply R2_post with (RA := step_sim) (k1 := S k); [apply R2_ret; exact HR|auto|lia].
  - apply next_rest_sim.
Qed.

Notation next := (next xs xc true true).
Notation emits := (emits xs xc).

Lemma rest_emits n st r : rest xs xc n st = Ok r -> emits st r.
Proof. intros E. destruct (lex_loop_emits xs xc n st [] r E) as (l & -> & S). exact S. Qed.

Lemma emits_alike a r1 : emits a r1 -> forall b r2, emits b r2 ->
  alike step_sim (simk 1) (next a) (next b) -> erase r1 = erase r2.
Proof.
  induction 1 as [a a' N|a it a' l N S IH|a a' l N S IH]; intros b r2 S2 AL;
    unfold alike in AL; rewrite N in AL; destruct S2 as [b b' N2|b it2 b' l2 N2 S2|b b' l2 N2 S2];
    rewrite N2 in AL; destruct AL as [NS HS]; try contradiction.
  - reflexivity.
  - cbn [erase map]. f_equal; [exact NS|]. exact (IH b' l2 S2 (next_sim 0 a' b' HS)).
  - exact (IH b' l2 S2 (next_sim 0 a' b' HS)).
Qed.

(** [joins l a b]: what the iterator emits from [b] is [l] followed by what it emits from [a], positions erased.
    The second run is stepped call by call ([joins_item], [joins_again]) until its next call is like that of the first. *)
Definition joins (l : list eitem) (a b : lstate) : Prop :=
  forall r1 r2, emits a r1 -> emits b r2 -> erase r2 = l ++ erase r1.

Lemma joins_alike a b : alike step_sim (simk 1) (next a) (next b) -> joins [] a b.
Proof. intros AL r1 r2 S1 S2. symmetry. exact (emits_alike a r1 S1 b r2 S2 AL). Qed.

Lemma joins_sim a b : simk 1 a b -> joins [] a b.
Proof. intros HS. apply joins_alike, (next_sim 0), HS. Qed.

Lemma joins_item l a b it b' : next b = Ok (SItem it, b') -> joins l a b' -> joins (erase_item it :: l) a b.
Proof.
  intros N J r1 r2 S1 S2. destruct (emits_item_inv xs xc b it b' r2 N S2) as (r' & -> & S').
  cbn [erase map app]. f_equal. exact (J r1 r' S1 S').
Qed.

Lemma joins_again l a b b' : next b = Ok (SAgain, b') -> joins l a b' -> joins l a b.
Proof. intros N J r1 r2 S1 S2. exact (J r1 r2 S1 (emits_again_inv xs xc b b' r2 N S2)). Qed.

Lemma joins_rest l a b : joins l a b ->
  forall n1 n2 r1 r2, rest xs xc n1 a = Ok r1 -> rest xs xc n2 b = Ok r2 -> erase r2 = l ++ erase r1.
Proof. intros J n1 n2 r1 r2 R1 R2. exact (J r1 r2 (rest_emits _ _ _ R1) (rest_emits _ _ _ R2)). Qed.
End Next.
