(** C29.  [diff] followed by [update] is exact on one changed chunk and only there (an edit next to equal chunks is
    reported at the end of their run, [gap_idx_run_end]); [quick_check] touches nothing but the module entry and keeps
    the HIR aligned with the AST.  One notification has one of three [effect]s on the state of the document
    ([step_spec]), and everything about histories is read off them: what is published is always the analysis of the
    text that was checked last ([pub_inv]), and, with the text comparison on ([textcmp = true]), a didSave skips the
    analysis only when that text is the current one ([change_kind_spec]).  Also: the cached AST is the AST of a text seen
    ([cache_inv_run]), the instances behind the witnesses of Props_C29.v ([w_run]), the judge ([judge_count]). *)
From Coq Require Import ZArith List Bool Arith Lia Permutation.
From ErgV Require Import Common.Lists Els.Model Els.Spec.
Import ListNotations.
Open Scope Z_scope.

Lemma skipn_len_app {A} (l1 l2 : list A) : skipn (length l1) (l1 ++ l2) = l2.
Proof. apply skipn_app_exact. reflexivity. Qed.

Lemma insert_at_app {A} (l1 l2 : list A) j x :
  insert_at (length l1 + j) x (l1 ++ l2) = l1 ++ insert_at j x l2.
Proof.
  induction l1 as [|a l1 IH]; [reflexivity|exact (f_equal (cons a) IH)].
Qed.

Lemma remove_at_app {A} (l1 l2 : list A) j :
  remove_at (length l1 + j) (l1 ++ l2) = l1 ++ remove_at j l2.
Proof.
  induction l1 as [|a l1 IH]; [reflexivity|exact (f_equal (cons a) IH)].
Qed.

Lemma replace_at_app {A} (l1 l2 : list A) j x :
  replace_at (length l1 + j) x (l1 ++ l2) = l1 ++ replace_at j x l2.
Proof.
  induction l1 as [|a l1 IH]; [reflexivity|exact (f_equal (cons a) IH)].
Qed.

Lemma first_diff_refl l : first_diff l l = None.
Proof.
  induction l as [|x l IH]; cbn [first_diff]; [reflexivity|].
  rewrite Z.eqb_refl, IH. reflexivity.
Qed.

Lemma first_diff_cons x a y b :
  first_diff (x :: a) (y :: b) = if x =? y then option_map S (first_diff a b) else Some 0%nat.
Proof. reflexivity. Qed.

Lemma first_diff_app l1 a b :
  first_diff (l1 ++ a) (l1 ++ b) = option_map (fun i => (length l1 + i)%nat) (first_diff a b).
Proof.
  induction l1 as [|x l1 IH]; cbn [app first_diff length].
  - destruct (first_diff a b); reflexivity.
  - rewrite Z.eqb_refl, IH. destruct (first_diff a b); reflexivity.
Qed.

Lemma first_diff_lt a b i : first_diff a b = Some i -> (i < length a)%nat /\ (i < length b)%nat.
Proof.
  revert b i. induction a as [|x a IH]; intros [|y b] i H; cbn [first_diff] in H; try discriminate.
  destruct (x =? y).
  - destruct (first_diff a b) as [j|] eqn:E; cbn [option_map] in H; [|discriminate].
    injection H as <-. destruct (IH _ _ E). cbn [length]. lia.
  - injection H as <-. cbn [length]. lia.
Qed.

(** the index the Less and Greater arms of [diff] compute, from the longer and the shorter list *)
Definition gap_idx (long short : list chunk) : res nat :=
  match first_diff long short with Some i => Ok i | None => pred_usize (length long) end.

Lemma diff_unfold old new : diff old new =
  match Nat.compare (length old) (length new) with
  | Lt => match gap_idx new old with
          | Panic => Panic
          | Ok idx => match nth_error new idx with Some c => Ok (Addition idx c) | None => Panic end
          end
  | Gt => match gap_idx old new with Panic => Panic | Ok idx => Ok (Deletion idx) end
  | Eq => match first_diff old new with
          | Some idx => match nth_error new idx with Some c => Ok (Modification idx c) | None => Panic end
          | None => Ok Nop
          end
  end.
Proof. reflexivity. Qed.

Lemma gap_idx_lt long short : (length short < length long)%nat ->
  exists i, gap_idx long short = Ok i /\ (i < length long)%nat.
Proof.
  intros L. unfold gap_idx. destruct (first_diff long short) as [i|] eqn:E.
  - exists i. split; [reflexivity|]. now apply first_diff_lt in E.
  - destruct (length long) as [|k]; [lia|]. exists k. split; [reflexivity|lia].
Qed.

Lemma diff_ok old new : exists d, diff old new = Ok d /\
  match d with
  | Addition i c | Modification i c => nth_error new i = Some c
  | _ => True
  end.
Proof.
  rewrite diff_unfold. destruct (Nat.compare_spec (length old) (length new)) as [L|L|L].
  - destruct (first_diff old new) as [i|] eqn:E; [|exists Nop; split; [reflexivity|exact I]].
    apply first_diff_lt in E. destruct E as [_ E].
    destruct (nth_error new i) as [c|] eqn:N; [|apply nth_error_None in N; lia].
    exists (Modification i c). split; [reflexivity|exact N].
  - destruct (gap_idx_lt new old L) as [i [-> Hi]].
    destruct (nth_error new i) as [c|] eqn:N; [|apply nth_error_None in N; lia].
    exists (Addition i c). split; [reflexivity|exact N].
  - destruct (gap_idx_lt old new L) as [i [-> _]]. exists (Deletion i). split; [reflexivity|exact I].
Qed.

Lemma diff_no_panic old new : diff old new <> Panic.
Proof. destruct (diff_ok old new) as [d [-> _]]. discriminate. Qed.

Lemma diff_carries old new d : diff old new = Ok d ->
  match d with
  | Addition i c | Modification i c => nth_error new i = Some c
  | _ => True
  end.
Proof.
  intros H. destruct (diff_ok old new) as [d' [H' Hc]]. rewrite H in H'. now injection H' as <-.
Qed.

(** An insertion in front of chunks equal to the inserted one is the same edit as one behind them, and that is the
    place [gap_idx] reports: the edit may be taken to stand where the next chunk differs. *)
Lemma edit_at_run_end (c : chunk) : forall l2 l1, exists l1' l2',
  l1 ++ l2 = l1' ++ l2' /\ l1 ++ c :: l2 = l1' ++ c :: l2' /\ hd_error l2' <> Some c.
Proof.
  induction l2 as [|a l2 IH]; intros l1.
  - exists l1, []. repeat split. discriminate.
  - destruct (Z.eq_dec a c) as [->|N].
    + destruct (IH (l1 ++ [c])) as [l1' [l2' H]]. exists l1', l2'. now rewrite <- !app_assoc in H.
    + exists l1, (a :: l2). repeat split. cbn. congruence.
Qed.

(** the index is left as [length l1 + 0], the form [nth_error_app_plus], [insert_at_app], [remove_at_app] rewrite *)
Lemma gap_idx_run_end l1 c l2 : hd_error l2 <> Some c ->
  gap_idx (l1 ++ c :: l2) (l1 ++ l2) = Ok (length l1 + 0)%nat.
Proof.
  intros H. unfold gap_idx. rewrite first_diff_app. destruct l2 as [|a l2]; cbn [first_diff option_map].
  - rewrite app_length, Nat.add_comm, Nat.add_0_r. reflexivity.
  - destruct (Z.eqb_spec c a) as [->|]; [now destruct H|reflexivity].
Qed.

Lemma diff_update_edit1 old new : edit1 old new -> exists d, diff old new = Ok d /\ update d old = new.
Proof.
  intros [l | l1 c l2 | l1 c l2 | l1 c c' l2]; rewrite diff_unfold.
  - rewrite Nat.compare_refl, first_diff_refl. exists Nop. split; reflexivity.
  - destruct (edit_at_run_end c l2 l1) as [k1 [k2 [-> [-> Hc]]]].
    assert (C : Nat.compare (length (k1 ++ k2)) (length (k1 ++ c :: k2)) = Lt).
    { apply Nat.compare_lt_iff. rewrite !app_length. cbn [length]. lia. }
    rewrite C, (gap_idx_run_end k1 c k2 Hc), nth_error_app_plus.
    eexists. split; [reflexivity|].
    cbn [update]. unfold upd_add.
    assert (L : Nat.ltb (length (k1 ++ k2)) (length k1 + 0) = false).
    { apply Nat.ltb_ge. rewrite app_length. lia. }
    rewrite L. apply (insert_at_app k1 k2 0%nat c).
  - destruct (edit_at_run_end c l2 l1) as [k1 [k2 [-> [-> Hc]]]].
    assert (C : Nat.compare (length (k1 ++ c :: k2)) (length (k1 ++ k2)) = Gt).
    { apply Nat.compare_gt_iff. rewrite !app_length. cbn [length]. lia. }
    rewrite C, (gap_idx_run_end k1 c k2 Hc).
    eexists. split; [reflexivity|].
    cbn [update]. unfold upd_del. rewrite nth_error_app_plus. apply (remove_at_app k1 (c :: k2) 0%nat).
  - assert (C : Nat.compare (length (l1 ++ c :: l2)) (length (l1 ++ c' :: l2)) = Eq).
    { apply Nat.compare_eq_iff. rewrite !app_length. reflexivity. }
    rewrite C, first_diff_app. cbn [first_diff].
    destruct (Z.eqb_spec c c') as [->|].
    + rewrite first_diff_refl. exists Nop. split; reflexivity.
    + cbn [option_map]. rewrite nth_error_app_plus.
      eexists. split; [reflexivity|].
      cbn [update]. unfold upd_mod. rewrite nth_error_app_plus.
      rewrite replace_at_app. reflexivity.
Qed.

Lemma split_at {A} (l : list A) i : l = firstn i l ++ skipn i l.
Proof. symmetry. apply firstn_skipn. Qed.

Lemma update_edit1 d old : edit1 old (update d old).
Proof.
  destruct d as [i | i c | i c |]; cbn [update].
  - unfold upd_del. destruct (nth_error old i) eqn:N; [|constructor].
    destruct (nth_error_split _ _ N) as [l1 [l2 [-> <-]]].
    rewrite <- (Nat.add_0_r (length l1)), remove_at_app. apply E1_del.
  - unfold upd_add. destruct (Nat.ltb (length old) i).
    + rewrite <- (app_nil_r old) at 1. constructor.
    + unfold insert_at. rewrite (split_at old i) at 1. constructor.
  - unfold upd_mod. destruct (nth_error old i) eqn:N; [|constructor].
    destruct (nth_error_split _ _ N) as [l1 [l2 [-> <-]]].
    rewrite <- (Nat.add_0_r (length l1)), replace_at_app. apply E1_mod.
  - constructor.
Qed.

Lemma ast_eqb_eq : forall a b, ast_eqb a b = true <-> a = b.
Proof. exact Common.Lists.zs_eqb_eq. Qed.

Lemma item_eqb_eq a b : item_eqb a b = true -> a = b.
Proof.
  unfold item_eqb. destruct a, b. cbn. intros H. apply andb_prop in H. destruct H as [H1 H2].
  apply Z.eqb_eq in H1, H2. now subst.
Qed.

Lemma text_eqb_eq : forall a b, text_eqb a b = true -> a = b.
Proof.
  induction a as [|x a IH]; intros [|y b] H; cbn [text_eqb] in H; try discriminate; [reflexivity|].
  apply andb_prop in H. destruct H as [H1 H2]. apply item_eqb_eq in H1. apply IH in H2. now subst.
Qed.

Lemma map_upd_add {A B} (f : A -> B) i x l : map f (upd_add i x l) = upd_add i (f x) (map f l).
Proof.
  unfold upd_add, insert_at. rewrite map_length. destruct (Nat.ltb (length l) i).
  - now rewrite map_app.
  - rewrite map_app. now rewrite firstn_map, skipn_map.
Qed.

Lemma map_upd_del {A B} (f : A -> B) i l : map f (upd_del i l) = upd_del i (map f l).
Proof.
  unfold upd_del. rewrite nth_error_map. destruct (nth_error l i); cbn [option_map]; [|reflexivity].
  unfold remove_at. rewrite map_app. now rewrite firstn_map, skipn_map.
Qed.

Lemma map_upd_mod {A B} (f : A -> B) i x l : map f (upd_mod i x l) = upd_mod i (f x) (map f l).
Proof.
  unfold upd_mod. rewrite nth_error_map. destruct (nth_error l i); cbn [option_map]; [|reflexivity].
  unfold replace_at. rewrite map_app. now rewrite firstn_map, skipn_map.
Qed.

Section Align.
  Variable lower : chunk -> lowered.
  Variable cname : chunk -> Z.
  Variable hname : hchunk -> Z.
  Variable hfailed : hchunk -> bool.

  Definition aligned (a : ast) (h : hir) : Prop := map lower a = map LSome h.

  (** lowering a chunk does not panic (the checker's own property, C07) *)
  Definition lower_total : Prop := forall c, lower c <> LPanic.

  Lemma nth_error_map_some {A B} (f : A -> B) l i :
    (exists y, nth_error (map f l) i = Some y) <-> (exists x, nth_error l i = Some x).
  Proof.
    rewrite nth_error_map. destruct (nth_error l i); cbn [option_map]; split; intros [z H]; eauto; discriminate.
  Qed.

  Lemma hfix_aligned : forall a h, aligned a h -> hfix lower cname hname hfailed a h = Ok h.
  Proof.
    unfold aligned. induction a as [|c a IH]; intros [|x h] H; cbn [map] in H; try discriminate; cbn [hfix].
    - reflexivity.
    - injection H as Hc Ht. rewrite (IH _ Ht). rewrite Hc.
      destruct (negb (cname c =? hname x)); [reflexivity|]. destruct (hfailed x); reflexivity.
  Qed.

  Lemma hfix_no_panic : lower_total -> forall a h, hfix lower cname hname hfailed a h <> Panic.
  Proof.
    intros Ht. induction a as [|c a IH]; intros [|x h]; cbn [hfix]; try discriminate.
    destruct (hfix lower cname hname hfailed a h) as [r|] eqn:E; [|now apply IH in E].
    destruct (negb (cname c =? hname x)); [discriminate|]. destruct (hfailed x); [|discriminate].
    destruct (lower c) eqn:L; try discriminate. now apply Ht in L.
  Qed.

  Lemma hupdate_aligned old hs d hd :
    aligned old hs -> hirdiff_new lower d = Ok (Some hd) -> aligned (update d old) (hupdate hd hs).
  Proof.
    unfold aligned. intros Ha Hd. destruct d as [i | i c | i c |]; cbn [hirdiff_new] in Hd.
    - injection Hd as <-. cbn [update hupdate]. now rewrite !map_upd_del, Ha.
    - destruct (lower c) as [h| |] eqn:L; try discriminate. injection Hd as <-. cbn [update hupdate].
      now rewrite !map_upd_add, Ha, L.
    - destruct (lower c) as [h| |] eqn:L; try discriminate. injection Hd as <-. cbn [update hupdate].
      now rewrite !map_upd_mod, Ha, L.
    - injection Hd as <-. exact Ha.
  Qed.

  Lemma hirdiff_new_no_panic d : lower_total -> hirdiff_new lower d <> Panic.
  Proof.
    intros Ht. destruct d as [i | i c | i c |]; cbn [hirdiff_new]; try discriminate;
      destruct (lower c) eqn:L; try discriminate; now apply Ht in L.
  Qed.

  Variable D : Type.
  Variable check : text -> D.
  Variable full_hir : text -> option hir.

  Notation quick_check := (quick_check lower cname hname hfailed D).

  (* what a didChange may do to the module entry: nothing, or a new entry whose AST is the old one or the AST of the
     text the server had *)
  Definition cache_moved (s : fstate D) (m : option entry) : Prop :=
    m = f_mod D s \/
    exists e e', f_mod D s = Some e /\ m = Some e' /\
                 (e_ast e' = e_ast e \/ e_ast e' = Some (ast_of (f_text D s))).

  (* [quick_check] leaves everything but the module entry as it is; only lowering can make it panic *)
  Lemma quick_check_spec (tr : bool) s :
    match (if tr then quick_check s else Ok s) with
    | Ok s' => exists m, cache_moved s m /\
                 s' = {| f_text := f_text D s; f_mod := m; f_checked := f_checked D s; f_pub := f_pub D s |}
    | Panic => ~ lower_total
    end.
  Proof.
    assert (Same : exists m, cache_moved s m /\
              s = {| f_text := f_text D s; f_mod := m; f_checked := f_checked D s; f_pub := f_pub D s |}).
    { exists (f_mod D s). split; [now left|now destruct s]. }
    destruct tr; [|exact Same].
    unfold Model.quick_check, cache_moved in *. destruct (f_mod D s) as [e|] eqn:Hm; [|exact Same].
    destruct (e_ast e) as [old|] eqn:Ea; [|exact Same].
    destruct (diff old (ast_of (f_text D s))) as [d|] eqn:E; [|now apply diff_no_panic in E].
    destruct (is_nop d); [exact Same|].
    destruct (ast_eqb (update d old) (ast_of (f_text D s))) eqn:Q; cbn [negb]; [|exact Same].
    apply ast_eqb_eq in Q.
    destruct (hirdiff_new lower d) as [ohd|] eqn:Hn; [|intros Ht; now apply hirdiff_new_no_panic in Hn].
    destruct ohd as [hd|], (e_hir e) as [h|]; cbn iota;
      try (destruct (hfix lower cname hname hfailed _ _) eqn:F; [|intros Ht; now apply hfix_no_panic in F]);
      eexists; (split; [right; eexists _, _; repeat split|reflexivity]);
      cbn [e_ast]; rewrite ?Q; auto.
  Qed.

  Lemma quick_check_aligned s old hs :
    f_mod D s = Some {| e_ast := Some old; e_hir := Some hs |} ->
    aligned old hs ->
    (forall d, diff old (ast_of (f_text D s)) = Ok d -> update d old = ast_of (f_text D s) ->
               exists hd, hirdiff_new lower d = Ok (Some hd)) ->
    exists s' a' hs', quick_check s = Ok s' /\
      f_mod D s' = Some {| e_ast := Some a'; e_hir := Some hs' |} /\
      aligned a' hs' /\
      (a' = old \/ a' = ast_of (f_text D s)) /\
      (edit1 old (ast_of (f_text D s)) -> a' = ast_of (f_text D s)).
  Proof.
    intros Hm Ha Hl.
    unfold Model.quick_check. rewrite Hm. cbn [e_ast e_hir].
    destruct (diff_ok old (ast_of (f_text D s))) as [d [Hd _]]. rewrite Hd.
    assert (He1 : edit1 old (ast_of (f_text D s)) -> update d old = ast_of (f_text D s)).
    { intros He. destruct (diff_update_edit1 _ _ He) as [d' [Hd' Hu]]. congruence. }
    destruct (is_nop d) eqn:N.
    - exists s, old, hs. rewrite Hm. repeat split; auto.
      intros He. apply He1 in He. destruct d; now cbn [update] in He.
    - destruct (ast_eqb (update d old) (ast_of (f_text D s))) eqn:Q.
      + apply ast_eqb_eq in Q.
        destruct (Hl d Hd Q) as [hd Hn]. rewrite Hn.
        pose proof (hupdate_aligned _ _ _ _ Ha Hn) as Ha2. rewrite Q in Ha2.
        rewrite (hfix_aligned _ _ Ha2).
        eexists. exists (ast_of (f_text D s)), (hupdate hd hs). split; [reflexivity|].
        rewrite Q. auto.
      + exists s, old, hs. rewrite Hm. repeat split; auto.
        intros He. apply He1 in He. apply ast_eqb_eq in He. congruence.
  Qed.

  Notation step := (step lower cname hname hfailed D check full_hir).
  Notation run := (run lower cname hname hfailed D check full_hir).
  Notation change_kind := (change_kind D).
  Notation check_file := (check_file D check full_hir).

  (* a didSave is answered with NoChange only when, with the text comparison, the text of the last analysis is the
     current one *)
  Lemma change_kind_spec b s dp :
    match change_kind b s dp with
    | Ok CkNoChange => b = true -> forall t, f_checked D s = Some t -> t = f_text D s
    | Ok _ => True
    | Panic => False
    end.
  Proof.
    unfold Model.change_kind. destruct dp; try exact I.
    destruct (b && _) eqn:G; [exact I|].
    destruct (f_mod D s) as [e|]; [|exact I]. destruct (e_ast e) as [old|]; [|exact I].
    destruct (diff old (ast_of (f_text D s))) as [d|] eqn:E; [|now apply diff_no_panic in E].
    destruct (is_nop d); [|exact I].
    intros -> t Hc. rewrite Hc in G. now apply negb_false_iff, text_eqb_eq in G.
  Qed.

  Definition is_recheck (ev : event) : Prop := match ev with ESave _ | EPoll => True | EChange _ _ => False end.

  (* everything one notification can do to the state of the document *)
  Inductive effect (b : bool) (s : fstate D) : event -> fstate D -> Prop :=
  | eff_change tr t m : cache_moved s m ->
      effect b s (EChange tr t) {| f_text := t; f_mod := m; f_checked := f_checked D s; f_pub := f_pub D s |}
  | eff_check ev : is_recheck ev -> effect b s ev (check_file s)
  | eff_skip dp : (b = true -> forall t, f_checked D s = Some t -> t = f_text D s) -> effect b s (ESave dp) s.

  Lemma step_spec b s ev :
    match step b s ev with Ok s' => effect b s ev s' | Panic => ~ lower_total end.
  Proof.
    destruct ev as [tr tx | dp |]; cbn [Model.step].
    - pose proof (quick_check_spec tr s) as Q.
      destruct (if tr then quick_check s else Ok s) as [s1|]; [|exact Q].
      destruct Q as [m [Hm ->]]. exact (eff_change b s tr tx m Hm).
    - unfold recheck. pose proof (change_kind_spec b s dp) as K.
      destruct (change_kind b s dp) as [[]|]; [| exact (eff_skip b s dp K) | | |destruct K]; now constructor.
    - now constructor.
  Qed.

  Lemma step_no_panic b s ev : lower_total -> step b s ev <> Panic.
  Proof. intros Ht E. pose proof (step_spec b s ev) as H. rewrite E in H. exact (H Ht). Qed.

  Lemma step_effect b s ev s' : step b s ev = Ok s' -> effect b s ev s'.
  Proof. intros E. pose proof (step_spec b s ev) as H. now rewrite E in H. Qed.

  Lemma run_ok b : lower_total -> forall evs s, exists s', run b s evs = Ok s'.
  Proof.
    intros Ht.
    induction evs as [|ev evs IH]; intros s; cbn [Model.run]; [now exists s|].
    destruct (step b s ev) eqn:E; [apply IH|]. now apply step_no_panic in E.
  Qed.

  Lemma run_app b : forall e1 e2 s, run b s (e1 ++ e2) =
    match run b s e1 with Ok s1 => run b s1 e2 | Panic => Panic end.
  Proof.
    induction e1 as [|ev e1 IH]; intros e2 s; cbn [app Model.run]; [reflexivity|].
    destruct (step b s ev); [apply IH|reflexivity].
  Qed.

  Lemma run_inv b (P : fstate D -> Prop) : forall evs,
    (forall ev s s', In ev evs -> P s -> step b s ev = Ok s' -> P s') ->
    forall s s', P s -> run b s evs = Ok s' -> P s'.
  Proof.
    induction evs as [|ev evs IH]; intros Hstep s s' Hp; cbn [Model.run].
    - now intros [= <-].
    - destruct (step b s ev) as [s1|] eqn:E; [|discriminate].
      apply IH; [intros ev' ? ? Hin; apply Hstep; now right|].
      apply (Hstep ev s s1); auto. now left.
  Qed.

  Definition pub_inv (s : fstate D) : Prop := exists t, f_checked D s = Some t /\ f_pub D s = check t.

  Lemma pub_inv_check_file s : pub_inv (check_file s).
  Proof. exists (f_text D s). split; reflexivity. Qed.

  Lemma pub_inv_step b s ev s' : pub_inv s -> step b s ev = Ok s' -> pub_inv s'.
  Proof.
    intros Hi H. destruct (step_effect _ _ _ _ H); [exact Hi|apply pub_inv_check_file|exact Hi].
  Qed.

  Lemma recheck_converges s ev s' : pub_inv s -> is_recheck ev -> step true s ev = Ok s' ->
    f_text D s' = f_text D s /\ f_pub D s' = check (f_text D s).
  Proof.
    intros [t [Hc Hp]] Hr H. destruct (step_effect _ _ _ _ H) as [| |dp Ht]; [destruct Hr|now split|].
    split; [reflexivity|]. now rewrite Hp, (Ht eq_refl t Hc).
  Qed.

  Definition final_text (t0 : text) (evs : list (event)) : text :=
    fold_left (fun t ev => match ev with EChange _ t' => t' | _ => t end) evs t0.

  Lemma step_text b s ev s' : step b s ev = Ok s' ->
    f_text D s' = match ev with EChange _ t' => t' | _ => f_text D s end.
  Proof. intros H. now destruct (step_effect _ _ _ _ H) as [|[]|]. Qed.

  Lemma run_text b : forall evs s s', run b s evs = Ok s' -> f_text D s' = final_text (f_text D s) evs.
  Proof.
    induction evs as [|ev evs IH]; intros s s'; cbn [Model.run].
    - now intros [= <-].
    - destruct (step b s ev) as [s1|] eqn:E; [|discriminate]. intros H.
      rewrite (IH _ _ H). unfold final_text. now rewrite (step_text _ _ _ _ E).
  Qed.

  Lemma convergence_from s0 evs last : lower_total -> pub_inv s0 -> is_recheck last ->
    exists s, run true s0 (evs ++ [last]) = Ok s /\
              f_text D s = final_text (f_text D s0) evs /\ f_pub D s = check (final_text (f_text D s0) evs).
  Proof.
    intros Hlt Hi Hr. rewrite run_app.
    destruct (run_ok true Hlt evs s0) as [s1 E1]. rewrite E1.
    pose proof (run_inv true pub_inv evs (fun ev s s' _ => pub_inv_step true s ev s') _ _ Hi E1) as Hi1.
    rewrite <- (run_text _ _ _ _ E1).
    cbn [Model.run]. destruct (step true s1 last) as [s|] eqn:E2; [|now apply step_no_panic in E2].
    exists s. split; [reflexivity|]. exact (recheck_converges _ _ _ Hi1 Hr E2).
  Qed.

  Lemma pub_converged s : f_pub D s = check (f_text D s) -> converged D check full_hir s.
  Proof. intros H d0. exact H. Qed.

  Definition texts_of (evs : list event) : list text :=
    flat_map (fun ev => match ev with EChange _ t => [t] | _ => [] end) evs.

  Definition cache_inv (s : fstate D) (seen : list text) : Prop :=
    In (f_text D s) seen /\
    exists e t, f_mod D s = Some e /\ e_ast e = Some (ast_of t) /\ In t seen.

  Lemma cache_inv_mono s seen more : cache_inv s seen -> cache_inv s (seen ++ more).
  Proof.
    intros [H1 [e [t [H2 [H3 H4]]]]]. split; [apply in_or_app; auto|].
    exists e, t. repeat split; auto. apply in_or_app; auto.
  Qed.

  Lemma cache_inv_check_file s seen : In (f_text D s) seen -> cache_inv (check_file s) seen.
  Proof.
    intros H. split; [exact H|]. eexists. exists (f_text D s). repeat split; auto.
  Qed.

  Lemma cache_inv_step b seen s ev s' : (forall tr t, ev = EChange tr t -> In t seen) ->
    cache_inv s seen -> step b s ev = Ok s' -> cache_inv s' seen.
  Proof.
    intros Hev Hi H.
    destruct (step_effect _ _ _ _ H) as [tr tx m Hm| |]; [|apply cache_inv_check_file, Hi|exact Hi].
    split; [exact (Hev tr tx eq_refl)|].
    destruct Hi as [Ht [e [t [He [Ha Hs]]]]]. cbn [f_mod].
    destruct Hm as [->|[e0 [e' [Q0 [-> [Q1|Q1]]]]]].
    - exists e, t. auto.
    - exists e', t. rewrite He in Q0. injection Q0 as <-. rewrite Q1. auto.
    - exists e', (f_text D s). auto.
  Qed.

  Lemma cache_inv_run b evs s s' seen : incl (texts_of evs) seen ->
    cache_inv s seen -> run b s evs = Ok s' -> cache_inv s' seen.
  Proof.
    intros Hs. apply (run_inv b (fun s => cache_inv s seen)).
    intros ev s1 s2 Hin. apply cache_inv_step. intros tr t ->.
    apply Hs, in_flat_map. eexists. split; [exact Hin|now left].
  Qed.
End Align.

(** the instance on which the property fails without the text comparison ([textcmp = false]) *)
Definition w_lower (c : chunk) : lowered := LSome c.
Definition w_name (c : Z) : Z := 0.
Definition w_failed (h : hchunk) : bool := false.
Definition w_check (t : text) : text := t.          (* diagnostics that show every chunk with its position *)
Definition w_full_hir (t : text) : option hir := Some (ast_of t).
Definition w_run (textcmp : bool) (t0 : text) (evs : list event) : res (fstate text) :=
  run w_lower w_name w_name w_failed text w_check w_full_hir textcmp (open text w_check w_full_hir t0 []) evs.

(** W1: a blank line is inserted above the only chunk (its layout changes, the AST does not), then didSave *)
Definition w1_t0 : text := [(1, 0)].
Definition w1_evs : list event := [EChange true [(1, 1)]; ESave DepsSelfOnly].
(** W2: chunk 2 is appended; a second change at column 0 (a blank line above chunk 2) makes quick_check_file
    absorb chunk 2 into the cached AST without publishing; then didSave *)
Definition w2_t0 : text := [(1, 0)].
Definition w2_evs : list event :=
  [EChange true [(1, 0); (2, 1)]; EChange true [(1, 0); (2, 2)]; ESave DepsSelfOnly].

(** a lowering that panics on one chunk makes the didChange handler panic *)
Definition wp_lower (c : chunk) : lowered := if c =? 2 then LPanic else LSome c.

Lemma zs_eqb_eq a b : zs_eqb a b = true <-> a = b.
Proof. exact (ast_eqb_eq a b). Qed.

Definition diag_eq_dec : forall a b : diag, {a = b} + {a <> b} := list_eq_dec Z.eq_dec.

Lemma count_count_occ d l : count d l = count_occ diag_eq_dec l d.
Proof.
  induction l as [|x l IH]; cbn [count count_occ]; [reflexivity|]. rewrite IH.
  destruct (diag_eq_dec x d) as [->|N].
  - now rewrite (proj2 (zs_eqb_eq d d) eq_refl).
  - destruct (zs_eqb d x) eqn:E; [apply zs_eqb_eq in E; congruence|reflexivity].
Qed.

Lemma judge_count a b :
  judge a b = true <-> forall d, count_occ diag_eq_dec a d = count_occ diag_eq_dec b d.
Proof.
  unfold judge. rewrite forallb_forall. split.
  - intros H d. destruct (in_dec diag_eq_dec d (a ++ b)) as [I|N].
    + rewrite <- !count_count_occ. apply Nat.eqb_eq. now apply H.
    + rewrite in_app_iff in N.
      rewrite (proj1 (count_occ_not_In diag_eq_dec a d)), (proj1 (count_occ_not_In diag_eq_dec b d)); tauto.
  - intros H d _. apply Nat.eqb_eq. rewrite !count_count_occ. apply H.
Qed.
