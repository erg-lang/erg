(** Renaming the binder [b] to a fresh [y] turns the scope [en] into [ren_env b y en]; an edit set that [agrees]
    with the resolution keeps every use resolving where it did, and [occ] computes such a set ([agrees_occ]; [marks] is the one
    walk behind [poss], [occ], [agrees]).  [no_stale] (from [uses_bound]): after the renaming a use that resolves to [b]
    is written [y], or with a name that [en] binds at [b]. *)
From Coq Require Import ZArith List Bool.
From ErgV Require Import Common.Lists Els.Rename Els.SpecRename.
Import ListNotations.
Open Scope Z_scope.

Lemma resolve_ren b y : forall en n, ~ In y (map fst en) -> n <> y ->
  resolve (ren_env b y en) (if match resolve en n with Some q => q =? b | None => false end then y else n)
  = resolve en n.
Proof.
  induction en as [|[m p] r IH]; intros n Hf Hn; [reflexivity|].
  apply not_in_cons in Hf as [Hm Hf]. cbn [fst] in Hm. specialize (IH n Hf Hn).
  change (ren_env b y ((m, p) :: r)) with ((if p =? b then (y, p) else (m, p)) :: ren_env b y r).
  cbn [resolve]. destruct (Z.eqb_spec m n) as [->|Hmn].
  - destruct (Z.eqb_spec p b) as [->|Hpb]; cbn [resolve]; now rewrite Z.eqb_refl.
  - destruct (match resolve r n with Some q => q =? b | None => false end) eqn:F.
    + destruct (Z.eqb_spec p b) as [->|Hpb].
      * rewrite Z.eqb_refl. destruct (resolve r n) as [q|]; [|discriminate]. apply Z.eqb_eq in F. now subst.
      * rewrite (proj2 (Z.eqb_neq m y)) by congruence. exact IH.
    + destruct (p =? b); cbn [resolve]; rewrite (proj2 (Z.eqb_neq _ n)) by congruence; exact IH.
Qed.

Lemma notin_app {A} (y : A) l1 l2 : ~ In y (l1 ++ l2) -> ~ In y l1 /\ ~ In y l2.
Proof. rewrite in_app_iff. tauto. Qed.

Lemma erase_rename_expr S b y : forall e en,
  agrees_expr S b en e = true -> ~ In y (map fst en) -> ~ In y (names_expr e) ->
  erase_expr (ren_env b y en) (rename_expr S y e) = erase_expr en e.
Proof.
  induction e as [p x | n | s | a IHa c IHc | f IHf a IHa | f IHf a IHa c IHc]; intros en Ha Hf Hn;
    cbn [agrees_expr rename_expr erase_expr names_expr] in *.
  - apply eqb_prop in Ha. unfold ren. rewrite Ha, resolve_ren; [now destruct (resolve en x)|assumption|].
    intros ->. apply Hn. now left.
  - reflexivity.
  - reflexivity.
  - apply andb_prop in Ha as [H1 H2]. apply notin_app in Hn as [N1 N2]. now rewrite IHa, IHc.
  - apply andb_prop in Ha as [H1 H2]. apply notin_app in Hn as [N1 N2]. now rewrite IHf, IHa.
  - apply andb_prop in Ha as [Ha H3]. apply andb_prop in Ha as [H1 H2].
    apply notin_app in Hn as [N1 Hn]. apply notin_app in Hn as [N2 N3]. now rewrite IHf, IHa, IHc.
Qed.

Lemma ren_env_cons (S : pos -> bool) (b : pos) (y : name) (p : pos) (x : name) (en : env) : S p = (p =? b) ->
  (ren S y p x, p) :: ren_env b y en = ren_env b y ((x, p) :: en).
Proof.
  intros H. unfold ren, ren_env. cbn [map snd]. rewrite H. destruct (p =? b); reflexivity.
Qed.

Lemma fresh_cons (y x : name) (p : pos) (en : env) :
  y <> x -> ~ In y (map fst en) -> ~ In y (map fst ((x, p) :: en)).
Proof. intros Hx Hf [X|X]; [exact (Hx (eq_sym X))|exact (Hf X)]. Qed.

Lemma erase_rename S b y : forall t en,
  agrees S b en t = true -> ~ In y (map fst en) -> ~ In y (names t) ->
  erase (ren_env b y en) (rename S y t) = erase en t.
Proof.
  induction t as [e | p x e k IHk | p f p1 x1 d body IHb k IHk | e k IHk]; intros en Ha Hf Hn;
    cbn [agrees rename erase names] in *.
  - f_equal. now apply erase_rename_expr.
  - apply andb_prop in Ha as [Ha Hk]. apply andb_prop in Ha as [Hp He]. apply eqb_prop in Hp.
    apply not_in_cons in Hn as [Nx Hn]. apply notin_app in Hn as [Ne Nk].
    rewrite (ren_env_cons S b y p x en Hp), erase_rename_expr, IHk; auto using fresh_cons.
  - apply andb_prop in Ha as [Ha Hk]. apply andb_prop in Ha as [Ha Hb].
    apply andb_prop in Ha as [Ha Hd]. apply andb_prop in Ha as [Hp Hp1].
    apply eqb_prop in Hp. apply eqb_prop in Hp1.
    apply not_in_cons in Hn as [Nf Hn]. apply not_in_cons in Hn as [Nx1 Hn].
    apply notin_app in Hn as [Nd Hn]. apply notin_app in Hn as [Nb Nk].
    rewrite (ren_env_cons S b y p f en Hp).
    destruct d as [[[p2 x2] e]|].
    + apply andb_prop in Hd as [Hp2 He]. apply eqb_prop in Hp2. apply not_in_cons in Nd as [Nx2 Ne].
      rewrite (ren_env_cons S b y p1 x1 _ Hp1), (ren_env_cons S b y p2 x2 _ Hp2).
      rewrite erase_rename_expr, IHb, IHk; auto using fresh_cons.
    + rewrite (ren_env_cons S b y p1 x1 _ Hp1), IHb, IHk; auto using fresh_cons.
  - apply andb_prop in Ha as [He Hk]. apply notin_app in Hn as [Ne Nk]. now rewrite erase_rename_expr, IHk.
Qed.

Lemma resolve_In : forall en x q, resolve en x = Some q -> In (x, q) en.
Proof.
  induction en as [|[m p] r IH]; intros x q H; cbn [resolve] in H; [discriminate|].
  destruct (Z.eqb_spec m x) as [->|]; [injection H as ->; now left|right; auto].
Qed.

Lemma uses_expr_bound : forall e en p n q, In (p, n, Some q) (uses_expr en e) -> In (n, q) en.
Proof.
  induction e as [p0 x | k | s | a IHa c IHc | f IHf a IHa | f IHf a IHa c IHc]; intros en p n q H;
    cbn [uses_expr] in H; rewrite ?in_app_iff in H; cbn [In] in H.
  - destruct H as [[= _ <- H]|[]]. now apply resolve_In.
  - destruct H.
  - destruct H.
  - destruct H; eauto.
  - destruct H; eauto.
  - destruct H as [H|[H|H]]; eauto.
Qed.

(** a use that resolves to [q] is written with a name bound at [q]: in the scope, or by a binder of the program *)
Lemma uses_bound : forall t en p n q,
  In (p, n, Some q) (uses en t) -> In (n, q) en \/ In (q, n) (binders t).
Proof.
  induction t as [e | p0 x e k IHk | p0 f p1 x1 d body IHb k IHk | e k IHk]; intros en p n q H;
    cbn [uses binders] in *; rewrite ?in_app_iff in *.
  - left. eapply uses_expr_bound; eauto.
  - destruct H as [H|H]; [apply uses_expr_bound in H|apply IHk in H]; cbn [In] in *; intuition congruence.
  - destruct H as [H|[H|H]]; [|apply IHb in H|apply IHk in H];
      destruct d as [[[p2 x2] e]|]; try apply uses_expr_bound in H;
      cbn [In app] in *; rewrite ?in_app_iff; intuition congruence.
  - destruct H as [H|H]; [left; eapply uses_expr_bound|eapply IHk]; eauto.
Qed.

Lemma binders_rename S y : forall t,
  binders (rename S y t) = map (fun px => (fst px, ren S y (fst px) (snd px))) (binders t).
Proof.
  induction t as [e | p x e k IHk | p f p1 x1 d body IHb k IHk | e k IHk]; cbn [rename binders map fst snd];
    rewrite ?map_app; try congruence.
  rewrite IHb, IHk. now destruct d as [[[p2 x2] e]|].
Qed.

Lemma no_stale S b y t en p n : S b = true ->
  In (p, n, Some b) (uses en (rename S y t)) -> In (n, b) en \/ n = y.
Proof.
  intros Hs H. apply uses_bound in H as [H|H]; [now left|right].
  rewrite binders_rename in H. apply in_map_iff in H as [[q x] [[= -> <-] _]].
  unfold ren. now rewrite Hs.
Qed.

Lemma mem_In l p : mem l p = true <-> In p l.
Proof. exact (existsb_eqb_In Z.eqb Z.eqb_eq p l). Qed.

Lemma mem_false l p : mem l p = false -> ~ In p l.
Proof. intros H Hin. apply mem_In in Hin. congruence. Qed.

Lemma nodupb_NoDup : forall l, nodupb l = true -> NoDup l.
Proof.
  induction l as [|x l IH]; cbn [nodupb]; intros H; constructor; apply andb_prop in H as [Hx Hl].
  - apply mem_false. now apply negb_true_iff in Hx.
  - now apply IH.
Qed.

(** [poss], [occ] and [agrees] walk a program in the same order and look at the same thing: each position with
    whether it is the binder [b] or a use that resolves to it *)
Fixpoint marks_expr (b : pos) (en : env) (e : expr) : list (pos * bool) :=
  match e with
  | Var p x => [(p, match resolve en x with Some q => q =? b | None => false end)]
  | Lit _ | Str _ => []
  | Add a c => marks_expr b en a ++ marks_expr b en c
  | Call1 f a => marks_expr b en f ++ marks_expr b en a
  | Call2 f a c => marks_expr b en f ++ marks_expr b en a ++ marks_expr b en c
  end.

Fixpoint marks (b : pos) (en : env) (t : block) : list (pos * bool) :=
  match t with
  | Ret e => marks_expr b en e
  | Def p x e k => (p, p =? b) :: marks_expr b en e ++ marks b ((x, p) :: en) k
  | Fun p f p1 x1 d body k =>
      let enf := (f, p) :: en in
      let inner := match d with
                   | None => (x1, p1) :: enf
                   | Some (p2, x2, _) => (x2, p2) :: (x1, p1) :: enf
                   end in
      (p, p =? b) :: (p1, p1 =? b) ::
      match d with Some (p2, _, e) => (p2, p2 =? b) :: marks_expr b enf e | None => [] end ++
      marks b inner body ++ marks b enf k
  | Print e k => marks_expr b en e ++ marks b en k
  end.

Lemma poss_marks_expr b : forall e en, poss_expr e = map fst (marks_expr b en e).
Proof.
  induction e as [p x | n | s | a IHa c IHc | f IHf a IHa | f IHf a IHa c IHc]; intros en;
    cbn [poss_expr marks_expr map fst]; rewrite ?map_app; congruence.
Qed.

Lemma poss_marks b : forall t en, poss t = map fst (marks b en t).
Proof.
  induction t as [e | p x e k IHk | p f p1 x1 d body IHb k IHk | e k IHk]; intros en;
    cbn [poss marks map fst]; rewrite ?map_app.
  - apply poss_marks_expr.
  - now rewrite <- poss_marks_expr, <- IHk.
  - rewrite <- IHb, <- IHk. destruct d as [[[p2 x2] e]|]; cbn [map fst]; [|reflexivity].
    now rewrite <- poss_marks_expr.
  - now rewrite <- poss_marks_expr, <- IHk.
Qed.

Lemma self_marked b p r : self b p ++ map fst (filter snd r) = map fst (filter snd ((p, p =? b) :: r)).
Proof. unfold self. now destruct (p =? b). Qed.

Lemma occ_marks_expr b : forall e en, occ_expr b en e = map fst (filter snd (marks_expr b en e)).
Proof.
  induction e as [p x | n | s | a IHa c IHc | f IHf a IHa | f IHf a IHa c IHc]; intros en;
    cbn [occ_expr marks_expr]; rewrite ?filter_app, ?map_app.
  - destruct (resolve en x) as [q|]; [|reflexivity]. now destruct (q =? b).
  - reflexivity.
  - reflexivity.
  - now rewrite IHa, IHc.
  - now rewrite IHf, IHa.
  - now rewrite IHf, IHa, IHc.
Qed.

Lemma occ_marks b : forall t en, occ b en t = map fst (filter snd (marks b en t)).
Proof.
  induction t as [e | p x e k IHk | p f p1 x1 d body IHb k IHk | e k IHk]; intros en; cbn [occ marks].
  - apply occ_marks_expr.
  - now rewrite <- self_marked, filter_app, map_app, <- occ_marks_expr, <- IHk.
  - rewrite <- !self_marked, !filter_app, !map_app, <- IHb, <- IHk.
    destruct d as [[[p2 x2] e]|]; [|reflexivity]. now rewrite <- self_marked, <- occ_marks_expr.
  - now rewrite filter_app, map_app, <- occ_marks_expr, <- IHk.
Qed.

Definition marked (S : pos -> bool) (m : pos * bool) : bool := Bool.eqb (S (fst m)) (snd m).

Lemma agrees_marks_expr S b : forall e en, agrees_expr S b en e = forallb (marked S) (marks_expr b en e).
Proof.
  induction e as [p x | n | s | a IHa c IHc | f IHf a IHa | f IHf a IHa c IHc]; intros en;
    cbn [agrees_expr marks_expr forallb]; rewrite ?forallb_app.
  - now rewrite andb_true_r.
  - reflexivity.
  - reflexivity.
  - now rewrite IHa, IHc.
  - now rewrite IHf, IHa.
  - now rewrite IHf, IHa, IHc, andb_assoc.
Qed.

Lemma agrees_marks S b : forall t en, agrees S b en t = forallb (marked S) (marks b en t).
Proof.
  induction t as [e | p x e k IHk | p f p1 x1 d body IHb k IHk | e k IHk]; intros en;
    cbn [agrees marks forallb]; rewrite ?forallb_app.
  - apply agrees_marks_expr.
  - now rewrite agrees_marks_expr, IHk, andb_assoc.
  - rewrite IHb, IHk, !andb_assoc. destruct d as [[[p2 x2] e]|]; [|reflexivity].
    now rewrite agrees_marks_expr.
  - now rewrite agrees_marks_expr, IHk.
Qed.

Lemma marked_filter (l : list (pos * bool)) :
  NoDup (map fst l) -> forallb (marked (mem (map fst (filter snd l)))) l = true.
Proof.
  intros Hn. apply forallb_forall. intros [p m] Hin. apply eqb_true_iff. cbn [fst snd].
  destruct m.
  - apply mem_In. apply (in_map fst _ (p, true)). apply filter_In. auto.
  - destruct (mem _ p) eqn:E; [|reflexivity]. apply mem_In, in_map_iff in E.
    destruct E as [[p' m'] [Ep H]]. cbn [fst] in Ep. subst p'.
    apply filter_In in H. destruct H as [H Hm]. cbn [snd] in Hm. subst m'.
    exact (NoDup_fst_fun l p true false Hn H Hin).
Qed.

Lemma agrees_occ b t en : NoDup (poss t) -> agrees (mem (occ b en t)) b en t = true.
Proof.
  rewrite (poss_marks b t en), agrees_marks, occ_marks. apply marked_filter.
Qed.

Lemma self_refl b : self b b = [b].
Proof. unfold self. now rewrite Z.eqb_refl. Qed.

Lemma binder_in_occ b : forall t en x, In (b, x) (binders t) -> In b (occ b en t).
Proof.
  induction t as [e | p x0 e k IHk | p f p1 x1 d body IHb k IHk | e k IHk]; intros en x H;
    cbn [binders occ] in *.
  - destruct H.
  - destruct H as [[= -> _]|H].
    + rewrite self_refl. now left.
    + apply in_or_app. right. apply in_or_app. right. eauto.
  - destruct H as [[= -> _]|[[= -> _]|H]].
    + rewrite self_refl. now left.
    + apply in_or_app. right. rewrite self_refl. now left.
    + apply in_or_app. right. apply in_or_app. right. apply in_app_or in H. destruct H as [H|H].
      * apply in_or_app. left. destruct d as [[[p2 x2] e]|]; [|destruct H].
        destruct H as [[= -> _]|[]]. rewrite self_refl. now left.
      * apply in_or_app. right. apply in_app_or in H. apply in_or_app. destruct H; eauto.
  - apply in_or_app. right. eauto.
Qed.
