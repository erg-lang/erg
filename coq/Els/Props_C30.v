(** C30.  "Applying the workspace edit returned for renaming a user-defined variable to a fresh, unused identifier yields a
    program that type-checks exactly when the original did, behaves identically when run, and contains no remaining
    reference to the old binding."

    Modelled and proved: binder resolution on a core with nested scopes / shadowing, closures, default arguments and
    string literals; that renaming EXACTLY the occurrence set [occ b] of a binder to a fresh name leaves the binding
    structure (hence checking and evaluation, which are defined on it) unchanged and leaves no reference under the
    old name.  Sampled only (checks/c30.py): that the edit set the language server returns is [occ b] (for every
    binding position of generated programs), that erg's checker and run time agree with the core on them;
    cross-module rename, attributes, classes, patterns are outside the core. *)
From Coq Require Import ZArith List Bool.
From ErgV Require Import Els.Rename Els.SpecRename Els.ProofsRename.
Import ListNotations.
Open Scope Z_scope.

(** 1. the set computed by [occ] contains a binder exactly when it is [b] and a use exactly when the use resolves
       to [b] (positions are distinct) *)
Theorem occ_agrees : forall b t en, NoDup (poss t) -> agrees (mem (occ b en t)) b en t = true.
Proof. exact agrees_occ. Qed.

(** 2. renaming such a set to a name that occurs nowhere keeps every use resolving to the corresponding binder:
       the erased programs (names removed, uses replaced by the position of their binder) are equal, in every scope *)
Theorem rename_preserves_binding : forall S b y t en,
  agrees S b en t = true -> ~ In y (map fst en) -> ~ In y (names t) ->
  erase (ren_env b y en) (rename S y t) = erase en t.
Proof. exact erase_rename. Qed.

Theorem alpha_rename_preserves_resolution : forall b y t,
  NoDup (poss t) -> ~ In y (names t) ->
  erase [] (rename (mem (occ b [] t)) y t) = erase [] t.
Proof. intros b y t Hn Hy. apply (erase_rename _ b y t []); auto. now apply agrees_occ. Qed.

(** 3. afterwards no use resolves to [b] unless it is written [y]: the old name no longer refers to the binding *)
Theorem no_stale_reference : forall b x y t p n,
  In (b, x) (binders t) ->
  In (p, n, Some b) (uses [] (rename (mem (occ b [] t)) y t)) -> n = y.
Proof.
  intros b x y t p n Hb H.
  assert (Hs : mem (occ b [] t) b = true) by (apply mem_In; eapply binder_in_occ; eauto).
  now destruct (no_stale _ b y t [] p n Hs H) as [[]|].
Qed.

(** 4. the evaluator of the core (closures, default arguments evaluated at the definition, printed values in order)
       gives the same outputs and result before and after; it is defined on the binding structure, so this follows
       from 2 (a checker defined on the binding structure accepts one iff it accepts the other, for the same reason) *)
Theorem rename_behaviour : forall fuel b y t,
  NoDup (poss t) -> ~ In y (names t) ->
  run_prog fuel (rename (mem (occ b [] t)) y t) = run_prog fuel t.
Proof. intros. unfold run_prog. now rewrite alpha_rename_preserves_resolution. Qed.

(** Example (non-vacuity): x = 1; f(y) = (x = y + 1; x); g(z, w := x) = z + w; s = "x"; print! (x + g(1)) + f(2)
    names: x=1 f=2 y=3 g=4 z=5 w=6 s=7; positions 10.. in source order *)
Definition ex_prog : block :=
  Def 10 1 (Lit 1)
  (Fun 11 2 12 3 None (Def 13 1 (Add (Var 14 3) (Lit 1)) (Ret (Var 15 1)))
  (Fun 16 4 17 5 (Some (18, 6, Var 19 1)) (Ret (Add (Var 20 5) (Var 21 6)))
  (Def 22 7 (Str [120])
  (Print (Add (Add (Var 23 1) (Call1 (Var 24 4) (Lit 1))) (Call1 (Var 25 2) (Lit 2))) (Ret (Lit 0)))))).

Example ex_occ : occ 10 [] ex_prog = [10; 19; 23] /\ occ 13 [] ex_prog = [13; 15] /\
                 NoDup (poss ex_prog) /\ ~ In 99 (names ex_prog).
Proof.
  repeat split.
  - apply nodupb_NoDup. reflexivity.
  - apply mem_false. reflexivity.
Qed.

Example ex_run : fst (run_prog 20 ex_prog) = [VInt 6] /\
                 run_prog 20 (rename (mem (occ 10 [] ex_prog)) 99 ex_prog) = run_prog 20 ex_prog.
Proof. split; reflexivity. Qed.

(** 5. both hypotheses are needed.  A name that is not fresh is captured (x = 1; y = 2; print! x: renaming x to y);
       and an edit set that also contains the uses of a shadowing inner binding changes the meaning *)
Theorem rename_not_fresh_refuted :
  exists t b y, NoDup (poss t) /\ erase [] (rename (mem (occ b [] t)) y t) <> erase [] t.
Proof.
  exists (Def 10 1 (Lit 1) (Def 11 2 (Lit 2) (Print (Var 12 1) (Ret (Lit 0))))), 10, 2.
  split; [apply nodupb_NoDup; reflexivity|vm_compute; discriminate].
Qed.

Theorem rename_wrong_set_refuted :
  exists S y, ~ In y (names ex_prog) /\ (forall p, In p (occ 10 [] ex_prog) -> In p S) /\
              judge_rename ex_prog S y 10 1 = false /\ judge_rename ex_prog (occ 10 [] ex_prog) y 10 1 = true.
Proof.
  exists [10; 19; 23; 15], 99. split; [|split; [|split; reflexivity]].
  - apply mem_false. reflexivity.
  - intros p [<-|[<-|[<-|[]]]]; apply mem_In; reflexivity.
Qed.
