(** C29.  "After any sequence of edits to an open document, the diagnostics the language server publishes for it are the
    same as those a freshly started server publishes for the final text."

    Modelled and proved for every history: the diff/update index arithmetic of diff.rs and the cache protocol of
    diagnostics.rs / server.rs (what is analysed when, what is published when), for EVERY analysis function [check],
    every chunk-lowering function and every answer of the module graph.  Sampled only (checks/c29.py): that the real
    full analysis is a function of the text alone (no state of an earlier analysis leaks into it). *)
From Coq Require Import ZArith List Bool Permutation.
From ErgV Require Import Els.Model Els.Spec Els.Proofs.
Import ListNotations.
Open Scope Z_scope.

(** 1. ASTDiff::diff never panics: [new.len() - 1], [old.len() - 1] and [new.get(idx).unwrap()] are safe *)
Theorem diff_total : forall old new, diff old new <> Panic.
Proof. exact diff_no_panic. Qed.

(** 2. when a notification changed at most one top-level chunk (one inserted, deleted or replaced, anywhere, also
       next to equal chunks), patching the cached AST with the computed diff gives exactly the new AST *)
Theorem diff_update_single : forall old new, edit1 old new ->
  exists d, diff old new = Ok d /\ update d old = new.
Proof. exact diff_update_edit1. Qed.

Example diff_update_single_ex :
  edit1 [1; 2; 2; 3] [1; 2; 2; 2; 3] /\ diff [1; 2; 2; 3] [1; 2; 2; 2; 3] = Ok (Addition 3 2) /\
  update (Addition 3 2) [1; 2; 2; 3] = [1; 2; 2; 2; 3].
Proof. split; [exact (E1_ins [1] 2 [2; 2; 3])|split; reflexivity]. Qed.

(** 3. and only then: ASTDiff describes at most one changed chunk *)
Theorem diff_update_exact_iff : forall old new,
  (exists d, diff old new = Ok d /\ update d old = new) <-> edit1 old new.
Proof.
  intros old new. split.
  - intros [d [_ <-]]. apply update_edit1.
  - apply diff_update_edit1.
Qed.

(** 4. the general statement [forall old new, update (diff old new) old = new] is false: two insertions in one
       notification (also: an insertion and a modification, two modifications) *)
Theorem diff_update_general_refuted :
  exists old new d, diff old new = Ok d /\ update d old <> new.
Proof. exists [1], [1; 2; 3], (Addition 2 3). split; [reflexivity|vm_compute; discriminate]. Qed.

Example diff_update_two_modifications :
  diff [1; 2; 3] [7; 2; 9] = Ok (Modification 0 7) /\ update (Modification 0 7) [1; 2; 3] = [7; 2; 3].
Proof. split; reflexivity. Qed.

(** 5. quick_check_file patches its caches only when the computed diff describes the whole change ("fix:
       quick_check_file patched its caches with a diff that did not describe the change").  When lowering succeeds,
       afterwards the cached AST is either untouched or exactly the AST of the text the server saw — the latter
       whenever at most one chunk changed — and every cached HIR chunk is the lowering of the AST chunk at the same
       index (HIRDiff::new / update / fix keep the two lists aligned) *)
Theorem quick_check_exact :
  forall (lower : chunk -> lowered) (cname : chunk -> Z) (hname : hchunk -> Z) (hfailed : hchunk -> bool)
         (D : Type) (s : fstate D) old hs,
  f_mod D s = Some {| e_ast := Some old; e_hir := Some hs |} ->
  aligned lower old hs ->
  (forall c, In c (ast_of (f_text D s)) -> exists h, lower c = LSome h) ->
  exists s' a' hs', quick_check lower cname hname hfailed D s = Ok s' /\
    f_mod D s' = Some {| e_ast := Some a'; e_hir := Some hs' |} /\
    aligned lower a' hs' /\
    (a' = old \/ a' = ast_of (f_text D s)) /\
    (edit1 old (ast_of (f_text D s)) -> a' = ast_of (f_text D s)).
Proof.
  intros lower cname hname hfailed D s old hs Hm Ha Hl.
  apply (quick_check_aligned lower cname hname hfailed D s old hs Hm Ha).
  (* the chunk the diff carries is a chunk of the new AST, so it lowers *)
  intros d Hd _. apply diff_carries in Hd.
  destruct d as [i | i c | i c |]; cbn [hirdiff_new]; eauto;
    destruct (Hl c (nth_error_In _ _ Hd)) as [h ->]; eauto.
Qed.

Example quick_check_exact_ex :
  aligned w_lower [1; 2] [1; 2] /\ edit1 [1; 2] [1; 3; 2] /\ ~ edit1 [1; 2] [1; 3; 4; 2].
Proof.
  split; [reflexivity|]. split; [exact (E1_ins [1] 3 [2])|].
  intros H. apply diff_update_exact_iff in H. destruct H as [d [H1 H2]].
  vm_compute in H1. injection H1 as <-. vm_compute in H2. discriminate.
Qed.

(** 5b. cache invariant: along every history the cached AST is the AST of ONE text the server has seen (the opened
        text or the text of some didChange) — never a mixture of two texts; whatever lowering does *)
Theorem cached_ast_is_exact :
  forall lower cname hname hfailed (D : Type) (check : text -> D) full_hir textcmp t0 d0 evs s,
  run lower cname hname hfailed D check full_hir textcmp (open D check full_hir t0 d0) evs = Ok s ->
  exists e t, f_mod D s = Some e /\ e_ast e = Some (ast_of t) /\
              In t (t0 :: texts_of evs).
Proof.
  intros lower cname hname hfailed D check full_hir textcmp t0 d0 evs s H.
  apply (cache_inv_run lower cname hname hfailed D check full_hir textcmp evs _ s (t0 :: texts_of evs)) in H.
  - apply H.
  - apply incl_tl, incl_refl.
  - apply cache_inv_check_file. now left.
Qed.

(** KNOWN FINDING C29-quick-check-panics (known/C29.json, corpus/C29/k2).  The checker can panic while it lowers ONE
    chunk in the context an earlier analysis left (`(lhs: ?L, rhs: ?R) -> ?L.Output has qvar` for a function whose
    body uses a variable of failed type), although a fresh analysis of the same text does not: the didChange handler
    (quick_check_file: HIRDiff::new, HIRDiff::fix) then panics.  The guard of theorems 6 and 7 is
    [lower_total lower]: lowering a chunk does not panic (the class Known_C29 of known/C29.json is its negation).
    In the model: *)
Theorem quick_check_lower_panic_refuted :
  run wp_lower w_name w_name w_failed text w_check w_full_hir true (open text w_check w_full_hir w2_t0 [])
      [EChange true [(1, 0); (2, 1)]; EChange true [(1, 0); (2, 2)]] = Panic.
Proof. vm_compute. reflexivity. Qed.

(** 6. when lowering does not panic, no history makes the modelled handlers panic (with or without the text
       comparison) *)
Theorem run_no_panic :
  forall lower cname hname hfailed (D : Type) (check : text -> D) full_hir textcmp evs s,
  lower_total lower ->
  run lower cname hname hfailed D check full_hir textcmp s evs <> Panic.
Proof.
  intros lower cname hname hfailed D check full_hir textcmp evs s Ht.
  destruct (run_ok lower cname hname hfailed D check full_hir textcmp Ht evs s) as [s' ->]. discriminate.
Qed.

(** 7. CONVERGENCE.  For every analysis function, every lowering function (that does not panic), every document and
       every history of didChange (any texts, any number of changed chunks, quick-checked or not), didSave (whatever
       the module graph answers) and polling ticks: when the history ends in a didSave or a polling tick, the
       diagnostics published last for the document are [check] of the final text, which is what a fresh server
       publishes when it opens that text.
       (The invariant is not "cached AST = AST of the last text" — quick_check_file breaks that on every
       notification that changes two chunks, theorem 4 — but "published = check (checked_code)", and didSave skips
       the analysis only when checked_code is the current text.) *)
Theorem convergence :
  forall lower cname hname hfailed (D : Type) (check : text -> D) full_hir t0 d0 evs last,
  lower_total lower ->
  is_recheck last ->
  exists s, run lower cname hname hfailed D check full_hir true (open D check full_hir t0 d0) (evs ++ [last]) = Ok s /\
            f_text D s = final_text t0 evs /\
            f_pub D s = check (final_text t0 evs) /\
            converged D check full_hir s.
Proof.
  intros lower cname hname hfailed D check full_hir t0 d0 evs last Ht Hr.
  destruct (convergence_from lower cname hname hfailed D check full_hir (open D check full_hir t0 d0) evs last
              Ht (pub_inv_check_file _ _ _ _) Hr) as [s [Hrun [Htx Hp]]].
  exists s. repeat split; auto. apply pub_converged. now rewrite Htx.
Qed.

Example convergence_ex :
  exists s, w_run true w2_t0 w2_evs = Ok s /\ f_pub text s = [(1, 0); (2, 2)] /\ f_text text s = [(1, 0); (2, 2)].
Proof. eexists. split; [vm_compute; reflexivity|split; reflexivity]. Qed.

(** 8. the text comparison is necessary: with change_kind at [textcmp = false] (NoChange decided from the
       cached AST alone) the property fails, W1: a blank line inserted above a chunk (positions of the published
       diagnostics are stale), W2: a chunk added, absorbed into the cached AST by quick_check_file (its
       diagnostics are never published).  Replayed on the real server by checks/c29.py (corpus/C29). *)
Theorem convergence_without_text_check_refuted :
  (exists s, w_run false w1_t0 w1_evs = Ok s /\ f_pub text s <> w_check (f_text text s)) /\
  (exists s, w_run false w2_t0 w2_evs = Ok s /\ f_pub text s <> w_check (f_text text s)).
Proof.
  split; eexists; (split; [vm_compute; reflexivity|]); vm_compute; discriminate.
Qed.

(** 9. the executable judge decides "same diagnostics" (as multisets) *)
Theorem judge_spec : forall a b, judge a b = true <-> Permutation a b.
Proof.
  intros a b. rewrite judge_count. symmetry. apply (Permutation_count_occ diag_eq_dec).
Qed.

Example judge_ex : judge [[0; 4; 0; 5; 1; 121]; [0; 0; 0; 1; 2; 120]] [[0; 0; 0; 1; 2; 120]; [0; 4; 0; 5; 1; 121]] = true
                   /\ judge [[0; 4; 0; 5; 1; 121]] [[1; 4; 1; 5; 1; 121]] = false.
Proof. split; reflexivity. Qed.
