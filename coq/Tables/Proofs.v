(** C16 — proofs.  Each judge of Spec.v is shown sound for the statement it decides ([*_sound]); each finite fact is
    established for the whole generated table by [vm_compute] (the [*_all] lemmas, stated per element). *)
From Coq Require Import String NArith List Bool Lia.
From ErgV Require Import Common.Lists gen.Opcodes gen.Magic gen.CPython Tables.Model Tables.Spec.
Import ListNotations.
Open Scope N_scope.

(** what [row_ok] and [site_ok] decide *)
Definition row_prop (minor e : N) (name : string) (n : N) : Prop :=
  match cpy_lookup minor name with
  | Some m => m = n
  | None => erg_specific name = true
            \/ (exists c, In (name, c) aliases /\ cpy_lookup minor c = Some n)
            \/ ~ In (minor, e, name) erg_emitted
  end.

Definition site_prop (minor e : N) (name : string) : Prop :=
  name = "NOT_IMPLEMENTED"%string \/
  exists n c, erg_num e name = Some n /\ (c = name \/ In (name, c) aliases) /\ cpy_lookup minor c = Some n.

Lemma opt_is_true : forall o n, opt_is o n = true -> o = Some n.
Proof.
  intros [m|] n H; cbn in H; [|discriminate].
  apply N.eqb_eq in H. now subst.
Qed.

Lemma existsb_Neqb_In n l : existsb (N.eqb n) l = true <-> In n l.
Proof. exact (existsb_eqb_In N.eqb N.eqb_eq n l). Qed.

Lemma existsb_triple_eqb : forall x l, In x l -> existsb (triple_eqb x) l = true.
Proof.
  intros [[a b] c] l Hin. apply existsb_exists. exists (a, b, c). split; [assumption|].
  cbn. rewrite !N.eqb_refl, String.eqb_refl. reflexivity.
Qed.

Lemma alias_targets_In name c : In c (alias_targets name) -> In (name, c) aliases.
Proof.
  intros H. unfold alias_targets in H.
  apply in_map_iff in H. destruct H as [[a b] [Hs Hin]].
  apply filter_In in Hin. destruct Hin as [Hin He]. cbn in Hs, He.
  apply String.eqb_eq in He. now subst.
Qed.

Lemma spelling_found minor n l :
  existsb (fun c => opt_is (cpy_lookup minor c) n) l = true -> exists c, In c l /\ cpy_lookup minor c = Some n.
Proof.
  intros H. apply existsb_exists in H. destruct H as [c [Hin Hc]].
  exists c. split; [assumption|now apply opt_is_true].
Qed.

Lemma row_ok_sound minor e name n : row_ok minor e (name, n) = true -> row_prop minor e name n.
Proof.
  intros H. unfold row_ok in H. unfold row_prop.
  destruct (cpy_lookup minor name) as [m|].
  - now apply N.eqb_eq in H.
  - apply orb_true_iff in H. destruct H as [H|H]; [apply orb_true_iff in H; destruct H as [H|H]|].
    + now left.
    + right; left. destruct (spelling_found _ _ _ H) as [c [Hin Hc]].
      exists c. split; [now apply alias_targets_In|assumption].
    + right; right. intros Hin. unfold is_emitted in H.
      rewrite (existsb_triple_eqb _ _ Hin) in H. discriminate.
Qed.

Lemma site_ok_sound minor e name : site_ok (minor, e, name) = true -> site_prop minor e name.
Proof.
  intros H. unfold site_ok in H. unfold site_prop.
  apply orb_true_iff in H. destruct H as [H|H].
  - left. now apply String.eqb_eq in H.
  - right. destruct (erg_num e name) as [n|]; [|discriminate].
    destruct (spelling_found _ _ _ H) as [c [Hin Hc]].
    exists n, c. split; [reflexivity|]. split; [|assumption].
    destruct Hin as [Hin|Hin]; [now left|right; now apply alias_targets_In].
Qed.

Lemma jump_site_ok_sound minor e name n :
  jump_site_ok (minor, e, name) = true -> erg_num e name = Some n ->
  (is_jump_op n = true <-> In n (cpy_jumps minor)).
Proof.
  intros H Hn. unfold jump_site_ok in H. rewrite Hn in H.
  apply eqb_prop in H. rewrite H. apply existsb_Neqb_In.
Qed.

Lemma raw_ok_sound minor b : raw_ok (minor, b) = true -> b = 0 /\ cpy_lookup minor "CACHE" = Some 0.
Proof.
  intros H. apply andb_true_iff in H. destruct H as [Hb Hc].
  split; [now apply N.eqb_eq|now apply opt_is_true].
Qed.

Lemma In_u8s op : op < 256 -> In op u8s.
Proof.
  intros H. unfold u8s. apply in_map_iff. exists (N.to_nat op). split.
  - apply N2Nat.id.
  - apply in_seq. lia.
Qed.

Lemma arm_ok_sound minor op rel : arm_ok minor op = true -> jump_abs_kind minor op = Ok rel ->
  if rel then In op (cpy_rel minor) else In op (cpy_abs minor).
Proof.
  intros H Hk. unfold arm_ok in H. rewrite Hk in H.
  destruct rel; now apply existsb_Neqb_In.
Qed.

Lemma alias_ok_sound minor a c :
  alias_ok minor (a, c) = true -> cpy_lookup minor a = None \/ cpy_lookup minor c = None.
Proof.
  intros H. unfold alias_ok in H. cbn [fst snd] in H.
  destruct (cpy_lookup minor a); [|now left].
  destruct (cpy_lookup minor c); [discriminate|now right].
Qed.

Lemma list_eqb_eq : forall a b, list_eqb a b = true -> a = b.
Proof.
  unfold list_eqb. induction a as [|x a IH]; intros [|y b] H; cbn in H; try discriminate; [reflexivity|].
  apply andb_true_iff in H. destruct H as [Hlen H].
  apply andb_true_iff in H. destruct H as [Hxy H].
  apply N.eqb_eq in Hxy. subst y. f_equal. apply IH. rewrite Hlen. exact H.
Qed.

Lemma get_ver_try : forall m v, get_ver_from_magic_num m = Ok v -> try_get_ver_from_magic_num m = Some v.
Proof.
  intros m v H. unfold get_ver_from_magic_num in H.
  destruct (try_get_ver_from_magic_num m) as [w|]; [|discriminate].
  injection H as H. now subst.
Qed.

Lemma magic_ok_sound minor b0 b1 b2 b3 : magic_ok (minor, [b0; b1; b2; b3]) = true -> minor <= 12 ->
  get_ver_from_magic_num (get_magic_num_from_bytes b0 b1 b2 b3) = Ok (3, minor)
  /\ try_get_ver_from_magic_num (get_magic_num_from_bytes b0 b1 b2 b3) = Some (3, minor)
  /\ get_magic_num_bytes (get_magic_num_from_bytes b0 b1 b2 b3) = [b0; b1; b2; b3].
Proof.
  intros H Hle. unfold magic_ok in H.
  rewrite (proj2 (N.ltb_ge _ _) Hle) in H.
  destruct (get_ver_from_magic_num (get_magic_num_from_bytes b0 b1 b2 b3)) as [[major mi]|] eqn:Hv; [|discriminate].
  apply andb_true_iff in H. destruct H as [H Hb].
  apply andb_true_iff in H. destruct H as [Hma Hmi].
  apply N.eqb_eq in Hma. apply N.eqb_eq in Hmi. subst.
  split; [reflexivity|]. split; [now apply get_ver_try|now apply list_eqb_eq].
Qed.

Lemma rows_all : forall x, In x all_rows -> (let '(minor, e, r) := x in row_ok minor e r) = true.
Proof. apply forallb_forall. vm_compute. reflexivity. Qed.

Lemma In_all_rows : forall minor e t name n,
  In minor erg_versions -> In e (tables_for minor) -> table_of e = Some t -> In (name, n) t ->
  In (minor, e, (name, n)) all_rows.
Proof.
  intros minor e t name n Hv He Ht Hin. unfold all_rows.
  apply in_flat_map. exists minor. split; [assumption|].
  apply in_flat_map. exists e. split; [assumption|].
  rewrite Ht. apply in_map_iff. exists (name, n). split; [reflexivity|assumption].
Qed.

Lemma sites_all : forall s, In s erg_emitted -> site_ok s = true.
Proof. apply forallb_forall. vm_compute. reflexivity. Qed.

Lemma jump_sites_all : forall s, In s erg_emitted -> jump_site_ok s = true.
Proof. apply forallb_forall. vm_compute. reflexivity. Qed.

Lemma emitted_versions_all : forall s, In s erg_emitted -> existsb (N.eqb (fst (fst s))) erg_versions = true.
Proof. apply forallb_forall. vm_compute. reflexivity. Qed.

Lemma raw_all : forall s, In s erg_emitted_raw -> raw_ok s = true.
Proof. apply forallb_forall. vm_compute. reflexivity. Qed.

Lemma magic_all : forall m, In m cpy_magic -> magic_ok m = true.
Proof. apply forallb_forall. vm_compute. reflexivity. Qed.

Lemma arms_all : forall minor op, In minor erg_versions -> In op u8s -> arm_ok minor op = true.
Proof.
  intros minor op Hv. revert op. apply forallb_forall. revert minor Hv. apply forallb_forall.
  vm_compute. reflexivity.
Qed.

Lemma aliases_all : forall minor p, In minor erg_versions -> In p aliases -> alias_ok minor p = true.
Proof.
  intros minor p Hv. revert p. apply forallb_forall. revert minor Hv. apply forallb_forall.
  vm_compute. reflexivity.
Qed.
