(** C27 — proof by computation over the generated tables. *)
From Coq Require Import String NArith List Bool.
From ErgV Require Import gen.PyStd gen.PyAttrs Tables.Model27 Tables.Spec27.
Import ListNotations.
Open Scope N_scope.

Definition mask_in (t : option (list (string * N))) (name : string) : N :=
  match t with
  | None => 0
  | Some t => match assoc_str name t with Some m => m | None => 0 end
  end.

(* unfold the judge through these two equations only: a conversion that has to find the unfolding itself may reduce
   [assoc_str _ py_attrs] first and then compare what is left of the table term by term *)
Lemma decl_ok_eq m e p : decl_ok (m, e, p) = Known_C27 m p || existsb (fun src => has_attr src m p) sources.
Proof. unfold decl_ok, exists_somewhere. reflexivity. Qed.

Lemma decl_ok_mask m e p :
  decl_ok (m, e, p) = Known_C27 m p || existsb (N.testbit (mask_in (assoc_str m py_attrs) p)) sources.
Proof. unfold decl_ok, exists_somewhere, has_attr, attr_mask, mask_in. reflexivity. Qed.

Lemma decl_ok_sound : forall module ergname pyname,
  decl_ok (module, ergname, pyname) = true -> Known_C27 module pyname = false ->
  exists src, In src sources /\ has_attr src module pyname = true.
Proof.
  intros module ergname pyname H Hk.
  rewrite decl_ok_eq, Hk, orb_false_l in H. apply existsb_exists in H. exact H.
Qed.

(* evaluated in place of [forallb decl_ok], which is slow to check (every declaration scans the module list again, once
   per source).  The declarations come grouped by module, so the table of the previous one's module ([t0] for [m0]) is
   kept; the known list is consulted only for a name that is not found. *)
Fixpoint sweep (m0 : string) (t0 : option (list (string * N))) (ds : list (string * string * string)) : bool :=
  match ds with
  | [] => true
  | (m, _, p) :: ds' =>
      let t := if String.eqb m m0 then t0 else assoc_str m py_attrs in
      (existsb (N.testbit (mask_in t p)) sources || Known_C27 m p) && sweep m t ds'
  end.

Lemma sweep_sound : forall ds m0, sweep m0 (assoc_str m0 py_attrs) ds = true -> forallb decl_ok ds = true.
Proof.
  induction ds as [|[[m e] p] ds IH]; intros m0 H; [reflexivity|].
  cbn [sweep] in H.
  replace (if String.eqb m m0 then assoc_str m0 py_attrs else assoc_str m py_attrs)
    with (assoc_str m py_attrs) in H by (destruct (String.eqb_spec m m0) as [->|]; reflexivity).
  apply andb_true_iff in H as [Hd Hs].
  cbn [forallb]. rewrite (IH _ Hs), andb_true_r, decl_ok_mask, orb_comm. exact Hd.
Qed.

Lemma decls_all : forallb decl_ok pystd_decls = true.
Proof. apply (sweep_sound _ ""%string). vm_compute. reflexivity. Qed.
