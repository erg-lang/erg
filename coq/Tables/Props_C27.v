(** C27 — stdlib declarations name attributes that really exist: the property theorem.

    Domain: [pystd_decls] (every public top-level declaration of every bundled pystd .d.er file, regenerated on every run by
    erg's own parser) against [py_attrs] (regenerated on every run from the installed interpreters 3.7-3.13 and the typeshed
    stubs on disk).  Proof by computation. *)
From Coq Require Import String NArith List Bool.
From ErgV Require Import gen.PyStd gen.PyAttrs Tables.Model27 Tables.Spec27 Tables.Proofs27.
Import ListNotations.
Open Scope N_scope.

(** Every attribute the bundled declarations of a Python standard-library module let a program access exists on that module,
    under the python name the declaration maps it to, in at least one source (an installed interpreter 3.7-3.13, or a
    platform branch of the typeshed stubs) — except the explicitly listed known findings. *)
Theorem C27_declared_attributes_exist : forall module ergname pyname,
  In (module, ergname, pyname) pystd_decls ->
  Known_C27 module pyname = false ->
  exists src, In src sources /\ has_attr src module pyname = true.
Proof.
  intros module ergname pyname Hin. apply (decl_ok_sound module ergname).
  exact (proj1 (forallb_forall _ _) decls_all _ Hin).
Qed.

(** Non-vacuity: there are many declarations, almost none in the known class, and the oracle is not trivially "yes":
    a name nobody defines is rejected. *)
Example decls_nonvacuous :
  (1000 <=? N.of_nat (length (filter (fun d : string * string * string => let '(m, e, p) := d in negb (Known_C27 m p)) pystd_decls))) = true.
Proof. vm_compute. reflexivity. Qed.

Example oracle_rejects_unknown_name : exists_somewhere "sys" "float_indo" = false /\ exists_somewhere "sys" "float_info" = true.
Proof. vm_compute. split; reflexivity. Qed.
