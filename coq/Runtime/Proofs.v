(** C26 — "no Nat instance is ever negative" ([good] of Spec.v), layer by layer of Model.v, then along [exec] /
    [run_cmds] of Spec.v.  Stated on the result ([res_good]; [res_good2] for [method], which also returns the receiver) the
    facts compose through [bind], so each layer is one step over the layer below. *)
From Coq Require Import ZArith List Bool Lia.
From ErgV Require Import Common.Lists Runtime.Model Runtime.Spec.
Import ListNotations.
Open Scope Z_scope.

(* the local function of the same name in [dispatch]: method [d] as class [c] resolves it along its mro; a class
   that has none answers NotImplemented *)
Definition call (impl : pycls -> dunder -> option (val -> val -> res val)) c d x y : res val :=
  match find_owner impl c d with
  | Some ow => match impl ow d with Some f => f x y | None => Ok vnotimpl end
  | None => Ok vnotimpl
  end.

Lemma res_good_ok : forall r v, res_good r = true -> r = Ok v -> good v = true.
Proof. intros r v G ->. exact G. Qed.
Lemma bind_good : forall (r : res val) f,
  res_good r = true -> (forall v, good v = true -> res_good (f v) = true) -> res_good (bind r f) = true.
Proof. intros [v| |] f G H; try reflexivity. apply H, G. Qed.
Lemma bind_any_good : forall A (r : res A) f, (forall a, res_good (f a) = true) -> res_good (bind r f) = true.
Proof. intros A [a| |] f H; try reflexivity. apply H. Qed.

(* filled by the [Hint Resolve]s inside the sections below, so empty again once they close *)
Create HintDb good.

Section Good.
Variable orc : Z -> oarg -> oarg -> ores.

Lemma good_pint : forall z, good (pint z) = true.  Proof. reflexivity. Qed.
Lemma good_pbool : forall b, good (pbool b) = true.  Proof. reflexivity. Qed.
Lemma of_ores_good : forall r, res_good (of_ores r) = true.
Proof. intros [b|z|b|e| |]; reflexivity. Qed.

Lemma int_arith_ind : forall P : res val -> Prop,
  (forall z, P (Ok (pint z))) -> (forall c, P (Ok (pbool c))) -> (forall e, P (Raise e)) -> (forall q, P (of_ores q)) ->
  forall o x y, P (int_arith orc o x y).
Proof. intros P Hz Hc He Hq o x y. destruct o; cbn [int_arith]; auto; destruct (_ : bool); auto. Qed.
Lemma int_arith_good : forall o x y, res_good (int_arith orc o x y) = true.
Proof. apply (int_arith_ind (fun r => res_good r = true)); auto using of_ores_good. Qed.
Lemma int_method_good : forall o rf s x, res_good (int_method orc o rf s x) = true.
Proof.
  intros o rf s x. unfold int_method. destruct (as_int s); [|reflexivity].
  destruct (as_int x); [|reflexivity]. destruct rf; apply int_arith_good.
Qed.
Lemma float_method_good : forall o rf s x, res_good (float_method orc o rf s x) = true.
Proof.
  intros o rf s x. unfold float_method. destruct (as_flt s); [|reflexivity].
  destruct (oarg_of x); try reflexivity; destruct rf; apply of_ores_good.
Qed.
Lemma str_method_good : forall o s x, res_good (str_method o s x) = true.
Proof.
  intros o s x. unfold str_method. destruct (as_str s); [|reflexivity].
  destruct o, (as_str x), (as_int x); reflexivity.
Qed.
Lemma forallb_repeat_list : forall (f : sval -> bool) l n, forallb f l = true -> forallb f (repeat_list l n) = true.
Proof. intros f l n H. induction n; cbn; auto. rewrite forallb_app, H, IHn. reflexivity. Qed.
Lemma as_list_good : forall v l, as_list v = Some l -> good v = true -> forallb good_s l = true.
Proof. intros [s|w l0|m p] l H G; cbn in H; inversion H; subst. exact G. Qed.
Lemma list_method_good : forall o s x, good s = true -> good x = true -> res_good (list_method o s x) = true.
Proof.
  intros o s x Gs Gx. unfold list_method. destruct (as_list s) as [l|] eqn:El; [|reflexivity].
  pose proof (as_list_good _ _ El Gs) as Gl.
  destruct o; try reflexivity.
  (* comparisons answer with a bool *)
  3-8: destruct (as_list x) as [m|]; try reflexivity;
       destruct (negb _); try reflexivity; destruct (list_eq l m); reflexivity.
  - destruct (as_list x) as [m|] eqn:Em; [|reflexivity]. cbn.
    rewrite forallb_app, Gl, (as_list_good _ _ Em Gx). reflexivity.
  - destruct (as_int x); [|reflexivity]. apply forallb_repeat_list, Gl.
Qed.

Lemma sign_check_good : forall k z, res_good (if z <? 0 then Raise ValueError else Ok (Sc (SI k z))) = true.
Proof.
  intros k z. destruct (z <? 0) eqn:E; [reflexivity|]. apply Z.ltb_ge, Z.leb_le in E. destruct k; try reflexivity; exact E.
Qed.
Lemma cast_good : forall c v, good v = true -> res_good (cast_to orc c v) = true.
Proof.
  intros c v G. destruct c; cbn [cast_to].
  - destruct (to_z orc v); reflexivity.
  - apply bind_any_good. intros z. apply sign_check_good.
  - apply bind_any_good. intros z. apply sign_check_good.
  - destruct (to_f orc v); reflexivity.
  - destruct v as [[k z|w b|w t| | | | |]|w l|[| | | |] [k z|w b|w t| | | | |]]; reflexivity.
  - destruct v as [[k z|w b|w t| | | | |]|w l|m p]; try reflexivity. exact G.
  - apply bind_any_good. intros z. destruct (nonneg_v v); [apply sign_check_good|reflexivity].
Qed.
Lemma cast_nat_nonneg : forall c v s, c = ToNat \/ c = ToBool -> cast_to orc c v = Ok (Sc s) -> nonneg_s s = true.
Proof.
  intros c v s [Hc|Hc] H; subst c; cbn in H; destruct (to_z orc v) as [z| |]; cbn in H; try discriminate;
    destruct (z <? 0) eqn:E; inversion H; subst; cbn; apply Z.leb_le; apply Z.ltb_ge in E; exact E.
Qed.
Lemma then_good : forall r c, res_good r = true -> res_good (then_ orc r c) = true.
Proof.
  intros r c G. apply bind_good; [exact G|]. intros v Gv.
  destruct (is_none v || is_notimpl v); [exact Gv|apply cast_good, Gv].
Qed.
Hint Resolve bind_good int_method_good float_method_good str_method_good list_method_good cast_good then_good : good.

Section Fx.
Variable fx : fixes.

Definition impl_good (impl : pycls -> dunder -> option (val -> val -> res val)) : Prop :=
  forall ow d f s x, impl ow d = Some f -> good s = true -> good x = true -> res_good (f s x) = true.

Lemma impl1_good : impl_good (impl1 orc fx).
Proof.
  intros ow d f s x Hi Gs Gx.
  destruct ow; try discriminate Hi; destruct d as [o|o]; destruct o; try discriminate Hi;
    inversion Hi; subst f; auto with good.
  apply bind_any_good. auto with good.
Qed.

Lemma call_good : forall impl c d x y, impl_good impl -> good x = true -> good y = true ->
  res_good (call impl c d x y) = true.
Proof.
  intros impl c d x y HI Gx Gy. unfold call. destruct (find_owner impl c d); [|reflexivity].
  destruct (impl p d) eqn:Ei; [|reflexivity]. exact (HI _ _ _ _ _ Ei Gx Gy).
Qed.
Lemma ask_good : forall r k, res_good r = true -> res_good k = true ->
  res_good (bind r (fun v => if negb (is_notimpl v) then Ok v else k)) = true.
Proof. intros r k Gr Gk. apply bind_good; [exact Gr|]. intros v Gv. destruct (negb (is_notimpl v)); assumption. Qed.
Lemma dispatch_good : forall impl cls_of o a b, impl_good impl ->
  good a = true -> good b = true -> res_good (dispatch impl cls_of o a b) = true.
Proof.
  intros impl cls_of o a b HI Ga Gb. unfold dispatch.
  assert (Hfb : res_good match o with
                         | Eq => Ok (pbool (is_none a && is_none b))
                         | Ne => Ok (pbool (negb (is_none a && is_none b)))
                         | _ => Raise TypeError end = true) by (destruct o; reflexivity).
  pose proof (fun c d => call_good impl c d a b HI Ga Gb) as Lab.
  pose proof (fun c d => call_good impl c d b a HI Gb Ga) as Lba.
  destruct (proper_subclass _ _ && _).
  - apply ask_good; [apply Lba|]. apply ask_good; [apply Lab|exact Hfb].
  - apply ask_good; [apply Lab|]. destruct (negb (is_cmp o) && _); [exact Hfb|]. apply ask_good; [apply Lba|exact Hfb].
Qed.
Lemma bin1_good : forall o a b, good a = true -> good b = true -> res_good (bin1 orc fx o a b) = true.
Proof.
  intros o a b Ga Gb. unfold bin1. destruct (has_complex a || has_complex b); [reflexivity|].
  apply dispatch_good; [apply impl1_good|exact Ga|exact Gb].
Qed.

Hypothesis Hfx : fx_natmut_incdec fx = true.

(* [payload] and [mut_other] are the same function; [payload (VM m p)] is [Sc p] *)
Lemma payload_good : forall v, good v = true -> good (payload v) = true.
Proof. intros [s|w l|[| | | |] p] G; cbn in *; auto; apply andb_true_iff in G; tauto. Qed.
Lemma vm_good : forall k s, good_s s = true -> (k = MNat \/ k = MBool -> nonneg_s s = true) -> good (VM k s) = true.
Proof. intros k s G N. destruct k; cbn; rewrite ?G, ?N; auto. Qed.
Lemma vm_nonneg : forall k p, good (VM k p) = true -> k = MNat \/ k = MBool -> nonneg_s p = true.
Proof. intros k p G [->| ->]; cbn in G; apply andb_true_iff in G; tauto. Qed.
Lemma scalar_of_inv : forall v s, scalar_of v = Ok s -> v = Sc s.
Proof. intros [s0|w l|m p] s H; inversion H; reflexivity. Qed.
Lemma wrap_good : forall k v, good v = true -> (k = MNat \/ k = MBool -> nonneg_v v = true) ->
  res_good (bind (scalar_of v) (fun s => Ok (VM k s))) = true.
Proof. intros k [s|w l|m p] G N; try reflexivity. apply vm_good; assumption. Qed.
Lemma mk_mut_good : forall m v, good v = true -> (m = MBool -> nonneg_v v = true) -> res_good (mk_mut orc fx m v) = true.
Proof.
  intros m v G N. destruct m; cbn [mk_mut].
  - apply bind_any_good. intros z. rewrite Hfx. destruct (nonneg_v v) eqn:Nv; [|rewrite orb_true_r; reflexivity].
    destruct (_ || _); [reflexivity|]. apply wrap_good; auto.
  - apply bind_good; [apply cast_good, G|]. intros u Gu. apply wrap_good; [exact Gu|]. intros [|]; discriminate.
  - apply wrap_good; [exact G|]. intros _. auto.
  - apply bind_good; [apply cast_good, G|]. intros u Gu. apply wrap_good; [exact Gu|]. intros [|]; discriminate.
  - apply wrap_good; [exact G|]. intros [|]; discriminate.
Qed.

Lemma mut_arith_good : forall m o s x, m <> MBool -> good s = true -> good x = true ->
  res_good (mut_arith orc fx m o s x) = true.
Proof.
  intros m o s x Hm Gs Gx. apply bind_good; [apply bin1_good; apply payload_good; assumption|].
  intros u Gu. apply mk_mut_good; [exact Gu|]. intros ->. congruence.
Qed.
Lemma impl2_good : impl_good (impl2 orc fx).
Proof.
  intros ow d f s x Hi Gs Gx. pose proof (payload_good _ Gs) as Ps. pose proof (payload_good _ Gx) as Px.
  destruct ow; try discriminate Hi; try exact (impl1_good _ _ _ _ _ Hi Gs Gx);
    destruct d as [o|o]; destruct o; try discriminate Hi; inversion Hi; subst f.
  all: first [ apply bin1_good; assumption | apply mut_arith_good; [discriminate|assumption..]
             | apply bind_good; [apply bin1_good; assumption|]; intros u Gu; apply cast_good, Gu ].
Qed.
Lemma binop_good : forall o a b, good a = true -> good b = true -> res_good (binop orc fx o a b) = true.
Proof.
  intros o a b Ga Gb. unfold binop. destruct (_ || _); [reflexivity|].
  apply dispatch_good; [apply impl2_good|exact Ga|exact Gb].
Qed.

Lemma un1_good : forall o a, good a = true -> res_good (un1 orc o a) = true.
Proof.
  intros o a G. destruct a as [[k z|w b|w t| | | | |]|w l|m p]; try reflexivity.
  - destruct o, k; try reflexivity; exact G.
  - destruct o; [|destruct w; reflexivity|];
      (apply bind_good; [apply of_ores_good|]; intros u Gu; destruct w; [apply cast_good, Gu|exact Gu]).
Qed.
Lemma unop_good : forall o a, good a = true -> res_good (unop orc fx o a) = true.
Proof.
  intros o a G. destruct a as [s|w l|m p]; try (apply un1_good, G).
  pose proof (payload_good _ G) as Gp.
  destruct m, o; try reflexivity; try exact G;
    (apply bind_good; [apply un1_good, Gp|]; intros u Gu; apply mk_mut_good; [exact Gu|discriminate]).
Qed.

Lemma fold_bin_good : forall o l start, forallb good_s l = true -> good start = true ->
  res_good (fold_bin orc fx o l start) = true.
Proof.
  intros o l start Gl Gs. unfold fold_bin. change (res_good (Ok start) = true) in Gs. revert Gl Gs.
  generalize (Ok start). induction l as [|e l IH]; intros acc Gl Ga; [exact Ga|]. cbn in Gl. apply andb_true_iff in Gl.
  apply IH; [tauto|]. apply bind_good; [exact Ga|]. intros a G. apply bin1_good; tauto.
Qed.

(* case analysis on whatever the function under the predicate inspects next *)
Ltac cases :=
  repeat match goal with |- _ (match ?t with _ => _ end) = true => destruct t eqn:? end.

Hint Resolve bin1_good binop_good : good.
Lemma smeth_good : forall m s args, good (Sc s) = true -> forallb good args = true ->
  res_good (smeth orc fx m s args) = true.
Proof.
  intros m s args Gs Ga. unfold smeth. cases; try reflexivity; auto with good.
  (* saturating_sub, twice; invert *)
  1-2: cbn in Ga; rewrite andb_true_r in Ga; apply bind_good; auto with good; intros c _;
       apply bind_any_good; intros [|]; auto with good.
  cbn. destruct (z =? 0); reflexivity.
Qed.

Definition res_good2 (r : res (val * val)) : bool := match r with Ok (v, w) => good v && good w | _ => true end.
Lemma res_good2_ok : forall r v w, res_good2 r = true -> r = Ok (v, w) -> good v = true /\ good w = true.
Proof. intros r v w G ->. apply andb_true_iff, G. Qed.
Lemma bind_good2 : forall (r : res val) f,
  res_good r = true -> (forall v, good v = true -> res_good2 (f v) = true) -> res_good2 (bind r f) = true.
Proof. intros [v| |] f G H; try reflexivity. apply H, G. Qed.
Lemma pure_good : forall r recv, res_good r = true -> good recv = true ->
  res_good2 (bind r (fun v => Ok (v, recv))) = true.
Proof. intros r recv Gr G. apply bind_good2; [exact Gr|]. intros v Gv. cbn. rewrite Gv. exact G. Qed.

(* Mut receivers: the stored value is replaced through a checking constructor *)
Lemma set_good2 : forall k c v, good v = true -> (k = MNat \/ k = MBool -> c = ToNat \/ c = ToBool) ->
  res_good2 (bind (cast_to orc c v) (fun r => bind (scalar_of r) (fun s => Ok (vnone, VM k s)))) = true.
Proof.
  intros k c v G Hk. destruct (cast_to orc c v) as [[s|w l|m p]| |] eqn:Ec; try reflexivity.
  apply vm_good; [exact (res_good_ok _ _ (cast_good c v G) Ec)|]. intros K. exact (cast_nat_nonneg c v s (Hk K) Ec).
Qed.
Lemma set_good : forall k c v r recv', good v = true ->
  (k = MNat \/ k = MBool -> c = ToNat \/ c = ToBool) ->
  bind (cast_to orc c v) (fun r => bind (scalar_of r) (fun s => Ok (vnone, VM k s))) = Ok (r, recv') ->
  good r = true /\ good recv' = true.
Proof. intros k c v r recv' G Hk. exact (res_good2_ok _ r recv' (set_good2 k c v G Hk)). Qed.

Lemma nth_z_good : forall (l : list sval) i e, forallb good_s l = true -> nth_z l i = Some e -> good_s e = true.
Proof. intros l i e G H. exact (proj1 (forallb_forall _ _) G e (nth_error_In _ _ H)). Qed.
Lemma forallb_skipn : forall (f : sval -> bool) n l, forallb f l = true -> forallb f (skipn n l) = true.
Proof. induction n; intros [|x l] G; cbn in *; auto. apply andb_true_iff in G. apply IHn; tauto. Qed.
Lemma forallb_rev : forall (f : sval -> bool) l, forallb f l = true -> forallb f (rev l) = true.
Proof. intros f l. apply forallb_incl. intros x. apply in_rev. Qed.

Lemma good_hd : forall v l, forallb good (v :: l) = true -> good v = true.
Proof. intros v l H. apply andb_true_iff in H. apply H. Qed.
Lemma method_good : forall m recv args, good recv = true -> forallb good args = true ->
  res_good2 (method orc fx m recv args) = true.
Proof.
  intros m recv args G Ga. unfold method. rewrite ?Hfx. destruct recv as [s|w l|k p].
  - cases; try reflexivity; apply pure_good; auto using smeth_good;
      (apply mk_mut_good; [exact G | intros E; first [discriminate E | exact G]]).
  - cbn [good] in G. cases; try reflexivity; try (apply pure_good; [|exact G]); cbn [res_good res_good2 good];
      auto using forallb_skipn, forallb_rev, fold_bin_good; try (eapply nth_z_good; [exact G|eassumption]).
    (* push, as repaired and as found *)
    all: cbn in Ga; rewrite andb_true_r in Ga; rewrite forallb_app, G; cbn; rewrite Ga; reflexivity.
  - pose proof (payload_good _ G) as Gp. cbn [payload] in Gp.
    cases; try reflexivity.
    (* results that leave the receiver as it is *)
    all: try (apply pure_good; [|exact G]; first [apply smeth_good; [exact Gp|auto] | exact G | idtac]).
    (* mutate and copy build a Mut object from what is already the value of one *)
    all: try (apply mk_mut_good; [exact Gp|]; intros E;
              first [discriminate E | exact Gp | exact (vm_nonneg _ _ G (or_intror E))]).
    (* update stores through the checking constructor; inc and dec compute a value first *)
    all: try (apply set_good2; [exact (good_hd _ _ Ga) | intros [E|E]; first [discriminate E | auto]]).
    all: try (apply bind_good2;
              [first [apply binop_good; [exact Gp|exact (good_hd _ _ Ga)] | apply bin1_good; [exact Gp|reflexivity]]|];
              intros u Gu; apply set_good2; [exact Gu | intros [E|E]; first [discriminate E | auto]]).
    (* Bool!.invert *)
    destruct p as [[| | | |] z|w b|w t| | | | |]; try reflexivity. cbn. destruct (z =? 0); reflexivity.
Qed.
End Fx.
End Good.

Lemma getv_good : forall st i, forallb good st = true -> good (getv st i) = true.
Proof.
  intros st i G. unfold getv. destruct (nth_in_or_default i st vnone) as [H| ->]; [|reflexivity].
  exact (proj1 (forallb_forall _ _) G _ H).
Qed.
Lemma setv_good : forall st i v, forallb good st = true -> good v = true -> forallb good (setv st i v) = true.
Proof.
  induction st as [|x st IH]; intros [|i] v G Gv; cbn in *; auto; apply andb_true_iff in G.
  - rewrite Gv. tauto.
  - destruct G as [-> G]. cbn. apply IH; assumption.
Qed.
Lemma map_getv_good : forall st js, forallb good st = true -> forallb good (map (getv st) js) = true.
Proof. intros st js G. induction js; cbn; auto. rewrite getv_good, IHjs; auto. Qed.
Lemma forallb_snoc : forall st (v : val), forallb good st = true -> good v = true -> forallb good (st ++ [v]) = true.
Proof. intros. rewrite forallb_app. cbn. rewrite H, H0. reflexivity. Qed.
Lemma append_res_good : forall st r, forallb good st = true -> res_good r = true ->
  forallb good (match r with Ok v => st ++ [v] | _ => st end) = true.
Proof. intros st [v| |] G R; try exact G. apply forallb_snoc; assumption. Qed.

Lemma exec_good : forall orc fx st c, fx_natmut_incdec fx = true ->
  forallb good st = true -> forallb good (exec orc fx st c) = true.
Proof.
  intros orc fx st c Hfx G. pose proof (fun i => getv_good st i G) as Gv.
  destruct c as [o i j|o i|m i js|c i]; cbn [exec].
  - apply append_res_good; [exact G|]. apply binop_good; auto.
  - apply append_res_good; [exact G|]. apply unop_good; auto.
  - pose proof (method_good orc fx Hfx m _ _ (Gv i) (map_getv_good st js G)) as R.
    destruct (method orc fx m (getv st i) (map (getv st) js)) as [[r recv']| |]; auto.
    apply andb_true_iff in R. apply forallb_snoc; [apply setv_good|]; tauto.
  - apply append_res_good; [exact G|]. apply cast_good; auto.
Qed.
Lemma run_cmds_good : forall orc fx cs st, fx_natmut_incdec fx = true ->
  forallb good st = true -> forallb good (run_cmds orc fx st cs) = true.
Proof.
  intros orc fx cs. unfold run_cmds. induction cs as [|c cs IH]; intros st Hfx G; cbn; auto.
  apply IH; auto. apply exec_good; auto.
Qed.
