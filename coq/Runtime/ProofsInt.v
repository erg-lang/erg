(** C26 — operators on operands of the integer classes Nat Int Bool int bool.  The method that Python's protocol asks
    first always answers on such operands, which turns the dispatch into a table ([ispec_of]) over the two classes and
    the operator, with operands and oracle symbolic; the value and class theorems are read off it.  The end of the
    file is not about integer operands: [immutable_receiver_l] (any receiver of [method]) and the oracles [orc0],
    [orc_w] that the witnesses of Props_C26.v run on. *)
From Coq Require Import ZArith List Bool Lia.
From ErgV Require Import Common.Lists Runtime.Model Runtime.Spec Runtime.Proofs.
Import ListNotations.
Open Scope Z_scope.

Inductive ispec := SPlain | SInt | SNatOrInt.
(* which method body answers  a op b  for int-like a, b: the inherited built-in (plain result), Int's wrapper, Nat's wrapper *)
Definition ispec_of (ka kb : ik) (o : bop) : ispec :=
  match ka, o with
  | (KNat | KBool), (Add | Mul) => SNatOrInt
  | (KNat | KBool | KInt), (Sub | FloorDiv | Pow) => SInt
  | KInt, (Add | Mul) => SInt
  | Kint, Pow => match kb with KNat | KInt | KBool => SInt | _ => SPlain end    (* Int.__rpow__, subclass first *)
  | _, _ => SPlain
  end.
Definition apply_spec (orc : Z -> oarg -> oarg -> ores) (s : ispec) (r : res val) : res val :=
  match s with
  | SPlain => r
  | SInt => then_ orc r ToInt
  | SNatOrInt => then_ orc (then_ orc r ToInt) ToNatOrInt
  end.

(* the method Python's protocol asks first: the reflected one of the right operand when its class is a proper subclass
   that overrides it.  When it does not return NotImplemented, its answer is the result. *)
Definition first_call (impl : pycls -> dunder -> option (val -> val -> res val)) (cls_of : val -> pycls) o a b :=
  let ca := cls_of a in let cb := cls_of b in
  let rd := if is_cmp o then DL (swap_cmp o) else DR o in
  if proper_subclass cb ca &&
     (if is_cmp o then true else negb (owner_eqb (find_owner impl cb rd) (find_owner impl ca rd)))
  then call impl cb rd b a else call impl ca (DL o) a b.
Definition answered (r : res val) : Prop := forall v, r = Ok v -> is_notimpl v = false.

Lemma bind_answered : forall r k, answered r -> bind r (fun v => if negb (is_notimpl v) then Ok v else k v) = r.
Proof. intros [v| |] k A; try reflexivity. cbn. rewrite (A v eq_refl). reflexivity. Qed.
Lemma dispatch_answered : forall impl cls_of o a b,
  answered (first_call impl cls_of o a b) -> dispatch impl cls_of o a b = first_call impl cls_of o a b.
Proof.
  intros impl cls_of o a b. unfold dispatch, first_call.
  match goal with |- context[if ?c then _ else _] => destruct c end; intros A; apply (bind_answered _ _ A).
Qed.

Ltac zfacts := rewrite ?Z.eqb_eq, ?Z.eqb_neq, ?Z.ltb_lt, ?Z.ltb_ge, ?Z.leb_le, ?Z.leb_gt in *.

(* the float oracle answers a true division of ints with a float or an exception (never an int/bool) *)
Definition orc_sane (orc : Z -> oarg -> oarg -> ores) : Prop :=
  forall x y, match orc 3 (OInt x) (OInt y) with RF _ | RExc _ | RMiss => True | _ => False end.

(* what the declaration table may say about  a op b  for integer classes: comparisons are Bool (2), / is Float (5), the
   rest Int (1), or Nat (0) for ** and, on Nat-like operands (Nat or Bool), for every operator but - *)
Definition nat_closed (oc : Z) (na nb : bool) : bool := negb (oc =? 1) && ((oc =? 6) || (na && nb)).
Definition int_decl_ok (oc : Z) (na nb : bool) (d : Z) : bool :=
  if 7 <=? oc then d =? 2 else if oc =? 3 then d =? 5 else (d =? 1) || ((d =? 0) && nat_closed oc na nb).
Definition int_row_ok (e : Z * Z * Z * Z) : bool :=
  let '(oc, ca, cb, d) := e in
  let int_tag c := (0 <=? c) && (c <=? 2) in
  let nat_tag c := (c =? 0) || (c =? 2) in
  negb (int_tag ca && int_tag cb) || int_decl_ok oc (nat_tag ca) (nat_tag cb) d.
Lemma sig_int_rows : forallb int_row_ok Sigs.sig_binop = true.
Proof. vm_compute. reflexivity. Qed.

Lemma declared_binop_in : forall o a b d,
  declared_binop o a b = Some d -> In (opc o, erg_cls a, erg_cls b, d) Sigs.sig_binop.
Proof.
  intros o a b d H. unfold declared_binop in H.
  destruct (find _ Sigs.sig_binop) as [[[[o' ca] cb] r]|] eqn:F; inversion H; subst r.
  apply find_some in F. destruct F as [Hin F].
  apply andb_true_iff in F. destruct F as [F Hb]. apply andb_true_iff in F. destruct F as [Ho Ha].
  apply Z.eqb_eq in Ho, Ha, Hb. subst. exact Hin.
Qed.
Definition natlike (k : ik) : bool := match k with KNat | KBool | Kbool => true | _ => false end.
Lemma decl_int_table : forall o ka kb za zb d,
  declared_binop o (Sc (SI ka za)) (Sc (SI kb zb)) = Some d -> int_decl_ok (opc o) (natlike ka) (natlike kb) d = true.
Proof.
  intros o ka kb za zb d H. apply declared_binop_in in H.
  apply (proj1 (forallb_forall _ _) sig_int_rows) in H. destruct ka, kb; exact H.
Qed.
Lemma natlike_nonneg : forall k z, natlike k = true -> wf_s (SI k z) = true -> 0 <= z.
Proof.
  intros k z H W. destruct k; try discriminate; cbn in W; rewrite ?orb_true_iff in W; zfacts; lia.
Qed.
Lemma nat_closed_nonneg : forall o ka kb za zb, wf_s (SI ka za) = true -> wf_s (SI kb zb) = true -> o <> Pow ->
  nat_closed (opc o) (natlike ka) (natlike kb) = true -> 0 <= za /\ 0 <= zb.
Proof.
  intros o ka kb za zb Ha Hb Hp N. apply andb_true_iff in N. destruct N as [_ N].
  apply orb_true_iff in N. destruct N as [N|N].
  - destruct o; try discriminate N. congruence.
  - apply andb_true_iff in N. split; [apply (natlike_nonneg ka)|apply (natlike_nonneg kb)]; tauto.
Qed.

Lemma inst_float_5 : forall orc b, inst_after_rewrap orc 5 (Sc (SF false b)) = true.
Proof. intros orc b. cbn. rewrite Z.eqb_refl. reflexivity. Qed.

Section Oracle.
Variable orc : Z -> oarg -> oarg -> ores.

Lemma of_ores_answered : forall r, answered (of_ores r).
Proof. intros [b|z|b|e| |] v H; inversion H; reflexivity. Qed.
Lemma int_arith_answered : forall o x y, answered (int_arith orc o x y).
Proof. apply (int_arith_ind orc answered); try apply of_ores_answered; intros ? v H; inversion H; reflexivity. Qed.
Lemma cast_int_answered : forall c v, c = ToInt \/ c = ToNatOrInt -> answered (cast_to orc c v).
Proof.
  intros c v [->| ->] u H; cbn in H; destruct (to_z orc v) as [z| |]; try discriminate; cbn in H.
  - inversion H; reflexivity.
  - destruct (nonneg_v v), (z <? 0); inversion H; reflexivity.
Qed.
Lemma then_answered : forall r c, c = ToInt \/ c = ToNatOrInt -> answered r -> answered (then_ orc r c).
Proof.
  intros [u| |] c Hc A v H; try discriminate. cbn in H. destruct (is_none u || is_notimpl u).
  - inversion H; subst. apply (A v eq_refl).
  - exact (cast_int_answered c u Hc v H).
Qed.
Lemma apply_spec_answered : forall s r, answered r -> answered (apply_spec orc s r).
Proof. intros [| |] r A; cbn; auto using then_answered. Qed.

(* of the code variant the table needs the repaired Nat arithmetic only ([nat_cast]).  A reflected == or != compares
   the operands in the other order *)
Lemma first_call_int : forall fx, fx_nat_arith fx = true -> forall ka kb o za zb,
  first_call (impl2 orc fx) cls2 o (Sc (SI ka za)) (Sc (SI kb zb))
  = apply_spec orc (ispec_of ka kb o) (int_arith orc o za zb).
Proof.
  intros [f1 f2 f3] H ka kb o za zb. cbn in H. subst f1.
  destruct o, ka, kb; first [reflexivity | cbn; rewrite Z.eqb_sym; reflexivity].
Qed.
Lemma binop_int_closed : forall fx, fx_nat_arith fx = true -> forall ka kb o za zb,
  binop orc fx o (Sc (SI ka za)) (Sc (SI kb zb)) = apply_spec orc (ispec_of ka kb o) (int_arith orc o za zb).
Proof.
  intros fx H ka kb o za zb. unfold binop. replace (seq_vs_mut o _ _) with false by (destruct o; reflexivity).
  cbn [has_complex orb]. rewrite dispatch_answered; rewrite (first_call_int fx H); [reflexivity|].
  apply apply_spec_answered, int_arith_answered.
Qed.

Lemma bool_norm : forall z, (z =? 0) || (z =? 1) = true -> (if z =? 0 then 0 else 1) = z.
Proof. intros z H. apply orb_true_iff in H. destruct H as [H|H]; apply Z.eqb_eq in H; subst; reflexivity. Qed.
Lemma unwrap_int : forall k z, wf_s (SI k z) = true -> exists k', unwrap (Sc (SI k z)) = Sc (SI k' z).
Proof.
  intros k z W. destruct k; cbn [unwrap unwrap_s wf_s] in *; rewrite ?bool_norm by assumption; eexists; reflexivity.
Qed.
Lemma py_binop_int : forall o ka kb za zb, wf_s (SI ka za) = true -> wf_s (SI kb zb) = true ->
  py_binop orc o (unwrap (Sc (SI ka za))) (unwrap (Sc (SI kb zb))) = int_arith orc o za zb.
Proof.
  intros o ka kb za zb Ha Hb. destruct (unwrap_int _ _ Ha) as [ka' ->], (unwrap_int _ _ Hb) as [kb' ->]. reflexivity.
Qed.
Lemma known_pow_int : forall ka kb za zb, wf_s (SI ka za) = true -> wf_s (SI kb zb) = true ->
  known_binop orc Pow (Sc (SI ka za)) (Sc (SI kb zb)) = 0 -> (zb <? 0) || ((za <? 0) && Z.odd zb) = false.
Proof.
  intros ka kb za zb Ha Hb Hk. unfold known_binop in Hk. cbn [is_mut orb] in Hk.
  destruct (unwrap_int _ _ Ha) as [ka' Ea], (unwrap_int _ _ Hb) as [kb' Eb]. rewrite Ea, Eb in Hk.
  destruct ((zb <? 0) || ((za <? 0) && Z.odd zb)); [discriminate|reflexivity].
Qed.

Lemma list_eqb_refl : forall l, list_eqb l l = true.
Proof. exact Common.Lists.zs_eqb_refl. Qed.
Lemma sval_eqb_refl : forall s, sval_eqb s s = true.
Proof.
  destruct s as [k z|w b|w t| | | | |]; cbn; rewrite ?Z.eqb_refl, ?eqb_reflx, ?list_eqb_refl; try reflexivity.
  destruct k; reflexivity.
Qed.
Lemma sval_eqv_refl : forall s, sval_eqv s s = true.
Proof. destruct s; first [apply Z.eqb_refl | apply sval_eqb_refl]. Qed.
Lemma svals_eqv_refl : forall l, svals_eqv l l = true.
Proof. induction l; cbn; auto. rewrite sval_eqv_refl; auto. Qed.
Lemma val_eqv_refl : forall v, val_eqv v v = true.
Proof.
  destruct v as [s|w l|m p]; cbn.
  - apply sval_eqv_refl.
  - rewrite eqb_reflx. apply svals_eqv_refl.
  - rewrite sval_eqb_refl. destruct m; reflexivity.
Qed.
Lemma agree_intro : forall x r, unwrap_res x = r -> agree x r = true.
Proof.
  intros x r H. unfold agree. destruct r as [v|e|]; auto; destruct x as [u|e'|]; cbn in *; auto; inversion H; subst.
  - apply val_eqv_refl.
  - destruct e; reflexivity.
Qed.

Lemma of_ores_plain : forall r, unwrap_res (of_ores r) = of_ores r.
Proof. intros [b|z|[|]|e| |]; reflexivity. Qed.
Lemma int_arith_plain : forall o x y, unwrap_res (int_arith orc o x y) = int_arith orc o x y.
Proof.
  apply (int_arith_ind orc (fun r => unwrap_res r = r)); try apply of_ores_plain; try reflexivity.
  intros [|]; reflexivity.
Qed.

Definition spec_cls (s : ispec) (z : Z) : ik :=
  match s with SPlain => Kint | SInt => KInt | SNatOrInt => if 0 <=? z then KNat else KInt end.
Lemma apply_spec_pint : forall s z, apply_spec orc s (Ok (pint z)) = Ok (Sc (SI (spec_cls s z) z)).
Proof.
  intros s z. destruct s; cbn; try reflexivity.
  destruct (0 <=? z) eqn:E; [|reflexivity]. destruct (z <? 0) eqn:E2; [|reflexivity]. exfalso; zfacts; lia.
Qed.
Lemma apply_spec_raise : forall s e, apply_spec orc s (Raise e) = Raise e.
Proof. intros s e. destruct s; reflexivity. Qed.
Lemma unwrap_spec_pint : forall s z, unwrap_res (apply_spec orc s (Ok (pint z))) = Ok (pint z).
Proof. intros s z. rewrite apply_spec_pint. destruct s; try reflexivity. cbn. destruct (0 <=? z); reflexivity. Qed.

Lemma ispec_plain : forall ka kb o, (is_cmp o = true \/ o = TrueDiv \/ o = Mod) -> ispec_of ka kb o = SPlain.
Proof. intros ka kb o [H|[H|H]]; destruct o; try discriminate; destruct ka, kb; reflexivity. Qed.

Lemma spec_unwrap : forall ka kb o za zb, (o = Pow -> 0 <= zb) ->
  unwrap_res (apply_spec orc (ispec_of ka kb o) (int_arith orc o za zb)) = int_arith orc o za zb.
Proof.
  intros ka kb o za zb Hp.
  destruct o; try (rewrite ispec_plain by auto; apply int_arith_plain); cbn [int_arith].
  (* + - * // **: an int or an exception, and every wrapper keeps both *)
  - apply unwrap_spec_pint.
  - apply unwrap_spec_pint.
  - apply unwrap_spec_pint.
  - destruct (zb =? 0); [rewrite apply_spec_raise; reflexivity | apply unwrap_spec_pint].
  - rewrite (proj2 (Z.leb_le 0 zb) (Hp eq_refl)). apply unwrap_spec_pint.
Qed.

Lemma pow_nonneg_known : forall x y, (y <? 0) || ((x <? 0) && Z.odd y) = false -> 0 <= x ^ y.
Proof.
  intros x y H. apply orb_false_iff in H. destruct H as [Hy H]. apply Z.ltb_ge in Hy.
  apply andb_false_iff in H. destruct H as [H|H].
  - apply Z.ltb_ge in H. apply Z.pow_nonneg; exact H.
  - apply Z.pow_even_nonneg. apply Z.even_spec. rewrite <- Z.negb_odd, H. reflexivity.
Qed.

(* the classes whose integer [unwrap] keeps (a Bool's becomes 0 or 1): for them the re-wrap is seen to keep the value *)
Definition int_cls_ok (k : ik) : bool := match k with KNat | KInt | Kint => true | _ => false end.
Lemma spec_cls_ok : forall s z, int_cls_ok (spec_cls s z) = true.
Proof. intros [| |] z; try reflexivity. cbn. destruct (0 <=? z); reflexivity. Qed.
Lemma inst_int_1 : forall k z, int_cls_ok k = true -> inst_after_rewrap orc 1 (Sc (SI k z)) = true.
Proof. intros k z H. destruct k; try discriminate; cbn; rewrite Z.eqb_refl; reflexivity. Qed.
Lemma inst_int_0 : forall k z, int_cls_ok k = true -> 0 <= z -> inst_after_rewrap orc 0 (Sc (SI k z)) = true.
Proof.
  intros k z H Hz. destruct k; try discriminate; cbn; (destruct (z <? 0) eqn:E; [exfalso; zfacts; lia|]);
    cbn; rewrite Z.eqb_refl; reflexivity.
Qed.
Lemma inst_bool_2 : forall c, inst_after_rewrap orc 2 (pbool c) = true.
Proof. intros c. destruct c; reflexivity. Qed.
Lemma class_ok_arith : forall s z d c, (d =? 1) || ((d =? 0) && c) = true -> (c = true -> 0 <= z) ->
  class_ok orc (Some d) (apply_spec orc s (Ok (pint z))) = true.
Proof.
  intros s z d c D Hz. rewrite apply_spec_pint. apply orb_true_iff in D. destruct D as [D|D].
  - apply Z.eqb_eq in D. subst d. apply inst_int_1, spec_cls_ok.
  - apply andb_true_iff in D. destruct D as [D Hc]. apply Z.eqb_eq in D. subst d.
    apply inst_int_0; [apply spec_cls_ok | exact (Hz Hc)].
Qed.

(* Nat is closed under an operator other than ** only on non-negative operands, and under ** off K_pow *)
Lemma spec_class_ok : forall o ka kb za zb d, orc_sane orc ->
  wf_s (SI ka za) = true -> wf_s (SI kb zb) = true ->
  (o = Pow -> (zb <? 0) || ((za <? 0) && Z.odd zb) = false) ->
  int_decl_ok (opc o) (natlike ka) (natlike kb) d = true ->
  class_ok orc (Some d) (apply_spec orc (ispec_of ka kb o) (int_arith orc o za zb)) = true.
Proof.
  intros o ka kb za zb d Hs Ha Hb Hp Hd.
  pose proof (nat_closed_nonneg o ka kb za zb Ha Hb) as Hnn.
  destruct o; cbn [int_arith].
  8-13: rewrite ispec_plain by auto; apply Z.eqb_eq in Hd; subst d; apply inst_bool_2.
  - apply class_ok_arith with (1 := Hd). intros N. destruct (Hnn ltac:(discriminate) N). lia.
  - apply class_ok_arith with (1 := Hd). intros N. discriminate N.
  - apply class_ok_arith with (1 := Hd). intros N. destruct (Hnn ltac:(discriminate) N).
    apply Z.mul_nonneg_nonneg; assumption.
  - rewrite ispec_plain by auto. apply Z.eqb_eq in Hd. subst d.
    specialize (Hs za zb). change (opc TrueDiv) with 3.
    destruct (orc 3 (OInt za) (OInt zb)); try contradiction; first [reflexivity | apply inst_float_5].
  - destruct (zb =? 0) eqn:E; [rewrite apply_spec_raise; reflexivity|].
    apply class_ok_arith with (1 := Hd). intros N. destruct (Hnn ltac:(discriminate) N). apply Z.div_pos; zfacts; lia.
  - destruct (zb =? 0) eqn:E; [rewrite apply_spec_raise; reflexivity|].
    apply class_ok_arith with (1 := Hd). intros N. destruct (Hnn ltac:(discriminate) N).
    apply Z.mod_pos_bound; zfacts; lia.
  - specialize (Hp eq_refl).
    pose proof Hp as Hy. apply orb_false_iff in Hy. destruct Hy as [Hy _]. apply Z.ltb_ge, Z.leb_le in Hy. rewrite Hy.
    apply class_ok_arith with (1 := Hd). intros _. apply pow_nonneg_known; exact Hp.
Qed.
End Oracle.

(* case analysis on whatever the function in [H : _ = Ok _] inspects next; the cases that raise go *)
Ltac crushm H :=
  repeat (match type of H with
          | bind ?m _ = _ => let E := fresh "E" in destruct m eqn:E; cbn [bind] in H
          | (if ?c then _ else _) = _ => let E := fresh "C" in destruct c eqn:E
          | match ?t with _ => _ end = _ => let E := fresh "M" in destruct t eqn:E
          end; try discriminate).
Lemma immutable_receiver_l : forall orc fx m recv args r recv', fx_list_push fx = true ->
  is_mut recv = false -> method orc fx m recv args = Ok (r, recv') -> recv' = recv.
Proof.
  intros orc fx m recv args r recv' Hfx Hi H. unfold method in H. rewrite ?Hfx in H.
  (* every arm that answers pairs its result with [recv] itself *)
  destruct recv as [s|w l|k p]; [| |discriminate]; crushm H; inversion H; reflexivity.
Qed.

Definition orc0 : Z -> oarg -> oarg -> ores := fun _ _ _ => RMiss.
(* CPython's answers to the float questions the witnesses of Props_C26.v ask: 2 ** -1 = 0.5, int(0.5) = 0,
   1 / -2 = -0.5, int(-0.5) = 0 *)
Definition orc_w (c : Z) (x y : oarg) : ores :=
  match x, y with
  | OInt a, OInt b => if (c =? 6) && (a =? 2) && (b =? -1) then RF 4602678819172646912
                      else if (c =? 3) && (a =? 1) && (b =? -2) then RF 13826050856027422720 else RMiss
  | OFlt f, ONo => if (c =? 21) && ((f =? 4602678819172646912) || (f =? 13826050856027422720)) then RI 0 else RMiss
  | _, _ => RMiss
  end.

