(** C28 — The language server's document copy matches the client's.

    "For any sequence of open and incremental change notifications that follows the LSP specification (UTF-16
    positions; a character offset past the end of a line means the end of that line), the language server's copy of
    each document equals the client's copy, and the server keeps running."

    Model.v is the server (pos_to_byte_index, String::replace_range, FileCache::update / incremental_update, VFS),
    Spec.v the client (UTF-16 documents, LSP 3.17 positions, [follows_lsp]).
    The [_nofix_refuted] theorems are about the code as it was before the repairs recorded in /verif/known/C28.json. *)
From Coq Require Import ZArith List Bool.
From ErgV Require Import TextSync.Model TextSync.Spec TextSync.Proofs.
Import ListNotations.
Open Scope Z_scope.

(** One content change: the server's text after the change is the client's text after the change. *)
Theorem apply_change_refines : forall (d : text) (c : change),
  Forall (fun cp => scalar cp = true) d ->
  valid_change (to_utf16 d) c = true ->
  exists d', apply_changes d [c] = Ok d' /\
             to_utf16 d' = client_change (to_utf16 d) c /\
             Forall (fun cp => scalar cp = true) d'.
Proof.
  intros d c Hd Hv. destruct (change_refines d _ c (conj Hd eq_refl) Hv) as (d' & E & Hd' & U).
  exists d'. auto.
Qed.

Example apply_change_refines_nonvacuous :
  Forall (fun cp => scalar cp = true) ex_doc /\ valid_change (to_utf16 ex_doc) ex_change = true /\
  apply_changes ex_doc [ex_change] = Ok [97; 128512; 120; 128512; 10].
Proof. split; [repeat constructor|]. split; vm_compute; reflexivity. Qed.

(** pos_to_byte_index itself: for a position the client may send, the index is a char boundary and the text
    before it has exactly the position's UTF-16 offset ([judge_pos] is what the check applies to the real function). *)
Theorem pos_to_byte_index_correct : forall (d : text) (l c : Z),
  Forall (fun cp => scalar cp = true) d ->
  valid_pos (to_utf16 d) l c = true ->
  judge_pos d l c (pos_to_byte_index d l c) = true.
Proof.
  intros d l c Hd Hv. unfold judge_pos.
  rewrite pos_to_byte_index_p2k, split_at_byte_firstn, (valid_pos_offset d l c Hd Hv). apply Nat.eqb_refl.
Qed.

Example pos_to_byte_index_correct_nonvacuous :
  valid_pos (to_utf16 ex_doc) 0 99 = true /\ pos_to_byte_index ex_doc 0 99 = 7 /\
  valid_pos (to_utf16 ex_doc) 1 3 = true /\ pos_to_byte_index ex_doc 1 3 = 14.
Proof. vm_compute. repeat split; reflexivity. Qed.

(** Any history that follows LSP, over any number of documents: the server does not panic and, for every URI,
    its file-cache text (in UTF-16) and version are the client's, and the VFS holds the same text. *)
Theorem history_refines : forall ns : list notif,
  follows_lsp [] ns = true ->
  exists st, run init ns = Ok st /\
    forall uri,
      option_map to_utf16 (server_text st uri) = client_text (client_run [] ns) uri /\
      server_version st uri = client_version (client_run [] ns) uri /\
      server_vfs st uri = server_text st uri.
Proof. exact Proofs.history_refines. Qed.

Example history_refines_nonvacuous :
  follows_lsp [] ex_history = true /\
  option_map (fun st => (server_text st 0, server_text st 1)) (match run init ex_history with Ok st => Some st | Panic => None end)
  = Some (Some [97; 128512; 120; 128512; 10; 13; 10; 119987], Some [97; 10; 98]).
Proof. split; vm_compute; reflexivity. Qed.

Theorem utf16_form_determines_text : forall a b : text,
  Forall (fun cp => scalar cp = true) a -> Forall (fun cp => scalar cp = true) b ->
  to_utf16 a = to_utf16 b -> a = b.
Proof. exact to_utf16_inj. Qed.

(** The server keeps running: no notification sequence at all (conforming or not, any positions, inverted
    ranges, unknown documents, stale versions, empty change lists) makes the modelled handlers panic. *)
Theorem no_panic : forall (st : state) (ns : list notif), run st ns <> Panic.
Proof. exact (fun st ns => run_no_panic ns st). Qed.

Example no_panic_nonvacuous :
  follows_lsp [] ex_malformed = false /\ exists st, run init ex_malformed = Ok st.
Proof. split; [vm_compute; reflexivity|]. vm_compute. eexists. reflexivity. Qed.

(** The executable judge used by the check accepts exactly this: on conforming histories it holds of the model. *)
Theorem judge_holds_on_conforming_histories : forall (ns : list notif) (uris : list Z),
  follows_lsp [] ns = true ->
  exists st, run init ns = Ok st /\
             judge (client_run [] ns) true false (map (fun uri => (uri, observe st uri)) uris) = true.
Proof.
  intros ns uris Hv. destruct (run_sim ns init [] sim_init Hv) as (st & E & S).
  exists st. split; [assumption|]. apply sim_judge; assumption.
Qed.

Theorem judge_doc_means_equal : forall cs uri t v w,
  judge_doc cs uri (Some (t, v, Some w)) = true ->
  client_text cs uri = Some (to_utf16 t) /\ client_version cs uri = Some v /\ to_utf16 w = to_utf16 t.
Proof.
  intros cs uri t v w H. unfold judge_doc, client_text, client_version in *.
  destruct (get uri cs) as [[u v0]|]; [|discriminate].
  apply andb_true_iff in H. destruct H as [H H3]. apply andb_true_iff in H. destruct H as [H1 H2].
  apply units_eqb_eq in H1. apply units_eqb_eq in H3. apply Z.eqb_eq in H2. subst. repeat split. assumption.
Qed.

(** * The same statements are false of the code before the repairs (model [_nofix]); each witness was replayed on
      the real server. *)

(** astral characters were counted as one unit: "a😀b", insert at UTF-16 offset 3 *)
Theorem astral_nofix_refuted :
  Forall (fun cp => scalar cp = true) w_astral_doc /\
  valid_change (to_utf16 w_astral_doc) w_astral_change = true /\
  ~ (exists d', apply_changes_nofix w_astral_doc [w_astral_change] = Ok d' /\
                to_utf16 d' = client_change (to_utf16 w_astral_doc) w_astral_change).
Proof. exact Proofs.astral_nofix_refuted. Qed.

(** an offset past the end of a line ran on to the end of the file: "ab\ncd", insert at (0, 5) *)
Theorem past_eol_nofix_refuted :
  Forall (fun cp => scalar cp = true) w_eol_doc /\
  valid_change (to_utf16 w_eol_doc) w_eol_change = true /\
  ~ (exists d', apply_changes_nofix w_eol_doc [w_eol_change] = Ok d' /\
                to_utf16 d' = client_change (to_utf16 w_eol_doc) w_eol_change).
Proof. exact Proofs.past_eol_nofix_refuted. Qed.

(** the end of a document ending in a multi-byte char was not a char boundary: "aé", insert at (0, 2) panics *)
Theorem trailing_multibyte_nofix_refuted :
  Forall (fun cp => scalar cp = true) w_eof_doc /\
  valid_change (to_utf16 w_eof_doc) w_eof_change = true /\
  apply_changes_nofix w_eof_doc [w_eof_change] = Panic.
Proof. exact Proofs.trailing_multibyte_nofix_refuted. Qed.

(** "\r" alone was not a line terminator: "a\rb", insert at (1, 0) *)
Theorem lone_cr_nofix_refuted :
  Forall (fun cp => scalar cp = true) w_cr_doc /\
  valid_change (to_utf16 w_cr_doc) w_cr_change = true /\
  ~ (exists d', apply_changes_nofix w_cr_doc [w_cr_change] = Ok d' /\
                to_utf16 d' = client_change (to_utf16 w_cr_doc) w_cr_change).
Proof. exact Proofs.lone_cr_nofix_refuted. Qed.

(** a content change without a range was skipped *)
Theorem full_text_nofix_refuted :
  Forall (fun cp => scalar cp = true) w_full_doc /\
  valid_change (to_utf16 w_full_doc) w_full_change = true /\
  ~ (exists d', apply_changes_nofix w_full_doc [w_full_change] = Ok d' /\
                to_utf16 d' = client_change (to_utf16 w_full_doc) w_full_change).
Proof. exact Proofs.full_text_nofix_refuted. Qed.

(** didChange with an empty change list panicked (content_changes[0]) although it follows LSP *)
Theorem empty_changes_nofix_refuted :
  follows_lsp [] w_empty_history = true /\ run_nofix init w_empty_history = Panic.
Proof. exact Proofs.empty_changes_nofix_refuted. Qed.

(** a malformed (inverted) range panicked in String::replace_range *)
Theorem inverted_range_nofix_refuted :
  run_nofix init w_inverted_history = Panic.
Proof. exact Proofs.inverted_range_nofix_refuted. Qed.
