(** C28.  [pos_to_byte_index] returns the byte length of a prefix of the string; [p2k] is the number of chars of that
    prefix (same walk, counting chars), so the index is a char boundary <= len.  [replace_range] is only ever called
    with two prefix lengths, smaller first: a ranged change is a splice of the char list and never panics
    ([ranged_change_model]).  For scalar-valued text and a position not inside a surrogate pair, the UTF-16 length
    of that prefix is the offset LSP assigns to the position ([p2k_offset]); hence a ranged change replaces the units
    between the two positions' offsets, which for a change that follows LSP is what the client did ([change_refines]).  [rep] relates the server's text to the
    client's units, [sim] the two states; [step_sim], [run_sim] carry it along a history ([history_refines], [sim_judge]).
    [run_no_panic]: no history at all panics.  At the end the [_nofix] witnesses (by evaluation, [change_refuted_eval]) and
    the example documents of Props_C28.v. *)
From Coq Require Import ZArith List Bool Arith Lia.
From ErgV Require Import Common.Lists TextSync.Model TextSync.Spec.
Import ListNotations.
Open Scope Z_scope.

Lemma utf8_len_bounds : forall c, 1 <= utf8_len c <= 4.
Proof. intro c. unfold utf8_len. destruct (c <? 128), (c <? 2048), (c <? 65536); lia. Qed.

Lemma str_len_nonneg : forall s, 0 <= str_len s.
Proof. induction s as [|c r IH]; cbn [str_len]; [lia|]. pose proof (utf8_len_bounds c). lia. Qed.

Lemma str_len_cons : forall c s, str_len (c :: s) = utf8_len c + str_len s.
Proof. reflexivity. Qed.

Lemma str_len_app : forall a b, str_len (a ++ b) = str_len a + str_len b.
Proof. induction a as [|c a IH]; intro b; cbn [app str_len]; [|rewrite IH]; lia. Qed.

Lemma split_at_byte_app : forall a b, split_at_byte (a ++ b) (str_len a) = Some (a, b).
Proof.
  induction a as [|c a IH]; intro b.
  - destruct b; reflexivity.
  - cbn [app str_len split_at_byte].
    pose proof (utf8_len_bounds c). pose proof (str_len_nonneg a).
    destruct (utf8_len c + str_len a =? 0) eqn:E0; [lia|].
    destruct (utf8_len c + str_len a <? utf8_len c) eqn:E1; [lia|].
    replace (utf8_len c + str_len a - utf8_len c) with (str_len a) by lia.
    rewrite IH. reflexivity.
Qed.

Lemma split_at_byte_firstn : forall k d,
  split_at_byte d (str_len (firstn k d)) = Some (firstn k d, skipn k d).
Proof. intros k d. rewrite <- (firstn_skipn k d) at 1. apply split_at_byte_app. Qed.

Lemma firstn_prefix : forall (d : text) a b, (a <= b)%nat -> exists m, firstn b d = firstn a d ++ m.
Proof.
  intros d a b Hab. exists (skipn a (firstn b d)).
  rewrite <- (firstn_skipn a (firstn b d)) at 1. rewrite firstn_firstn, Nat.min_l by assumption. reflexivity.
Qed.

Lemma str_len_firstn_mono : forall d a b, (a <= b)%nat -> str_len (firstn a d) <= str_len (firstn b d).
Proof.
  intros d a b Hab. destruct (firstn_prefix d a b Hab) as [m ->].
  rewrite str_len_app. pose proof (str_len_nonneg m). lia.
Qed.

Lemma replace_range_prefixes : forall d ks ke t, (ks <= ke)%nat ->
  replace_range d (str_len (firstn ks d)) (str_len (firstn ke d)) t = Ok (firstn ks d ++ t ++ skipn ke d).
Proof.
  intros d ks ke t Hk. unfold replace_range. rewrite !split_at_byte_firstn.
  pose proof (str_len_firstn_mono d ks ke Hk).
  destruct (str_len (firstn ks d) <=? str_len (firstn ke d)) eqn:E; [reflexivity|lia].
Qed.

Fixpoint p2k (s : text) (lines_left units_left : Z) {struct s} : nat :=
  match s with
  | [] => O
  | c :: r =>
    if lines_left =? 0 then
      if (units_left =? 0) || is_eol c then O
      else S (p2k r lines_left (Z.max 0 (units_left - utf16_len c)))
    else if is_eol c then
      match r with
      | n :: r' =>
        if (c =? 13) && (n =? 10) then S (S (p2k r' (lines_left - 1) units_left))
        else S (p2k r (lines_left - 1) units_left)
      | [] => S (p2k r (lines_left - 1) units_left)
      end
    else S (p2k r lines_left units_left)
  end.

(** "\r\n" makes both walks skip two chars at once: induction with the tail and the tail's tail at hand *)
Lemma tl2_ind : forall (A : Type) (P : list A -> Prop),
  P [] -> (forall a l, P l -> P (tl l) -> P (a :: l)) -> forall l, P l.
Proof.
  intros A P Hnil Hcons l. enough (P l /\ P (tl l)) by tauto.
  induction l as [|a l [IH1 IH2]]; cbn [tl]; auto.
Qed.

Lemma p2b_loop_p2k : forall s idx ll ul,
  match p2b_loop s idx ll ul with Some i => i | None => idx + str_len s end
  = idx + str_len (firstn (p2k s ll ul) s).
Proof.
  induction s as [|c r IH IH'] using tl2_ind; intros idx ll ul; [reflexivity|].
  cbn [p2b_loop p2k].
  destruct (ll =? 0).
  - destruct ((ul =? 0) || is_eol c); cbn [firstn]; [cbn; lia|].
    rewrite !(str_len_cons c), !Z.add_assoc. apply IH.
  - destruct (is_eol c).
    + destruct r as [|n r']; [|destruct ((c =? 13) && (n =? 10))]; cbn [firstn tl] in *.
      * rewrite !(str_len_cons c), !Z.add_assoc. apply IH.
      * rewrite !(str_len_cons c), !(str_len_cons n), !Z.add_assoc. apply IH'.
      * rewrite !(str_len_cons c), !Z.add_assoc. apply IH.
    + cbn [firstn]. rewrite !(str_len_cons c), !Z.add_assoc. apply IH.
Qed.

Lemma pos_to_byte_index_p2k : forall s l c,
  pos_to_byte_index s l c = str_len (firstn (p2k s l c) s).
Proof. intros s l c. exact (p2b_loop_p2k s 0 l c). Qed.

Lemma ranged_change_model : forall d sl sc el ec t,
  let ks := p2k d sl sc in
  let ke := p2k d el ec in
  replace_range d (Z.min (pos_to_byte_index d sl sc) (pos_to_byte_index d el ec))
                  (Z.max (pos_to_byte_index d sl sc) (pos_to_byte_index d el ec)) t
  = Ok (firstn (Nat.min ks ke) d ++ t ++ skipn (Nat.max ks ke) d).
Proof.
  intros d sl sc el ec t ks ke.
  rewrite !pos_to_byte_index_p2k. fold ks ke.
  destruct (Nat.le_ge_cases ks ke) as [Hle|Hge].
  - pose proof (str_len_firstn_mono d ks ke Hle).
    rewrite Z.min_l, Z.max_r, Nat.min_l, Nat.max_r by lia.
    apply replace_range_prefixes; assumption.
  - pose proof (str_len_firstn_mono d ke ks Hge).
    rewrite Z.min_r, Z.max_l, Nat.min_r, Nat.max_l by lia.
    apply replace_range_prefixes; assumption.
Qed.

Lemma apply_changes_no_panic : forall cs d, apply_changes d cs <> Panic.
Proof.
  induction cs as [|c r IH]; intros d; cbn [apply_changes]; [discriminate|].
  destruct c as [t|sl sc el ec t]; [apply IH|].
  rewrite ranged_change_model. apply IH.
Qed.

Lemma step_no_panic : forall st n, step st n <> Panic.
Proof.
  intros st n. destruct n as [uri v t|uri v chs]; cbn [step]; [discriminate|].
  unfold incremental_update. destruct (get uri (files st)) as [e|]; [|discriminate].
  destruct (v <=? ver e); [discriminate|].
  pose proof (apply_changes_no_panic chs (code e)). destruct (apply_changes (code e) chs); [discriminate|congruence].
Qed.

Lemma run_no_panic : forall ns st, run st ns <> Panic.
Proof.
  induction ns as [|n r IH]; intros st; cbn [run]; [discriminate|].
  pose proof (step_no_panic st n). destruct (step st n); [apply IH|congruence].
Qed.

Definition scalars (s : text) : Prop := Forall (fun c => scalar c = true) s.

Lemma forallb_scalars : forall s, forallb scalar s = true -> scalars s.
Proof. intros s H. apply Forall_forall. apply forallb_forall. assumption. Qed.

Lemma scalar_cases : forall c, scalar c = true ->
  (enc16 c = [c] /\ is_high c = false /\ is_low c = false) \/
  (65536 <= c /\ exists h l, enc16 c = [h; l] /\ is_high h = true /\ is_low l = true).
Proof.
  intros c H. unfold scalar in H. unfold enc16, is_high, is_low.
  destruct (c <? 65536) eqn:E.
  - left. repeat split; lia.
  - right. split; [lia|]. eexists. eexists. split; [reflexivity|].
    assert (0 <= (c - 65536) / 1024 < 1024).
    { split; [apply Z.div_pos; lia|apply Z.div_lt_upper_bound; lia]. }
    assert (0 <= (c - 65536) mod 1024 < 1024) by (apply Z.mod_pos_bound; lia).
    lia.
Qed.

Lemma enc16_nonempty : forall c, (1 <= length (enc16 c))%nat.
Proof. intro c. unfold enc16. destruct (c <? 65536); cbn; lia. Qed.

Lemma enc16_eol : forall c, is_eol c = true -> enc16 c = [c].
Proof. intros c H. unfold is_eol in H. assert (c = 10 \/ c = 13) as [-> | ->] by lia; reflexivity. Qed.

Lemma utf16_len_enc16 : forall c, utf16_len c = Z.of_nat (length (enc16 c)).
Proof. intro c. unfold utf16_len, enc16. destruct (c <? 65536); reflexivity. Qed.

Lemma to_utf16_cons : forall c r, to_utf16 (c :: r) = enc16 c ++ to_utf16 r.
Proof. reflexivity. Qed.

Lemma to_utf16_app : forall a b, to_utf16 (a ++ b) = to_utf16 a ++ to_utf16 b.
Proof. intros. unfold to_utf16. apply flat_map_app. Qed.

Lemma enc16_astral : forall c, 65536 <= c ->
  enc16 c = [55296 + (c - 65536) / 1024; 56320 + (c - 65536) mod 1024].
Proof. intros c H. unfold enc16. destruct (c <? 65536) eqn:E; [apply Z.ltb_lt in E; lia|reflexivity]. Qed.

(* [injection] would unfold the additions on the surrogate bases *)
Lemma cons2_inj : forall (a b c d : Z) l m, a :: b :: l = c :: d :: m -> a = c /\ b = d /\ l = m.
Proof. intros a b c d l m H. inversion H. auto. Qed.

(** [enc16] is a prefix code on scalar values: the first unit tells one unit from two *)
Lemma enc16_app_inj : forall x y a b, scalar x = true -> scalar y = true ->
  enc16 x ++ a = enc16 y ++ b -> x = y /\ a = b.
Proof.
  intros x y a b Hx Hy E.
  destruct (scalar_cases x Hx) as [(Ex & Hhx & _)|(Gx & hx & lx & Ex & Hhx & _)];
  destruct (scalar_cases y Hy) as [(Ey & Hhy & _)|(Gy & hy & ly & Ey & Hhy & _)].
  - rewrite Ex, Ey in E. injection E as E1 E2. auto.
  - rewrite Ex, Ey in E. injection E as E1 _. congruence.
  - rewrite Ex, Ey in E. injection E as E1 _. congruence.
  - clear Ex Ey. rewrite (enc16_astral x Gx), (enc16_astral y Gy) in E.
    apply cons2_inj in E. destruct E as (Eh & El & Er).
    split; [|assumption].
    pose proof (Z.div_mod (x - 65536) 1024 ltac:(lia)). pose proof (Z.div_mod (y - 65536) 1024 ltac:(lia)). lia.
Qed.

Lemma to_utf16_inj : forall a b, scalars a -> scalars b -> to_utf16 a = to_utf16 b -> a = b.
Proof.
  induction a as [|x a IH]; intros [|y b] Ha Hb E; rewrite ?to_utf16_cons in E.
  - reflexivity.
  - pose proof (enc16_nonempty y). destruct (enc16 y); cbn in *; [lia|discriminate].
  - pose proof (enc16_nonempty x). destruct (enc16 x); cbn in *; [lia|discriminate].
  - inversion Ha as [|? ? Hx Ha']; inversion Hb as [|? ? Hy Hb'].
    destruct (enc16_app_inj x y _ _ Hx Hy E) as [-> E']. f_equal. apply IH; assumption.
Qed.

Lemma units_firstn_mono : forall d a b, (a <= b)%nat ->
  (length (to_utf16 (firstn a d)) <= length (to_utf16 (firstn b d)))%nat.
Proof.
  intros d a b Hab. destruct (firstn_prefix d a b Hab) as [m ->].
  rewrite to_utf16_app, app_length. lia.
Qed.

(** the server's text [d] stands for the client's document [u] *)
Definition rep (d : text) (u : units) : Prop := scalars d /\ to_utf16 d = u.

Lemma rep_app : forall a b ua ub, rep a ua -> rep b ub -> rep (a ++ b) (ua ++ ub).
Proof. intros a b ua ub [Sa <-] [Sb <-]. split; [apply Forall_app; split; assumption|apply to_utf16_app]. Qed.

Lemma rep_split : forall k d u, rep d u ->
  rep (firstn k d) (firstn (length (to_utf16 (firstn k d))) u) /\
  rep (skipn k d) (skipn (length (to_utf16 (firstn k d))) u).
Proof.
  intros k d u [Sd <-]. rewrite <- (firstn_skipn k d) in Sd. apply Forall_app in Sd as [S1 S2].
  assert (E : to_utf16 d = to_utf16 (firstn k d) ++ to_utf16 (skipn k d)).
  { rewrite <- to_utf16_app, firstn_skipn. reflexivity. }
  rewrite E, firstn_app_exact, skipn_app_exact by reflexivity. repeat split; assumption.
Qed.

Lemma split_lines_nonempty : forall u, split_lines u <> [].
Proof.
  intro u. destruct u as [|c r]; cbn [split_lines]; [discriminate|].
  destruct (c =? 10); [discriminate|]. destruct (c =? 13).
  - destruct r as [|n r']; [discriminate|]. destruct (n =? 10); discriminate.
  - destruct (split_lines r) as [|[ln t] rest]; discriminate.
Qed.

(** a unit that is no line terminator lengthens the first line by one *)
Lemma offset_in_unit : forall x u l c, x <> 10 -> x <> 13 ->
  offset_in (split_lines (x :: u)) l c =
  match l, c with
  | O, O => O
  | O, S c' => S (offset_in (split_lines u) 0 c')
  | S _, _ => S (offset_in (split_lines u) l c)
  end.
Proof.
  intros x u l c H1 H2. pose proof (split_lines_nonempty u). cbn [split_lines].
  destruct (x =? 10) eqn:E1; [lia|]. destruct (x =? 13) eqn:E2; [lia|].
  destruct (split_lines u) as [|[ln t] rest]; [congruence|]. destruct l, c; reflexivity.
Qed.

Lemma offset_in_enc16 : forall ch u l c, scalar ch = true -> is_eol ch = false ->
  offset_in (split_lines (enc16 ch ++ u)) l c =
  match l with
  | O => if (c <? length (enc16 ch))%nat then c
         else (length (enc16 ch) + offset_in (split_lines u) 0 (c - length (enc16 ch)))%nat
  | S _ => (length (enc16 ch) + offset_in (split_lines u) l c)%nat
  end.
Proof.
  intros ch u l c Hs He. unfold is_eol in He.
  destruct (scalar_cases ch Hs) as [(-> & _)|(_ & h & lo & -> & Hh & Hl)]; cbn [app length].
  - rewrite offset_in_unit by lia. destruct l, c as [|c']; cbn [Nat.ltb Nat.leb Nat.sub plus]; rewrite ?Nat.sub_0_r; reflexivity.
  - unfold is_high in Hh. unfold is_low in Hl. rewrite !offset_in_unit by lia.
    destruct l, c as [|[|c']]; cbn [Nat.ltb Nat.leb Nat.sub plus]; rewrite ?offset_in_unit by lia; rewrite ?Nat.sub_0_r;
      reflexivity.
Qed.

Lemma split_lines_lf : forall u, split_lines (10 :: u) = ([], 1%nat) :: split_lines u.
Proof. reflexivity. Qed.

Lemma split_lines_crlf : forall u, split_lines (13 :: 10 :: u) = ([], 2%nat) :: split_lines u.
Proof. reflexivity. Qed.

Lemma split_lines_cr : forall u, hd 0 u <> 10 -> split_lines (13 :: u) = ([], 1%nat) :: split_lines u.
Proof.
  intros u H. cbn [split_lines Z.eqb Pos.eqb]. destruct u as [|n r]; [reflexivity|].
  cbn [hd] in H. destruct (n =? 10) eqn:E; [lia|reflexivity].
Qed.

(** "\n" or a lone "\r", under the test by which [p2b_loop] tells them from "\r\n" *)
Lemma split_lines_eol : forall x u, is_eol x = true -> (x =? 13) && (hd 0 u =? 10) = false ->
  split_lines (x :: u) = ([], 1%nat) :: split_lines u.
Proof.
  intros x u H Hn. unfold is_eol in H. assert (x = 10 \/ x = 13) as [-> | ->] by lia.
  - apply split_lines_lf.
  - apply split_lines_cr. lia.
Qed.

Lemma offset_in_eol_0 : forall x u c, is_eol x = true -> offset_in (split_lines (x :: u)) 0 c = 0%nat.
Proof.
  intros x u c H. unfold is_eol in H. assert (x = 10 \/ x = 13) as [-> | ->] by lia; cbn [split_lines Z.eqb Pos.eqb].
  - apply Nat.min_0_r.
  - destruct u as [|n u']; [|destruct (n =? 10)]; apply Nat.min_0_r.
Qed.

Lemma p2k_crlf : forall r ll ul, ll <> 0 ->
  p2k (13 :: 10 :: r) ll ul = S (S (p2k r (ll - 1) ul)).
Proof. intros r ll ul H. cbn [p2k]. destruct (ll =? 0) eqn:E; [lia|reflexivity]. Qed.

Lemma p2k_eol : forall c r ll ul, ll <> 0 -> is_eol c = true -> (c =? 13) && (hd 0 r =? 10) = false ->
  p2k (c :: r) ll ul = S (p2k r (ll - 1) ul).
Proof.
  intros c r ll ul H He Hn. cbn [p2k]. rewrite He. destruct (ll =? 0) eqn:E; [lia|].
  destruct r as [|n r']; [reflexivity|]. cbn [hd] in Hn. rewrite Hn. reflexivity.
Qed.

Lemma p2k_plain : forall c r ll ul, ll <> 0 -> is_eol c = false -> p2k (c :: r) ll ul = S (p2k r ll ul).
Proof. intros c r ll ul H He. cbn [p2k]. rewrite He. destruct (ll =? 0) eqn:E; [lia|reflexivity]. Qed.

Lemma hd_to_utf16 : forall r, scalars r -> (hd 0 (to_utf16 r) =? 10) = (hd 0 r =? 10).
Proof.
  intros [|m r] H; [reflexivity|]. inversion H as [|? ? Hm _]; subst. rewrite to_utf16_cons.
  destruct (scalar_cases m Hm) as [(-> & _)|(Hge & h & l & -> & Hh & _)]; [reflexivity|].
  cbn [app hd]. unfold is_high in Hh. lia.
Qed.

Lemma splits_pair_cons : forall x u o, splits_pair (x :: u) (S o) = false -> splits_pair u o = false.
Proof. intros x u o H. destruct o as [|o]; [reflexivity|exact H]. Qed.

Lemma splits_pair_app : forall x u o, splits_pair (x ++ u) (length x + o) = false -> splits_pair u o = false.
Proof.
  induction x as [|a x IH]; intros u o H; [exact H|].
  apply splits_pair_cons in H. auto.
Qed.

Lemma splits_pair_enc16 : forall c u o, scalar c = true -> (0 < o < length (enc16 c))%nat ->
  splits_pair (enc16 c ++ u) o = true.
Proof.
  intros c u o Hs Ho.
  destruct (scalar_cases c Hs) as [(E & _)|(_ & h & l & E & Hh & Hl)]; rewrite E in *; cbn [length] in Ho.
  - lia.
  - assert (o = 1%nat) as -> by lia. cbn. rewrite Hh, Hl. reflexivity.
Qed.

Lemma max0_sub : forall (c : nat) ch, Z.max 0 (Z.of_nat c - utf16_len ch) = Z.of_nat (c - length (enc16 ch)).
Proof. intros. rewrite utf16_len_enc16. lia. Qed.

Lemma p2k_offset : forall s, scalars s -> forall l c : nat,
  splits_pair (to_utf16 s) (offset_in (split_lines (to_utf16 s)) l c) = false ->
  offset_in (split_lines (to_utf16 s)) l c = length (to_utf16 (firstn (p2k s (Z.of_nat l) (Z.of_nat c)) s)).
Proof.
  induction s as [|ch r IH IH'] using tl2_ind; intros Hsc l c Hsp.
  { destruct l; cbn; lia. }
  inversion Hsc as [|? ? Hch Hr].
  rewrite to_utf16_cons in *.
  destruct (is_eol ch) eqn:Eeol; [rewrite (enc16_eol ch Eeol) in *; cbn [app] in *|];
    destruct l as [|l'].
  - (* a line terminator on the target line: end of line *)
    cbn [p2k Z.of_nat Z.eqb]. rewrite Eeol, orb_true_r. apply offset_in_eol_0; assumption.
  - destruct ((ch =? 13) && (hd 0 r =? 10)) eqn:Ecrlf.
    + destruct r as [|m r']; cbn [hd tl] in *; [lia|]. assert (ch = 13 /\ m = 10) as [-> ->] by lia.
      inversion Hr as [|? ? _ Hr'].
      rewrite p2k_crlf by lia. rewrite to_utf16_cons in *. change (enc16 10) with [10] in *. cbn [app] in *.
      rewrite split_lines_crlf in *. cbn [offset_in length plus] in *. do 2 apply splits_pair_cons in Hsp.
      replace (Z.of_nat (S l') - 1) with (Z.of_nat l') by lia.
      rewrite (IH' Hr' l' c Hsp). reflexivity.
    + rewrite p2k_eol by (assumption || lia).
      rewrite split_lines_eol in * by (rewrite ?hd_to_utf16; assumption).
      cbn [offset_in length plus] in *. apply splits_pair_cons in Hsp.
      replace (Z.of_nat (S l') - 1) with (Z.of_nat l') by lia.
      rewrite (IH Hr l' c Hsp). cbn [firstn]. rewrite to_utf16_cons, (enc16_eol ch Eeol). reflexivity.
  - (* on the target line *)
    cbn [p2k Z.of_nat Z.eqb]. rewrite Eeol, orb_false_r.
    rewrite offset_in_enc16 in * by assumption.
    pose proof (enc16_nonempty ch).
    destruct (Nat.ltb_spec c (length (enc16 ch))) as [Hlt|Hge].
    + destruct c as [|c']; [reflexivity|].
      (* strictly inside the units of [ch]: between the halves of a pair *)
      rewrite splits_pair_enc16 in Hsp by (assumption || lia). discriminate.
    + apply splits_pair_app in Hsp.
      replace (Z.of_nat c =? 0) with false by lia. rewrite max0_sub.
      rewrite (IH Hr 0%nat _ Hsp). cbn [firstn]. rewrite to_utf16_cons, app_length. reflexivity.
  - (* an ordinary char before the target line *)
    rewrite p2k_plain by (assumption || lia).
    rewrite offset_in_enc16 in * by assumption. apply splits_pair_app in Hsp.
    rewrite (IH Hr (S l') c Hsp). cbn [firstn]. rewrite to_utf16_cons, app_length. reflexivity.
Qed.

Lemma valid_pos_offset : forall d l c, scalars d -> valid_pos (to_utf16 d) l c = true ->
  offset_of (to_utf16 d) l c = length (to_utf16 (firstn (p2k d l c) d)).
Proof.
  intros d l c Hd Hv. unfold valid_pos, offset_of in *.
  rewrite !andb_true_iff, negb_true_iff in Hv. destruct Hv as [[[Hl Hc] _] Hsp].
  rewrite (p2k_offset d Hd _ _ Hsp), !Z2Nat.id by lia. reflexivity.
Qed.

(** A ranged change at any two positions the client may send, in either order: the server orders the two char
    indices, which orders the offsets ([units_firstn_mono]), so it replaces the units between the smaller and the
    larger offset.  LSP wants the start first; then this is the client's own edit. *)
Lemma ranged_change_units : forall d u sl sc el ec t, rep d u -> scalars t ->
  valid_pos u sl sc = true -> valid_pos u el ec = true ->
  exists d', apply_changes d [Ranged sl sc el ec t] = Ok d' /\
    rep d' (firstn (Nat.min (offset_of u sl sc) (offset_of u el ec)) u ++ to_utf16 t
            ++ skipn (Nat.max (offset_of u sl sc) (offset_of u el ec)) u).
Proof.
  intros d u sl sc el ec t Hd Ht Hs He. cbn [apply_changes]. pose proof Hd as [Sd <-].
  rewrite (valid_pos_offset d sl sc Sd Hs), (valid_pos_offset d el ec Sd He), ranged_change_model.
  eexists. split; [reflexivity|].
  rewrite (Nat.min_mono (fun k => length (to_utf16 (firstn k d))) _ (units_firstn_mono d)).
  rewrite (Nat.max_mono (fun k => length (to_utf16 (firstn k d))) _ (units_firstn_mono d)).
  apply rep_app; [apply rep_split, Hd|]. apply rep_app; [split; [exact Ht|reflexivity]|apply rep_split, Hd].
Qed.

Lemma change_refines : forall d u c, rep d u -> valid_change u c = true ->
  exists d', apply_changes d [c] = Ok d' /\ rep d' (client_change u c).
Proof.
  intros d u c Hd Hv. destruct c as [t|sl sc el ec t]; cbn [valid_change client_change] in *.
  - exists t. repeat split. apply forallb_scalars; assumption.
  - rewrite !andb_true_iff, Nat.leb_le in Hv. destruct Hv as [[[Hs He] Hle] Ht].
    pose proof (ranged_change_units d u sl sc el ec t Hd (forallb_scalars t Ht) Hs He) as H.
    rewrite Nat.min_l, Nat.max_r in H by assumption. exact H.
Qed.

Lemma apply_changes_cons : forall d c r,
  apply_changes d (c :: r) = match apply_changes d [c] with Ok d' => apply_changes d' r | Panic => Panic end.
Proof.
  intros d c r. destruct c as [t|sl sc el ec t]; cbn [apply_changes]; [reflexivity|].
  destruct (replace_range d _ _ t); reflexivity.
Qed.

Lemma changes_refine : forall cs d u, rep d u -> valid_changes u cs = true ->
  exists d', apply_changes d cs = Ok d' /\ rep d' (client_changes u cs).
Proof.
  induction cs as [|c r IH]; intros d u Hd Hv.
  - exists d. split; [reflexivity|assumption].
  - cbn [valid_changes client_changes] in *. apply andb_true_iff in Hv. destruct Hv as [Hc Hr].
    destruct (change_refines d u c Hd Hc) as (d1 & E1 & R1).
    destruct (IH d1 _ R1 Hr) as (d2 & E2 & R2).
    exists d2. rewrite apply_changes_cons, E1. split; assumption.
Qed.

Lemma get_set_eq : forall A k (v : A) m, get k (set k v m) = Some v.
Proof. intros. unfold set. cbn [get]. rewrite Z.eqb_refl. reflexivity. Qed.

Lemma get_set_neq : forall A k k' (v : A) m, k' <> k -> get k' (set k v m) = get k' m.
Proof.
  intros A k k' v m Hne. unfold set. cbn [get]. destruct (k =? k') eqn:E; [lia|].
  induction m as [|[a w] r IH]; [reflexivity|].
  cbn [filter fst get]. destruct (a =? k) eqn:Ea; cbn [negb get]; rewrite IH; [|reflexivity].
  destruct (a =? k') eqn:Ea'; [lia|reflexivity].
Qed.

Definition sim (st : state) (cs : cstate) : Prop :=
  forall uri,
    match get uri cs with
    | None => get uri (files st) = None /\ get uri (vfs st) = None
    | Some (u, v) => exists e, get uri (files st) = Some e /\ rep (code e) u /\ ver e = v /\
                               get uri (vfs st) = Some (code e)
    end.

Lemma sim_init : sim init [].
Proof. intro uri. split; reflexivity. Qed.

Lemma sim_set : forall st cs uri t u v,
  sim st cs -> rep t u ->
  sim {| files := set uri {| code := t; ver := v |} (files st); vfs := set uri t (vfs st) |}
      (set uri (u, v) cs).
Proof.
  intros st cs uri t u v Hs Ht k. cbn [files vfs].
  destruct (Z.eq_dec k uri) as [->|Hne].
  - rewrite !get_set_eq. eexists. repeat split; apply Ht.
  - rewrite !get_set_neq by assumption. apply Hs.
Qed.

Lemma step_sim : forall st cs n, sim st cs -> valid_notif cs n = true ->
  exists st', step st n = Ok st' /\ sim st' (client_step cs n).
Proof.
  intros st cs n Hs Hv. pose proof (Hs (match n with DidOpen uri _ _ | DidChange uri _ _ => uri end)) as Hu.
  destruct n as [uri v t|uri v chs]; cbn [valid_notif step client_step] in *.
  - destruct (get uri cs) as [p|]; [discriminate|]. destruct Hu as [Hf _].
    unfold update. rewrite Hf. cbn iota.
    eexists. split; [reflexivity|]. apply sim_set; [assumption|]. split; [apply forallb_scalars; assumption|reflexivity].
  - destruct (get uri cs) as [[u v0]|]; [|discriminate].
    apply andb_true_iff in Hv. destruct Hv as [Hver Hch]. destruct Hu as (e & Hf & Hr & Hv0 & Hvfs).
    unfold incremental_update. rewrite Hf.
    destruct (v <=? ver e) eqn:E; [lia|].
    destruct (changes_refine chs (code e) u Hr Hch) as (d' & -> & R1).
    eexists. split; [reflexivity|]. apply sim_set; assumption.
Qed.

Lemma run_sim : forall ns st cs, sim st cs -> follows_lsp cs ns = true ->
  exists st', run st ns = Ok st' /\ sim st' (client_run cs ns).
Proof.
  induction ns as [|n r IH]; intros st cs Hs Hv; cbn [run follows_lsp client_run] in *.
  - exists st. split; [reflexivity|assumption].
  - apply andb_true_iff in Hv. destruct Hv as [Hn Hr].
    destruct (step_sim st cs n Hs Hn) as (st1 & E1 & S1). rewrite E1. apply IH; assumption.
Qed.

Lemma sim_observe : forall st cs uri, sim st cs ->
  option_map to_utf16 (server_text st uri) = client_text cs uri /\
  server_version st uri = client_version cs uri /\
  server_vfs st uri = server_text st uri.
Proof.
  intros st cs uri Hs. specialize (Hs uri).
  unfold server_text, server_version, server_vfs, client_text, client_version.
  destruct (get uri cs) as [[u v]|].
  - destruct Hs as (e & Hf & [_ Hu] & Hv & Hvfs). rewrite Hf, Hvfs. subst. repeat split.
  - destruct Hs as [Hf Hvfs]. rewrite Hf, Hvfs. repeat split.
Qed.

Lemma units_eqb_eq : forall a b, units_eqb a b = true <-> a = b.
Proof. exact Common.Lists.zs_eqb_eq. Qed.

Lemma sim_judge : forall st cs uris, sim st cs ->
  judge cs true false (map (fun uri => (uri, observe st uri)) uris) = true.
Proof.
  intros st cs uris Hs. unfold judge.
  apply forallb_forall. intros [uri o] Hin. apply in_map_iff in Hin. destruct Hin as (u & E & _).
  inversion E. cbn [fst snd]. specialize (Hs uri). unfold judge_doc, observe.
  destruct (get uri cs) as [[un v]|].
  - destruct Hs as (e & Hf & [_ Hu] & Hv & Hvfs). rewrite Hf, Hvfs. subst.
    rewrite (proj2 (units_eqb_eq _ _) eq_refl), Z.eqb_refl. reflexivity.
  - destruct Hs as [Hf _]. rewrite Hf. reflexivity.
Qed.

Lemma history_refines : forall ns, follows_lsp [] ns = true ->
  exists st, run init ns = Ok st /\
    forall uri,
      option_map to_utf16 (server_text st uri) = client_text (client_run [] ns) uri /\
      server_version st uri = client_version (client_run [] ns) uri /\
      server_vfs st uri = server_text st uri.
Proof.
  intros ns Hv. destruct (run_sim ns init [] sim_init Hv) as (st & E & S).
  exists st. split; [assumption|]. intro uri. apply sim_observe; assumption.
Qed.

(** the [_nofix] code: witnesses (replayed on the real server by checks/c28.py, see known/C28.json) *)
Definition w_astral_doc : text := [97; 128512; 98].                 (* "a😀b" *)
Definition w_astral_change : change := Ranged 0 3 0 3 [120].       (* insert "x" after the emoji: UTF-16 offset 3 *)
Definition w_eol_doc : text := [97; 98; 10; 99; 100].               (* "ab\ncd" *)
Definition w_eol_change : change := Ranged 0 5 0 5 [120].          (* offset 5 on a line of length 2: end of line 0 *)
Definition w_eof_doc : text := [97; 233].                           (* "aé" *)
Definition w_eof_change : change := Ranged 0 2 0 2 [120].          (* append at the end of the document *)
Definition w_cr_doc : text := [97; 13; 98].                         (* "a\rb" *)
Definition w_cr_change : change := Ranged 1 0 1 0 [120].           (* start of line 1 *)
Definition w_full_doc : text := [97; 98].
Definition w_full_change : change := Full [120].
Definition w_empty_history : list notif := [DidOpen 0 1 [97; 98]; DidChange 0 2 []].
Definition w_inverted_history : list notif := [DidOpen 0 1 [97; 98]; DidChange 0 2 [Ranged 0 2 0 1 [120]]].

(** a change on which [apply_changes_nofix] panics or leaves a text other than the client's: decided by evaluation *)
Lemma change_refuted_eval : forall d c,
  forallb scalar d && valid_change (to_utf16 d) c &&
  match apply_changes_nofix d [c] with
  | Ok d' => negb (units_eqb (to_utf16 d') (client_change (to_utf16 d) c))
  | Panic => true
  end = true ->
  scalars d /\ valid_change (to_utf16 d) c = true /\
  ~ (exists d', apply_changes_nofix d [c] = Ok d' /\ to_utf16 d' = client_change (to_utf16 d) c).
Proof.
  intros d c H. rewrite !andb_true_iff in H. destruct H as [[Hd Hv] Hr].
  split; [apply forallb_scalars, Hd|]. split; [exact Hv|]. intros (d' & E & U). rewrite E in Hr.
  apply units_eqb_eq in U. rewrite U in Hr. discriminate.
Qed.

Lemma astral_nofix_refuted :
  scalars w_astral_doc /\ valid_change (to_utf16 w_astral_doc) w_astral_change = true /\
  ~ (exists d', apply_changes_nofix w_astral_doc [w_astral_change] = Ok d' /\
                to_utf16 d' = client_change (to_utf16 w_astral_doc) w_astral_change).
Proof. apply change_refuted_eval. vm_compute. reflexivity. Qed.

Lemma past_eol_nofix_refuted :
  scalars w_eol_doc /\ valid_change (to_utf16 w_eol_doc) w_eol_change = true /\
  ~ (exists d', apply_changes_nofix w_eol_doc [w_eol_change] = Ok d' /\
                to_utf16 d' = client_change (to_utf16 w_eol_doc) w_eol_change).
Proof. apply change_refuted_eval. vm_compute. reflexivity. Qed.

Lemma trailing_multibyte_nofix_refuted :
  scalars w_eof_doc /\ valid_change (to_utf16 w_eof_doc) w_eof_change = true /\
  apply_changes_nofix w_eof_doc [w_eof_change] = Panic.
Proof. split; [repeat constructor|]. split; vm_compute; reflexivity. Qed.

Lemma lone_cr_nofix_refuted :
  scalars w_cr_doc /\ valid_change (to_utf16 w_cr_doc) w_cr_change = true /\
  ~ (exists d', apply_changes_nofix w_cr_doc [w_cr_change] = Ok d' /\
                to_utf16 d' = client_change (to_utf16 w_cr_doc) w_cr_change).
Proof. apply change_refuted_eval. vm_compute. reflexivity. Qed.

Lemma full_text_nofix_refuted :
  scalars w_full_doc /\ valid_change (to_utf16 w_full_doc) w_full_change = true /\
  ~ (exists d', apply_changes_nofix w_full_doc [w_full_change] = Ok d' /\
                to_utf16 d' = client_change (to_utf16 w_full_doc) w_full_change).
Proof. apply change_refuted_eval. vm_compute. reflexivity. Qed.

Lemma empty_changes_nofix_refuted :
  follows_lsp [] w_empty_history = true /\ run_nofix init w_empty_history = Panic.
Proof. split; vm_compute; reflexivity. Qed.

Lemma inverted_range_nofix_refuted :
  run_nofix init w_inverted_history = Panic.
Proof. vm_compute. reflexivity. Qed.

Definition ex_doc : text := [97; 128512; 233; 13; 10; 98; 119987; 12354].       (* "a😀é\r\nb𝒳あ" *)
Definition ex_change : change := Ranged 0 3 1 99 [120; 128512; 10].           (* from after the emoji to past the end of line 1 *)
Definition ex_history : list notif :=
  [ DidOpen 0 1 ex_doc;
    DidOpen 1 7 [233];
    DidChange 0 2 [ex_change; Ranged 1 0 1 0 [13; 10]; Ranged 2 0 2 0 [119987]];
    DidChange 1 8 [Ranged 0 1 0 1 [120]; Full [97; 10; 98]];
    DidChange 0 5 [] ].
Definition ex_malformed : list notif :=
  [ DidOpen 0 1 ex_doc; DidChange 0 2 [Ranged 9 0 0 2 [120]; Ranged 0 2 0 2 [121]]; DidChange 3 1 [Full []];
    DidChange 0 2 [Full []] ].
