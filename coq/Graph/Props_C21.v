(** C21 — the property theorems, and a concrete history that meets their hypotheses *)
From Coq Require Import ZArith List.
From ErgV Require Import Graph.Model Graph.Spec Graph.ProofsReach Graph.Proofs.
From ErgV Require Graph.ProofsTsort.
Import ListNotations.
Open Scope Z_scope.

(** the extracted judge decides inductive reachability *)
Theorem reachb_spec : forall E a b, reachb E a b = true <-> reach E a b.
Proof. exact ProofsReach.reachb_spec. Qed.

(** deep_depends_on is reachability (DFS with a visited set is sound and complete), for every
    iteration order of the dependency sets *)
Theorem deep_depends_on_reach : forall g a b, index_inv g ->
  (deep_depends_on g a b = Ok true <-> reach (E (abs g)) a b).
Proof.
  intros g a b Hinv. rewrite (q_deep_agree g _ a b (R_abs g Hinv)). unfold q_deep. rewrite <- ProofsReach.reachb_spec.
  split; [intros H; inversion H; reflexivity|intros ->; reflexivity].
Qed.

(** index_inv: the index maps exactly the node ids, each to its position.  It holds initially, is preserved
    by every operation (rename: to a fresh path, [op_ok]) and hence along every history whose renames are fresh
    ([hist_ok], a checkable predicate over the history); such a history never panics or runs out of fuel. *)
Theorem index_inv_init : index_inv empty.
Proof. exact index_inv_empty. Qed.

Theorem index_inv_preserved : forall g o x, index_inv g -> op_ok g o = true -> step g o = Ok x -> index_inv (snd x).
Proof. intros g o x Hinv Hok H. exact (proj1 (proj1 (step_abs g o x Hinv Hok H))). Qed.

Theorem index_inv_history : forall os, hist_ok empty os = true ->
  exists g, run_ops empty os = Ok g /\ index_inv g.
Proof.
  intros os Hok.
  destruct (run_R os empty rempty (R_abs empty index_inv_empty) Hok) as [g [Hr [Hi _]]].
  exists g. auto.
Qed.

(** no operation panics on a state satisfying the invariant: get_node never indexes out of bounds,
    inc_ref's unreachable! is unreachable, Vec::remove is in bounds, tsort's reorder unwrap cannot fail *)
Theorem step_no_panic : forall g o, index_inv g -> step g o <> Panic.
Proof. intros g o Hinv. destruct (step_R g (abs g) o (R_abs g Hinv)) as [x [-> _]]. discriminate. Qed.

(** the fuel of the model is enough: the recursions of the Rust code terminate *)
Theorem fuel_enough : forall g, index_inv g ->
  (forall a b, deep_depends_on g a b <> Fuel) /\ (forall p, ancestors g p <> Fuel) /\
  tsort (nodes g) <> Fuel /\ (forall o, step g o <> Fuel).
Proof.
  intros g Hinv. split; [|split; [|split]].
  - intros a b. rewrite (q_deep_agree g _ a b (R_abs g Hinv)). discriminate.
  - intros p. destruct (ancestors_spec g Hinv p) as [l [-> _]]. discriminate.
  - destruct (ProofsTsort.tsort_total (nodes g)) as [r ->]. discriminate.
  - intros o. destruct (step_R g (abs g) o (R_abs g Hinv)) as [x [-> _]]. discriminate.
Qed.

(** inc_ref answers CycleDetected, leaving exactly the state [add_node_if_none g referrer], if and only if
    referrer <> dep and dep already reaches referrer; in every other case it succeeds and the new state
    abstracts to the reference graph with the edge added (V and E equal as sets).  (referrer = dep is accepted
    without recording an edge, in the code and in the reference.) *)
Theorem inc_ref_refuses_cycle : forall g r d, index_inv g ->
  (forall g', inc_ref g r d = Ok (IncCycle, g') <->
              (r <> d /\ reach (E (abs g)) d r /\ g' = add_node_if_none g r)) /\
  (~ (r <> d /\ reach (E (abs g)) d r) ->
     exists g2, inc_ref g r d = Ok (IncOk, g2) /\ rg_eq (abs g2) (snd (r_inc (abs g) r d))).
Proof.
  intros g r d Hinv. destruct (inc_ref_eq g r d Hinv) as [c [g2 [Hg [_ [Hc [_ [_ Hcy]]]]]]]. rewrite Hg.
  assert (HR : rg_eq (abs g2) (snd (r_inc (abs g) r d))).
  { apply (step_abs g (OInc r d) (inc_code c, g2) Hinv eq_refl). cbn [step]. rewrite Hg. reflexivity. }
  change (E (abs g)) with (edges_of (nodes g)).
  assert (Hcl : c = IncCycle <-> r <> d /\ reach (edges_of (nodes g)) d r).
  { rewrite <- closes_spec. destruct (closes (edges_of (nodes g)) r d); destruct c; split; try discriminate; auto. }
  split.
  - intros g'. split.
    + intros H. inversion H; subst c g'. destruct (proj1 Hcl eq_refl) as [A B]. auto.
    + intros [A [B ->]]. rewrite (proj2 Hcl (conj A B)) in *. rewrite (Hcy eq_refl). reflexivity.
  - intros Hn. exists g2. destruct c; [|exfalso; apply Hn, Hcl; reflexivity]. split; [reflexivity|exact HR].
Qed.

(** acyclicity of the abstract graph is preserved by add / inc_ref / remove / sort, hence holds after every
    history without rename.  (rename onto a path that dangling edges point to can close a cycle.) *)
Theorem acyclic_preserved : forall g o x, index_inv g -> acyclic (E (abs g)) ->
  (match o with ORename _ _ => False | _ => True end) -> step g o = Ok x -> acyclic (E (abs (snd x))).
Proof.
  intros g o x Hinv Hac Ho H. apply (acyclic_history [o] g (snd x) Hinv Hac).
  - destruct o; try reflexivity; contradiction.
  - cbn [run_ops]. rewrite H. reflexivity.
Qed.

Theorem acyclic_inv : forall os g, no_rename os = true -> run_ops empty os = Ok g -> acyclic (E (abs g)).
Proof. exact acyclic_inv_l. Qed.

(** abs commutes with every operation w.r.t. the reference operations (V and E equal as sets) and the result
    codes agree (where the reference leaves the sort error open, -1, the code answers one of the two errors);
    the queries on the concrete state are the reference queries on its abstraction. *)
Theorem abs_step : forall g o x, index_inv g -> op_ok g o = true -> step g o = Ok x ->
  rg_eq (abs (snd x)) (snd (r_step (abs g) o)) /\
  (fst (r_step (abs g) o) = fst x \/ (fst (r_step (abs g) o) = -1 /\ (fst x = 2 \/ fst x = 3))).
Proof. intros g o x Hinv Hok H. destruct (step_abs g o x Hinv Hok H) as [[_ Hr] Hc]. exact (conj Hr Hc). Qed.

Theorem queries_agree : forall g, index_inv g ->
  (forall a b, depends_on g a b = Ok (q_depends_on (abs g) a b)) /\
  (forall a b, deep_depends_on g a b = Ok (q_deep (abs g) a b)) /\
  (forall p, set_eq (children g p) (q_children (abs g) p)) /\
  (forall p, exists o, parents g p = Ok o /\ opt_set_eq o (q_parents (abs g) p)).
Proof.
  intros g Hinv. pose proof (R_abs g Hinv) as HR. split; [|split; [|split]].
  - intros a b. apply q_depends_on_agree. exact HR.
  - intros a b. apply q_deep_agree. exact HR.
  - intros p. apply q_children_agree. exact HR.
  - intros p. apply q_parents_agree. exact HR.
Qed.

(** refinement along histories: after every history with fresh renames the concrete state abstracts to the
    reference graph obtained by running the reference operations, and the queries answer as the reference does *)
Theorem refine_ops : forall os, hist_ok empty os = true ->
  exists g, run_ops empty os = Ok g /\ index_inv g /\ rg_eq (abs g) (r_run rempty os) /\
    (forall a b, depends_on g a b = Ok (q_depends_on (r_run rempty os) a b)) /\
    (forall a b, deep_depends_on g a b = Ok (q_deep (r_run rempty os) a b)) /\
    (forall p, set_eq (children g p) (q_children (r_run rempty os) p)).
Proof.
  intros os Hok.
  destruct (run_R os empty rempty (R_abs empty index_inv_empty) Hok) as [g [Hr HR]].
  exists g. split; [exact Hr|]. split; [exact (proj1 HR)|]. split; [exact (proj2 HR)|].
  split; [|split]; intros; [apply q_depends_on_agree|apply q_deep_agree|apply q_children_agree]; exact HR.
Qed.

(** sort: the graph is unchanged as a set of nodes and edges, and the answer passes the executable judge *)
Theorem sort_judged : forall g x, index_inv g -> sort g = Ok x ->
  rg_eq (abs (snd x)) (abs g) /\
  judge_sort (abs g) (sort_code (fst x)) (map nid (nodes (snd x))) = true /\
  (sort_expected (abs g) = sort_code (fst x) \/ (sort_expected (abs g) = -1 /\ fst x <> None)).
Proof.
  intros g x Hinv H. destruct (sort_refine g Hinv) as [y [Hy [_ Hs]]]. rewrite Hy in H. inversion H; subst y. exact Hs.
Qed.

(** tsort: a successful answer is a permutation of the nodes in which every node comes after all of its
    dependencies (so in particular all dependencies are nodes and there is no cycle) *)
Theorem tsort_sound : forall ns s, NoDup (map nid ns) -> tsort ns = Ok (inr s) ->
  Permutation.Permutation s ns /\ before_all (map nid s) (edges_of ns) [] = true.
Proof. exact ProofsTsort.tsort_sound. Qed.

(** error kinds: CyclicReference only if a cycle exists, KeyNotFound only if some dependency is not a node;
    and tsort succeeds whenever the graph is acyclic and closed.  (With both a cycle and a missing node the
    answer depends on the iteration order, so no "iff" per kind holds.) *)
Theorem tsort_err_cyclic : forall ns, tsort ns = Ok (inl CyclicReference) -> exists a, reach (edges_of ns) a a.
Proof. exact ProofsTsort.tsort_err_cyclic. Qed.

Theorem tsort_err_keynotfound : forall ns, tsort ns = Ok (inl KeyNotFound) ->
  exists n d, In n ns /\ In d (ndeps n) /\ ~ In d (map nid ns).
Proof. exact ProofsTsort.tsort_err_keynotfound. Qed.

Theorem tsort_complete : forall ns, acyclic (edges_of ns) ->
  (forall n d, In n ns -> In d (ndeps n) -> In d (map nid ns)) -> exists s, tsort ns = Ok (inr s).
Proof. exact ProofsTsort.tsort_complete. Qed.

Theorem tsort_total : forall ns, tsort ns <> Panic /\ tsort ns <> Fuel.
Proof. intros ns. destruct (ProofsTsort.tsort_total ns) as [r ->]. split; discriminate. Qed.

(** non-vacuity: a concrete history (3-node chain 1 -> 2 -> 3, a refused cycle-closing edge, a fresh rename,
    an add/remove pair and a sort) meets the hypotheses of the theorems above *)
Definition ex_chain : list op := [OInc 1 2; OInc 2 3; OAdd 3].
Definition ex_ops : list op := ex_chain ++ [OInc 3 1; ORename 2 5; OAdd 7; ORemove 7; OSort].
Definition ex_g : graph :=
  {| nodes := [{| nid := 1; ndeps := [2] |}; {| nid := 2; ndeps := [3] |}; {| nid := 3; ndeps := [] |}];
     index := [(1, 0%nat); (2, 1%nat); (3, 2%nat)] |}.

Example ex_hist_ok : hist_ok empty ex_ops = true.
Proof. vm_compute. reflexivity. Qed.
Example ex_chain_run : run_ops empty ex_chain = Ok ex_g.
Proof. vm_compute. reflexivity. Qed.
Example ex_run : run_ops empty ex_ops =
  Ok {| nodes := [{| nid := 3; ndeps := [] |}; {| nid := 5; ndeps := [3] |}; {| nid := 1; ndeps := [5] |}];
        index := [(3, 0%nat); (5, 1%nat); (1, 2%nat)] |}.
Proof. vm_compute. reflexivity. Qed.
(* index_inv_history / step_no_panic / fuel_enough / queries_agree / abs_step: the chain state satisfies index_inv *)
Example ex_index_inv : index_inv ex_g.
Proof.
  destruct (index_inv_history ex_chain) as [g [Hr Hi]]; [vm_compute; reflexivity|].
  rewrite ex_chain_run in Hr. inversion Hr; subst g. exact Hi.
Qed.
(* deep_depends_on_reach / reachb_spec: 1 reaches 3 through 2, 3 does not reach 1 *)
Example ex_deep : deep_depends_on ex_g 1 3 = Ok true /\ deep_depends_on ex_g 3 1 = Ok false /\
                  reachb (E (abs ex_g)) 1 3 = true /\ reachb (E (abs ex_g)) 3 1 = false.
Proof. vm_compute. repeat split; reflexivity. Qed.
Example ex_reach : reach (E (abs ex_g)) 1 3.
Proof. apply (proj1 (deep_depends_on_reach ex_g 1 3 ex_index_inv)). vm_compute. reflexivity. Qed.
(* inc_ref_refuses_cycle: 3 -> 1 would close the cycle and is refused with the state unchanged; 3 -> 9 is accepted *)
Example ex_refused : inc_ref ex_g 3 1 = Ok (IncCycle, ex_g) /\ add_node_if_none ex_g 3 = ex_g /\
                     (3 <> 1 /\ reach (E (abs ex_g)) 1 3).
Proof.
  split; [vm_compute; reflexivity|]. split; [vm_compute; reflexivity|]. split; [discriminate|exact ex_reach].
Qed.
Example ex_accepted : exists g2, inc_ref ex_g 3 9 = Ok (IncOk, g2) /\ E (abs g2) = [(1, 2); (2, 3); (3, 9)].
Proof. eexists. split; vm_compute; reflexivity. Qed.
(* refine_ops: the whole history is refined; its reference graph has the renamed chain 1 -> 5 -> 3 *)
Example ex_refine : r_run rempty ex_ops = {| V := [1; 5; 3]; E := [(1, 5); (5, 3)] |}.
Proof. vm_compute. reflexivity. Qed.
(* acyclic_inv: the chain history has no rename, so the chain graph is acyclic *)
Example ex_acyclic : acyclic (E (abs ex_g)).
Proof. apply (acyclic_inv ex_chain ex_g); [vm_compute; reflexivity|exact ex_chain_run]. Qed.
(* tsort_sound / tsort_complete / sort_judged: the chain sorts to 3, 2, 1; the two error kinds do occur *)
Example ex_tsort : tsort (nodes ex_g) =
  Ok (inr [{| nid := 3; ndeps := [] |}; {| nid := 2; ndeps := [3] |}; {| nid := 1; ndeps := [2] |}]) /\
  NoDup (map nid (nodes ex_g)).
Proof. split; [vm_compute; reflexivity|exact (proj1 ex_index_inv)]. Qed.
Example ex_tsort_errors :
  tsort [{| nid := 1; ndeps := [2] |}; {| nid := 2; ndeps := [1] |}] = Ok (inl CyclicReference) /\
  tsort [{| nid := 1; ndeps := [9] |}] = Ok (inl KeyNotFound).
Proof. split; vm_compute; reflexivity. Qed.
Example ex_sort_judged : exists x, sort ex_g = Ok x /\ judge_sort (abs ex_g) (sort_code (fst x)) (map nid (nodes (snd x))) = true
                                   /\ map nid (nodes (snd x)) = [3; 2; 1].
Proof. eexists. split; [vm_compute; reflexivity|]. split; vm_compute; reflexivity. Qed.
