(** C21 — the index invariant, the queries, what each operation does to the sets of ids and edges, and the
    representation relation [R] that every operation carries along. *)
From Coq Require Import ZArith List Bool Arith Lia Permutation.
From ErgV Require Import Common.Lists Graph.Model Graph.Spec.
From ErgV Require Import Graph.ProofsReach.
From ErgV Require Import Graph.ProofsTsort.
Import ListNotations.
Open Scope Z_scope.

Definition shift (i j : nat) : nat := if Nat.ltb i j then pred j else j.

Lemma position_remove_nth : forall l p i q, NoDup l -> position p l = Some i ->
  position q (remove_nth l i) = if Z.eqb p q then None else option_map (shift i) (position q l).
Proof.
  induction l as [|x r IH]; intros p i q Hnd Hp; cbn [position] in Hp.
  - discriminate.
  - inversion Hnd as [|? ? Hx Hr]; subst.
    destruct (Z.eqb x p) eqn:He.
    + apply Z.eqb_eq in He. subst x. inversion Hp; subst i. cbn [remove_nth position].
      destruct (Z.eqb p q) eqn:Hq.
      * apply Z.eqb_eq in Hq. subst q. apply position_None_iff. exact Hx.
      * destruct (position q r); reflexivity.
    + destruct (position p r) as [i'|] eqn:Hpr; cbn [option_map] in Hp; [|discriminate].
      inversion Hp; subst i. cbn [remove_nth position].
      destruct (Z.eqb x q) eqn:Hxq.
      * apply Z.eqb_eq in Hxq. subst q. rewrite (Z.eqb_sym p x), He. reflexivity.
      * rewrite (IH p i' q Hr Hpr). destruct (Z.eqb p q); [reflexivity|].
        destruct (position q r) as [j|]; cbn [option_map]; [|reflexivity].
        unfold shift. f_equal.
        destruct (Nat.ltb_spec i' j) as [H1|H1]; destruct (Nat.ltb_spec (S i') (S j)) as [H2|H2]; cbn [pred]; lia.
Qed.

Lemma position_map_ren : forall old new l q, ~ In new l ->
  position q (map (ren old new) l) =
    if Z.eqb new q then position old l else if Z.eqb old q then None else position q l.
Proof.
  intros old new l q. induction l as [|x r IH]; intros Hn; cbn [map position].
  - destruct (Z.eqb new q); [reflexivity|]. destruct (Z.eqb old q); reflexivity.
  - assert (Hxn : x <> new) by (intros ->; apply Hn; left; reflexivity).
    assert (Hr : ~ In new r) by (intros H; apply Hn; right; exact H).
    specialize (IH Hr). unfold ren at 1.
    destruct (Z.eqb x old) eqn:Hxo.
    + apply Z.eqb_eq in Hxo. subst x. rewrite IH.
      destruct (Z.eqb new q) eqn:H1; [reflexivity|].
      destruct (Z.eqb old q) eqn:H2; reflexivity.
    + rewrite IH. destruct (Z.eqb new q) eqn:H1.
      * apply Z.eqb_eq in H1. subst q. apply Z.eqb_neq in Hxn. rewrite Hxn. reflexivity.
      * destruct (Z.eqb old q) eqn:H2; [|reflexivity].
        apply Z.eqb_eq in H2. subst q. rewrite Hxo. reflexivity.
Qed.

Lemma idx_get_app : forall a b q,
  idx_get (a ++ b) q = match idx_get a q with Some v => Some v | None => idx_get b q end.
Proof.
  induction a as [|[k v] r IH]; intros b q; cbn [app idx_get]; [reflexivity|].
  destruct (Z.eqb k q); [reflexivity|apply IH].
Qed.
Lemma idx_get_remove : forall ix p q,
  idx_get (idx_remove ix p) q = if Z.eqb p q then None else idx_get ix q.
Proof.
  induction ix as [|[k v] r IH]; intros p q; unfold idx_remove; cbn [filter idx_get fst].
  - destruct (Z.eqb p q); reflexivity.
  - fold (idx_remove r p). destruct (Z.eqb k p) eqn:Hkp; cbn [negb].
    + apply Z.eqb_eq in Hkp. subst k. rewrite IH. destruct (Z.eqb p q); reflexivity.
    + cbn [idx_get]. rewrite IH. destruct (Z.eqb k q) eqn:Hkq; [|reflexivity].
      apply Z.eqb_eq in Hkq. subst k. rewrite Z.eqb_sym, Hkp. reflexivity.
Qed.
Lemma idx_get_insert : forall ix p v q,
  idx_get (idx_insert ix p v) q = if Z.eqb p q then Some v else idx_get ix q.
Proof.
  intros ix p v q. unfold idx_insert. rewrite idx_get_app, idx_get_remove. cbn [idx_get].
  destruct (Z.eqb p q); [reflexivity|]. destruct (idx_get ix q); reflexivity.
Qed.
Lemma idx_get_map : forall (f : nat -> nat) ix q,
  idx_get (map (fun kv => (fst kv, f (snd kv))) ix) q = option_map f (idx_get ix q).
Proof.
  intros f. induction ix as [|[k v] r IH]; intros q; cbn [map idx_get fst snd]; [reflexivity|].
  destruct (Z.eqb k q); [reflexivity|apply IH].
Qed.

Lemma update_nth_split : forall {A} (l : list A) i x f, nth_error l i = Some x ->
  exists l1 l2, l = l1 ++ x :: l2 /\ update_nth l i f = l1 ++ f x :: l2.
Proof.
  intros A. induction l as [|y r IH]; intros i x f H; destruct i; cbn [nth_error] in H; try discriminate.
  - inversion H; subst y. exists [], r. split; reflexivity.
  - destruct (IH i x f H) as [l1 [l2 [Hr Hu]]]. exists (y :: l1), l2.
    cbn [update_nth app]. rewrite Hu, <- Hr. split; reflexivity.
Qed.
Lemma map_remove_nth : forall {A B} (f : A -> B) l i, map f (remove_nth l i) = remove_nth (map f l) i.
Proof.
  intros A B f. induction l as [|x r IH]; intros i; destruct i; cbn [remove_nth map]; try reflexivity.
  rewrite IH. reflexivity.
Qed.
Lemma In_remove_nth : forall {A} (l : list A) i x, In x (remove_nth l i) -> In x l.
Proof.
  intros A. induction l as [|y r IH]; intros i x H; destruct i; cbn [remove_nth] in H; cbn [In] in *; auto.
  destruct H as [H|H]; [auto|right; eapply IH; exact H].
Qed.
Lemma NoDup_remove_nth : forall {A} (l : list A) i, NoDup l -> NoDup (remove_nth l i).
Proof.
  intros A. induction l as [|y r IH]; intros i H; destruct i; cbn [remove_nth]; try assumption.
  - inversion H; assumption.
  - inversion H as [|? ? Hy Hr]; subst. constructor; [|apply IH; exact Hr].
    intros Hin. apply Hy. eapply In_remove_nth. exact Hin.
Qed.
Lemma remove_nth_In : forall ns p i n, NoDup (map nid ns) -> position p (map nid ns) = Some i ->
  (In n (remove_nth ns i) <-> In n ns /\ nid n <> p).
Proof.
  induction ns as [|m r IH]; intros p i n Hnd Hp; cbn [map position] in Hp; [discriminate|].
  cbn [map] in Hnd. inversion Hnd as [|? ? Hm Hr]; subst.
  destruct (Z.eqb (nid m) p) eqn:He.
  - apply Z.eqb_eq in He. inversion Hp; subst i. cbn [remove_nth In]. split.
    + intros Hin. split; [right; exact Hin|]. intros Hn. apply Hm. rewrite He, <- Hn. apply in_map. exact Hin.
    + intros [[->|Hin] Hn]; [contradiction|exact Hin].
  - apply Z.eqb_neq in He. destruct (position p (map nid r)) as [j|] eqn:Hj; cbn [option_map] in Hp; [|discriminate].
    inversion Hp; subst i. cbn [remove_nth In]. rewrite (IH p j n Hr Hj). split.
    + intros [->|[Hin Hn]]; auto.
    + intros [[->|Hin] Hn]; auto.
Qed.
Lemma map_nid_strip : forall p l, map nid (map (strip_dep p) l) = map nid l.
Proof. intros p l. rewrite map_map. apply map_ext. reflexivity. Qed.
Lemma map_nid_rename : forall a b l, map nid (map (rename_node a b) l) = map (ren a b) (map nid l).
Proof. intros a b l. rewrite !map_map. apply map_ext. intros n. reflexivity. Qed.

Lemma NoDup_map_ren : forall old new l, NoDup l -> ~ In new l -> NoDup (map (ren old new) l).
Proof.
  intros old new l Hnd Hn. induction Hnd as [|x r Hx Hr IH]; cbn [map]; [constructor|].
  assert (Hr' : ~ In new r) by (intros H; apply Hn; right; exact H).
  assert (Hxn : x <> new) by (intros ->; apply Hn; left; reflexivity).
  constructor; [|apply IH; exact Hr'].
  rewrite in_map_iff. intros [y [Hy Hyr]]. unfold ren in Hy.
  destruct (Z.eqb y old) eqn:H1; destruct (Z.eqb x old) eqn:H2.
  - apply Z.eqb_eq in H1. apply Z.eqb_eq in H2. apply Hx. rewrite H2, <- H1. exact Hyr.
  - apply Hxn. symmetry. exact Hy.
  - apply Hr'. rewrite <- Hy. exact Hyr.
  - apply Hx. rewrite <- Hy. exact Hyr.
Qed.

Lemma find_node_position : forall ns p,
  find_node ns p = match position p (map nid ns) with Some i => nth_error ns i | None => None end.
Proof.
  induction ns as [|n r IH]; intros p; unfold find_node; cbn [find map position]; [reflexivity|].
  destruct (Z.eqb (nid n) p); [reflexivity|]. fold (find_node r p). rewrite IH.
  destruct (position p (map nid r)); reflexivity.
Qed.
Lemma position_node : forall ns p i, position p (map nid ns) = Some i ->
  exists n, nth_error ns i = Some n /\ nid n = p.
Proof.
  intros ns p i H. apply position_nth in H. rewrite nth_error_map in H.
  destruct (nth_error ns i) as [n|]; [|discriminate]. exists n. split; [reflexivity|].
  inversion H. reflexivity.
Qed.
Lemma find_node_Some : forall ns p n, find_node ns p = Some n -> In n ns /\ nid n = p.
Proof. intros ns p n H. pose proof (find_node_cases ns p) as Hc. rewrite H in Hc. exact Hc. Qed.
Lemma find_node_ids : forall ns p n, find_node ns p = Some n -> In p (map nid ns).
Proof. intros ns p n H. apply find_node_Some in H. destruct H as [Hn <-]. apply in_map. exact Hn. Qed.
Lemma find_node_None : forall ns p, find_node ns p = None <-> ~ In p (map nid ns).
Proof.
  intros ns p. pose proof (find_node_cases ns p) as Hc. destruct (find_node ns p) as [n|].
  - destruct Hc as [Hn <-]. split; [discriminate|]. intros H. exfalso. apply H. apply in_map. exact Hn.
  - tauto.
Qed.

Lemma edges_found : forall ns a n d, NoDup (map nid ns) -> find_node ns a = Some n ->
  (In (a, d) (edges_of ns) <-> In d (ndeps n)).
Proof.
  intros ns a n d Hnd Hf. rewrite edges_of_In. split.
  - intros [m [Hm [Ha Hd]]]. subst a. rewrite (find_node_unique ns m Hnd Hm) in Hf. inversion Hf; subst. exact Hd.
  - intros Hd. apply find_node_Some in Hf. destruct Hf as [Hin Hid]. exists n. auto.
Qed.
Lemma edges_notfound : forall ns a d, find_node ns a = None -> ~ In (a, d) (edges_of ns).
Proof.
  intros ns a d Hf H. apply edges_of_In in H. destruct H as [n [Hn [Ha _]]].
  apply find_node_None in Hf. apply Hf. subst a. apply in_map. exact Hn.
Qed.
Lemma edges_find : forall ns a x, NoDup (map nid ns) ->
  (In (a, x) (edges_of ns) <-> exists n, find_node ns a = Some n /\ In x (ndeps n)).
Proof.
  intros ns a x Hnd. destruct (find_node ns a) as [n|] eqn:Hf.
  - rewrite (edges_found ns a n x Hnd Hf). split; [intros H; exists n; auto|].
    intros [m [Hm Hx]]. inversion Hm; subst. exact Hx.
  - split; [intros H; exfalso; eapply edges_notfound; eassumption|]. intros [m [Hm _]]. discriminate.
Qed.

Lemma rg_eq_refl : forall g, rg_eq g g.
Proof. intros g. split; intros x; tauto. Qed.

Lemma perm_set_eq : forall {A} (a b : list A), Permutation a b -> set_eq a b.
Proof. intros A a b Hp x. split; apply Permutation_in; [exact Hp|apply Permutation_sym; exact Hp]. Qed.

Lemma edges_of_perm : forall ns ns', Permutation ns ns' -> set_eq (edges_of ns) (edges_of ns').
Proof.
  intros ns ns' Hp [a x]. rewrite !edges_of_In.
  split; intros [n [Hn H]]; exists n; (split; [apply (perm_set_eq _ _ Hp); exact Hn|exact H]).
Qed.

Definition push_dep (d : Z) (n : node) : node := {| nid := nid n; ndeps := set_insert d (ndeps n) |}.

Lemma In_edges_insert : forall (a d : Z) l e,
  In e (map (fun x => (a, x)) (set_insert d l)) <-> e = (a, d) \/ In e (map (fun x => (a, x)) l).
Proof.
  intros a d l e. rewrite !in_map_iff. split.
  - intros [x [<- Hx]]. apply set_insert_In in Hx.
    destruct Hx as [->|Hx]; [left; reflexivity|right; exists x; auto].
  - intros [->|[x [<- Hx]]]; [exists d|exists x]; (split; [reflexivity|apply set_insert_In; auto]).
Qed.

Lemma push_dep_edges : forall ns i n d, nth_error ns i = Some n ->
  map nid (update_nth ns i (push_dep d)) = map nid ns /\
  forall e, In e (edges_of (update_nth ns i (push_dep d))) <-> e = (nid n, d) \/ In e (edges_of ns).
Proof.
  intros ns i n d Hn. destruct (update_nth_split ns i n (push_dep d) Hn) as [l1 [l2 [-> ->]]].
  split; [rewrite !map_app; reflexivity|].
  intros e. unfold edges_of. rewrite !flat_map_app. cbn [flat_map push_dep nid ndeps].
  rewrite !in_app_iff, In_edges_insert. tauto.
Qed.

Lemma index_inv_empty : index_inv empty.
Proof. split; [constructor|reflexivity]. Qed.

Lemma get_node_spec : forall g p, index_inv g -> get_node g p = Ok (find_node (nodes g) p).
Proof.
  intros g p [Hnd Hi]. unfold get_node. rewrite Hi, find_node_position.
  destruct (position p (map nid (nodes g))) as [i|] eqn:Hp; [|reflexivity].
  destruct (position_node _ _ _ Hp) as [n [-> _]]. reflexivity.
Qed.

Definition deep_any (f : nat) (g : graph) (target : Z) :=
  fix any (ds : list Z) (vis : list Z) {struct ds} : res (bool * list Z) :=
    match ds with
    | [] => Ok (false, vis)
    | d :: ds' =>
      do r <- deep_ f g target d vis;
      if fst r then Ok r else any ds' (snd r)
    end.

Lemma deep_unfold : forall f g t p vis,
  deep_ (S f) g t p vis =
    if memz p vis then Ok (false, vis)
    else do on <- get_node g p;
         match on with
         | None => Ok (false, p :: vis)
         | Some n => if memz t (ndeps n) then Ok (true, p :: vis)
                     else deep_any f g t (ndeps n) (p :: vis)
         end.
Proof. reflexivity. Qed.

Lemma deep_any_nil : forall f g t vis, deep_any f g t [] vis = Ok (false, vis).
Proof. reflexivity. Qed.
Lemma deep_any_cons : forall f g t d ds vis,
  deep_any f g t (d :: ds) vis = do r <- deep_ f g t d vis; if fst r then Ok r else deep_any f g t ds (snd r).
Proof. reflexivity. Qed.

Definition cnt (g : graph) (vis : list Z) : nat := unseen (map nid (nodes g)) vis.

Lemma cnt_le : forall g vis, (cnt g vis <= length (nodes g))%nat.
Proof. intros. rewrite <- (map_length nid (nodes g)). apply unseen_le. Qed.
Lemma cnt_mono : forall g v1 v2, incl v1 v2 -> (cnt g v2 <= cnt g v1)%nat.
Proof. intros g v1 v2 Hi. apply unseen_mono. exact Hi. Qed.
Lemma cnt_cons : forall g p vis, In p (map nid (nodes g)) -> ~ In p vis -> (cnt g (p :: vis) < cnt g vis)%nat.
Proof.
  intros g p vis Hin Hn. apply unseen_lt with (p := p); [apply incl_tl, incl_refl|exact Hin|exact Hn|].
  left. reflexivity.
Qed.
Lemma cnt_fuel : forall g, (cnt g [] < fuel_of g)%nat.
Proof. intros g. unfold fuel_of. pose proof (cnt_le g []). lia. Qed.

Section Deep.
Variable g : graph.
Variable t : Z.
Hypothesis Hinv : index_inv g.
Let EE := edges_of (nodes g).

(* every node added to the visited set during a call that answered [false] has no edge to the target
   and all its successors are visited *)
Definition closed_part (vis vis' : list Z) : Prop :=
  forall x, In x vis' -> ~ In x vis -> ~ In (x, t) EE /\ forall d, In (x, d) EE -> In d vis'.

Definition deep_post (p : Z) (vis : list Z) (b : bool) (vis' : list Z) : Prop :=
  incl vis vis' /\ if b then reach EE p t else In p vis' /\ closed_part vis vis'.

Definition any_post (ds : list Z) (vis : list Z) (b : bool) (vis' : list Z) : Prop :=
  incl vis vis' /\
  if b then exists d, In d ds /\ reach EE d t else (forall d, In d ds -> In d vis') /\ closed_part vis vis'.

Lemma closed_part_refl : forall vis, closed_part vis vis.
Proof. intros vis x H1 H2. contradiction. Qed.

Lemma closed_part_trans : forall v0 v1 v2, incl v1 v2 -> closed_part v0 v1 -> closed_part v1 v2 -> closed_part v0 v2.
Proof.
  intros v0 v1 v2 Hi H1 H2 x Hx Hn. destruct (in_dec Z.eq_dec x v1) as [Hin|Hnin].
  - destruct (H1 x Hin Hn) as [Ha Hb]. split; [exact Ha|]. intros d Hd. apply Hi. apply Hb. exact Hd.
  - apply H2; assumption.
Qed.

Lemma any_spec : forall f,
  (forall p vis, (cnt g vis < f)%nat -> exists b vis', deep_ f g t p vis = Ok (b, vis') /\ deep_post p vis b vis') ->
  forall ds vis, (cnt g vis < f)%nat ->
    exists b vis', deep_any f g t ds vis = Ok (b, vis') /\ any_post ds vis b vis'.
Proof.
  intros f IHf. induction ds as [|d ds IHds]; intros vis Hc.
  - exists false, vis. split; [reflexivity|]. split; [apply incl_refl|].
    split; [intros d []|apply closed_part_refl].
  - destruct (IHf d vis Hc) as [b1 [v1 [H1 [Hi1 Hp1]]]].
    rewrite deep_any_cons, H1. cbn [bind fst snd]. destruct b1.
    + exists true, v1. split; [reflexivity|]. split; [exact Hi1|].
      exists d. split; [left; reflexivity|exact Hp1].
    + assert (Hc1 : (cnt g v1 < f)%nat) by (pose proof (cnt_mono g vis v1 Hi1); lia).
      destruct (IHds v1 Hc1) as [b2 [v2 [H2 [Hi2 Hp2]]]]. destruct Hp1 as [Hd1 Hcl1].
      exists b2, v2. split; [exact H2|]. split; [eapply incl_tran; eassumption|]. destruct b2.
      * destruct Hp2 as [d' [Hd' Hr]]. exists d'. split; [right; exact Hd'|exact Hr].
      * destruct Hp2 as [Hds Hcl2]. split.
        -- intros d0 [<-|Hd0]; [apply Hi2; exact Hd1|apply Hds; exact Hd0].
        -- exact (closed_part_trans vis v1 v2 Hi2 Hcl1 Hcl2).
Qed.

Lemma deep_spec : forall f p vis, (cnt g vis < f)%nat ->
  exists b vis', deep_ f g t p vis = Ok (b, vis') /\ deep_post p vis b vis'.
Proof.
  induction f as [|f IHf]; intros p vis Hc; [lia|].
  rewrite deep_unfold. destruct (memz p vis) eqn:Hpv.
  - exists false, vis. split; [reflexivity|]. split; [apply incl_refl|].
    split; [apply memz_In; exact Hpv|apply closed_part_refl].
  - apply memz_false in Hpv. rewrite (get_node_spec g p Hinv). cbn [bind].
    destruct (find_node (nodes g) p) as [n|] eqn:Hf.
    + pose proof (fun d => edges_found _ _ _ d (proj1 Hinv) Hf) as He. fold EE in He.
      destruct (memz t (ndeps n)) eqn:Ht.
      * exists true, (p :: vis). split; [reflexivity|]. split; [apply incl_tl, incl_refl|].
        apply reach_edge. apply He. apply memz_In. exact Ht.
      * apply memz_false in Ht.
        pose proof (find_node_ids _ _ _ Hf) as Hpin.
        assert (Hc' : (cnt g (p :: vis) < f)%nat) by (pose proof (cnt_cons g p vis Hpin Hpv); lia).
        destruct (any_spec f IHf (ndeps n) (p :: vis) Hc') as [b [v' [H [Hi Hp]]]].
        exists b, v'. split; [exact H|]. split; [intros x Hx; apply Hi; right; exact Hx|]. destruct b.
        -- destruct Hp as [d [Hd Hr]]. eapply reach_step; [|exact Hr]. apply He. exact Hd.
        -- destruct Hp as [Hds Hcl]. split; [apply Hi; left; reflexivity|].
           intros x Hx Hnx. destruct (Z.eq_dec x p) as [->|Hxp].
           ++ split; [rewrite He; exact Ht|]. intros d Hd. apply Hds. apply He. exact Hd.
           ++ apply Hcl; [exact Hx|]. intros [Hh|Hh]; [apply Hxp; symmetry; exact Hh|apply Hnx; exact Hh].
    + exists false, (p :: vis). split; [reflexivity|]. split; [apply incl_tl, incl_refl|].
      split; [left; reflexivity|]. intros x [Hx|Hx] Hnx; [subst x|contradiction].
      split; [apply edges_notfound; exact Hf|]. intros d He. exfalso. eapply edges_notfound; eassumption.
Qed.

Lemma closed_part_no_reach : forall S, closed_part [] S -> forall x, reach EE x t -> In x S -> False.
Proof.
  intros S Hcl x Hr Hin.
  assert (Hsc : succ_closed EE S) by (intros a b Ha; apply (Hcl a Ha (fun H => H))).
  apply reach_last in Hr. destruct Hr as [c [Hc Hct]].
  assert (Hcs : In c S) by (destruct Hc as [->|Hc]; [exact Hin|exact (succ_closed_reach EE S Hsc x c Hc Hin)]).
  exact (proj1 (Hcl c Hcs (fun H => H)) Hct).
Qed.

Lemma deep_depends_on_reachb : forall a, deep_depends_on g a t = Ok (reachb EE a t).
Proof.
  intros a. unfold deep_depends_on.
  destruct (deep_spec (fuel_of g) a [] (cnt_fuel g)) as [b [v' [H [Hi Hp]]]].
  rewrite H. cbn [bind fst]. f_equal. apply eq_true_iff_eq. rewrite reachb_spec. destruct b; [tauto|].
  destruct Hp as [Hin Hcl]. split; [discriminate|]. intros Hr. exfalso.
  eapply closed_part_no_reach; eassumption.
Qed.
End Deep.

Lemma reach_dec : forall E a b, {reach E a b} + {~ reach E a b}.
Proof.
  intros E a b. destruct (reachb E a b) eqn:H.
  - left. apply reachb_spec. exact H.
  - right. intros Hr. apply reachb_spec in Hr. congruence.
Qed.

Lemma reach_set_eq : forall E1 E2 a b, set_eq E1 E2 -> (reach E1 a b <-> reach E2 a b).
Proof. intros E1 E2 a b He. split; apply reach_mono; intros e Hin; apply He; exact Hin. Qed.

Local Notation ids g := (map nid (nodes g)).
Local Notation eds g := (edges_of (nodes g)).

(** The concrete graph [g] represents the reference graph [rg]: the index is sound and the two have the same ids and
    edges, as sets.  Queries answer alike on both, and every operation carries the relation along ([step_R]).
    [abs g] has [ids g] and [eds g] for its fields, so [R g rg] is [index_inv g /\ rg_eq (abs g) rg] by computation. *)
Definition R (g : graph) (rg : rgraph) : Prop := index_inv g /\ set_eq (ids g) (V rg) /\ set_eq (eds g) (E rg).

Lemma R_abs : forall g, index_inv g -> R g (abs g).
Proof. intros g H. split; [exact H|exact (rg_eq_refl (abs g))]. Qed.

Lemma q_deep_agree : forall g rg a b, R g rg -> deep_depends_on g a b = Ok (q_deep rg a b).
Proof.
  intros g rg a b [Hi [_ HE]]. rewrite (deep_depends_on_reachb g b Hi a). f_equal. unfold q_deep.
  apply eq_true_iff_eq. rewrite !reachb_spec. apply reach_set_eq. exact HE.
Qed.
Lemma q_depends_on_agree : forall g rg a b, R g rg -> depends_on g a b = Ok (q_depends_on rg a b).
Proof.
  intros g rg a b [Hi [_ HE]]. unfold depends_on, q_depends_on. rewrite (get_node_spec g a Hi). cbn [bind]. f_equal.
  apply eq_true_iff_eq. rewrite meme_In, <- (HE (a, b)).
  rewrite (edges_find _ a b (proj1 Hi)). destruct (find_node (nodes g) a) as [n|].
  - rewrite memz_In. split; [intros H; exists n; auto|]. intros [m [Hm Hb]]. inversion Hm; subst. exact Hb.
  - split; [discriminate|]. intros [m [Hm _]]. discriminate.
Qed.
Lemma q_children_agree : forall g rg p, R g rg -> set_eq (children g p) (q_children rg p).
Proof.
  intros g rg p [_ [_ HE]] x. unfold children, q_children. rewrite !in_map_iff. split.
  - intros [n [Hx Hn]]. apply filter_In in Hn. destruct Hn as [Hn Hp]. apply memz_In in Hp.
    exists (x, p). split; [reflexivity|]. apply filter_In. cbn [snd]. split; [|apply Z.eqb_refl].
    apply HE, edges_of_In. exists n. auto.
  - intros [[u v] [Hx He]]. apply filter_In in He. destruct He as [He Hv]. cbn [fst snd] in *.
    apply Z.eqb_eq in Hv. subst u v. apply (proj2 (HE _)), edges_of_In in He. destruct He as [n [Hn [Hid Hp]]].
    exists n. split; [exact Hid|]. apply filter_In. split; [exact Hn|apply memz_In; exact Hp].
Qed.
Lemma q_parents_agree : forall g rg p, R g rg ->
  exists o, parents g p = Ok o /\ opt_set_eq o (q_parents rg p).
Proof.
  intros g rg p [Hi [HV HE]]. unfold parents, q_parents. rewrite (get_node_spec g p Hi). cbn [bind].
  eexists. split; [reflexivity|]. destruct (find_node (nodes g) p) as [n|] eqn:Hf; cbn [option_map].
  - assert (Hm : memz p (V rg) = true) by (apply memz_In, HV; exact (find_node_ids _ _ _ Hf)).
    rewrite Hm. cbn [opt_set_eq]. intros x. rewrite succs_In, <- (HE (p, x)). symmetry.
    exact (edges_found _ p n x (proj1 Hi) Hf).
  - apply find_node_None in Hf. assert (Hm : memz p (V rg) = false) by (apply memz_false; intros H; apply Hf, HV, H).
    rewrite Hm. exact I.
Qed.

Definition anc_each (f : nat) (g : graph) :=
  fix each (ps : list Z) (anc vis : list Z) {struct ps} : res (list Z * list Z) :=
    match ps with
    | [] => Ok (anc, vis)
    | q :: ps' =>
      if memz q anc then each ps' anc vis
      else do r <- ancestors_ f g q (anc ++ [q]) vis; each ps' (fst r) (snd r)
    end.
Lemma anc_unfold : forall f g p anc vis,
  ancestors_ (S f) g p anc vis =
    if memz p vis then Ok (anc, vis)
    else do on <- get_node g p;
         match on with
         | None => Ok (anc, p :: vis)
         | Some n => anc_each f g (ndeps n) anc (p :: vis)
         end.
Proof. reflexivity. Qed.
Lemma anc_each_cons : forall f g q ps anc vis,
  anc_each f g (q :: ps) anc vis =
    if memz q anc then anc_each f g ps anc vis
    else do r <- ancestors_ f g q (anc ++ [q]) vis; anc_each f g ps (fst r) (snd r).
Proof. reflexivity. Qed.

(** What ModuleGraph::ancestors computes: a duplicate-free list of exactly the nodes reachable from the start node.
    [apost p]: what a call at [p] adds to [anc] is reachable from [p] and visited, and what it adds to [vis] has all
    its dependencies in [anc]. *)
Section Anc.
Variable g : graph.
Hypothesis Hinv : index_inv g.
Let EE := edges_of (nodes g).

Definition apost (p : Z) (anc vis anc' vis' : list Z) : Prop :=
  incl anc anc' /\ incl vis vis' /\ (NoDup anc -> NoDup anc') /\
  (forall x, In x vis' -> ~ In x vis -> forall d, In (x, d) EE -> In d anc') /\
  (forall y, In y anc' -> ~ In y anc -> In y vis' /\ reach EE p y).

Lemma apost_refl : forall p anc vis, apost p anc vis anc vis.
Proof.
  intros p anc vis. split; [apply incl_refl|]. split; [apply incl_refl|]. split; [auto|].
  split; intros x H1 H2; contradiction.
Qed.

Lemma apost_trans : forall p a1 v1 a2 v2 a3 v3, apost p a1 v1 a2 v2 -> apost p a2 v2 a3 v3 -> apost p a1 v1 a3 v3.
Proof.
  intros p a1 v1 a2 v2 a3 v3 [Hi2 [Hv2 [Hn2 [Hc2 Hy2]]]] [Hi3 [Hv3 [Hn3 [Hc3 Hy3]]]].
  split; [eapply incl_tran; eassumption|]. split; [eapply incl_tran; eassumption|]. split; [auto|]. split.
  - intros x Hx Hnx d Hd. destruct (in_dec Z.eq_dec x v2) as [Hin|Hnin].
    + apply Hi3. eapply Hc2; eassumption.
    + eapply Hc3; eassumption.
  - intros y Hy Hny. destruct (in_dec Z.eq_dec y a2) as [Hin|Hnin]; [|apply Hy3; assumption].
    destruct (Hy2 y Hin Hny) as [A B]. split; [apply Hv3; exact A|exact B].
Qed.

(** the dependency [q] of [src] is appended before it is visited *)
Lemma apost_snoc : forall anc vis q src a2 v2, apost q (anc ++ [q]) vis a2 v2 -> ~ In q anc -> In q v2 ->
  In (src, q) EE -> apost src anc vis a2 v2.
Proof.
  intros anc vis q src a2 v2 [Hi [Hv [Hn [Hc Hy]]]] Hq Hqv He.
  split; [intros x Hx; apply Hi, in_or_app; left; exact Hx|]. split; [exact Hv|].
  split; [intros Hnd; apply Hn, NoDup_snoc; assumption|]. split; [exact Hc|].
  intros y Hy' Hny. destruct (Z.eq_dec y q) as [->|Hne]; [split; [exact Hqv|apply reach_edge; exact He]|].
  destruct (Hy y Hy') as [A B]; [|split; [exact A|eapply reach_step; eassumption]].
  intros H. apply in_app_or in H. destruct H as [H|[H|[]]]; [contradiction|congruence].
Qed.

Lemma anc_each_spec : forall f,
  (forall p anc vis, (cnt g vis < f)%nat ->
     exists anc' vis', ancestors_ f g p anc vis = Ok (anc', vis') /\ apost p anc vis anc' vis' /\ In p vis') ->
  forall src ps anc vis, (cnt g vis < f)%nat -> (forall q, In q ps -> In (src, q) EE) ->
    exists anc' vis', anc_each f g ps anc vis = Ok (anc', vis') /\ apost src anc vis anc' vis' /\
                      (forall q, In q ps -> In q anc').
Proof.
  intros f IHf src. induction ps as [|q ps IHps]; intros anc vis Hc Hsrc.
  - exists anc, vis. split; [reflexivity|]. split; [apply apost_refl|]. intros q [].
  - assert (Hsrc' : forall q0, In q0 ps -> In (src, q0) EE) by (intros q0 H0; apply Hsrc; right; exact H0).
    rewrite anc_each_cons. destruct (memz q anc) eqn:Hq.
    + destruct (IHps anc vis Hc Hsrc') as [a' [v' [H [Hp Hall]]]]. exists a', v'. split; [exact H|]. split; [exact Hp|].
      intros q0 [<-|Hq0]; [|apply Hall; exact Hq0]. apply (proj1 Hp). apply memz_In. exact Hq.
    + apply memz_false in Hq. destruct (IHf q (anc ++ [q]) vis Hc) as [a2 [v2 [H2 [P2 Hq2]]]].
      rewrite H2. cbn [bind fst snd].
      assert (Hcnt : (cnt g v2 < f)%nat) by (pose proof (cnt_mono g vis v2 (proj1 (proj2 P2))); lia).
      destruct (IHps a2 v2 Hcnt Hsrc') as [a3 [v3 [H3 [P3 Hall]]]].
      exists a3, v3. split; [exact H3|]. split.
      * eapply apost_trans; [|exact P3]. apply (apost_snoc anc vis q src); [exact P2|exact Hq|exact Hq2|].
        apply Hsrc. left. reflexivity.
      * intros q0 [<-|Hq0]; [|apply Hall; exact Hq0]. apply (proj1 P3), (proj1 P2), in_or_app. right. left. reflexivity.
Qed.

Lemma anc_spec : forall f p anc vis, (cnt g vis < f)%nat ->
  exists anc' vis', ancestors_ f g p anc vis = Ok (anc', vis') /\ apost p anc vis anc' vis' /\ In p vis'.
Proof.
  induction f as [|f IHf]; intros p anc vis Hc; [lia|].
  rewrite anc_unfold. destruct (memz p vis) eqn:Hpv.
  - exists anc, vis. split; [reflexivity|]. split; [apply apost_refl|apply memz_In; exact Hpv].
  - apply memz_false in Hpv. rewrite (get_node_spec g p Hinv). cbn [bind].
    destruct (find_node (nodes g) p) as [n|] eqn:Hf.
    + pose proof (find_node_ids _ _ _ Hf) as Hpin.
      assert (Hc' : (cnt g (p :: vis) < f)%nat) by (pose proof (cnt_cons g p vis Hpin Hpv); lia).
      assert (Hsrc : forall q, In q (ndeps n) <-> In (p, q) EE) by (intros q; symmetry; apply (edges_found _ _ _ _ (proj1 Hinv) Hf)).
      destruct (anc_each_spec f IHf p (ndeps n) anc (p :: vis) Hc' (fun q => proj1 (Hsrc q))) as [a' [v' [H [[Hi [Hv [Hn [Hcl Hy]]]] Hall]]]].
      exists a', v'. split; [exact H|]. split; [|apply Hv; left; reflexivity].
      split; [exact Hi|]. split; [intros x Hx; apply Hv; right; exact Hx|]. split; [exact Hn|]. split; [|exact Hy].
      intros x Hx Hnx d Hd. destruct (Z.eq_dec x p) as [->|Hxp]; [apply Hall, Hsrc; exact Hd|].
      eapply Hcl; [exact Hx| |exact Hd]. intros [Hh|Hh]; [apply Hxp; symmetry; exact Hh|contradiction].
    + exists anc, (p :: vis). split; [reflexivity|]. split; [|left; reflexivity].
      split; [apply incl_refl|]. split; [apply incl_tl, incl_refl|]. split; [auto|]. split.
      * intros x [Hx|Hx] Hnx d Hd; [subst x|contradiction]. exfalso. eapply edges_notfound; eassumption.
      * intros y H1 H2. contradiction.
Qed.

Lemma ancestors_spec : forall p, exists l, ancestors g p = Ok l /\ NoDup l /\ forall y, In y l <-> reach EE p y.
Proof.
  intros p. unfold ancestors.
  destruct (anc_spec (fuel_of g) p [] [] (cnt_fuel g)) as [a [v [H [[Hi [Hv [Hn [Hcl Hy]]]] Hp]]]].
  rewrite H. cbn [bind fst]. exists a. split; [reflexivity|]. split; [apply Hn; constructor|].
  intros y. split; [intros Hyin; apply Hy; [exact Hyin|intros []]|].
  (* [a] holds the dependencies of [p], and those of its members, which are all visited *)
  intros Hr. destruct (reach_first _ _ _ Hr) as [c [He Hc]].
  assert (Hca : In c a) by (eapply Hcl; [exact Hp|intros []|exact He]).
  destruct Hc as [->|Hc]; [exact Hca|]. apply (succ_closed_reach EE a) with (c := c); [|exact Hc|exact Hca].
  intros x d Hx Hd. eapply Hcl; [apply Hy; [exact Hx|intros []]|intros []|exact Hd].
Qed.

End Anc.

Lemma index_inv_add : forall g p, index_inv g -> index_inv (add_node_if_none g p).
Proof.
  intros g p Hinv. unfold add_node_if_none. destruct (idx_get (index g) p) eqn:Hg; [exact Hinv|].
  destruct Hinv as [Hnd Hi]. rewrite Hi in Hg. pose proof (proj1 (position_None_iff _ _) Hg) as Hnin.
  split; cbn [nodes index].
  - rewrite map_app. cbn [map nid]. apply NoDup_snoc; assumption.
  - intros q. rewrite idx_get_insert, map_app, position_app. cbn [map nid position]. rewrite Hi.
    destruct (Z.eqb p q) eqn:Hpq.
    + apply Z.eqb_eq in Hpq. subst q. rewrite Hg. cbn [option_map]. rewrite map_length. f_equal. lia.
    + destruct (position q (map nid (nodes g))); reflexivity.
Qed.

Lemma add_node_ids : forall g p, index_inv g ->
  set_eq (map nid (nodes (add_node_if_none g p))) (p :: map nid (nodes g)).
Proof.
  intros g p [Hnd Hi] x. unfold add_node_if_none. destruct (idx_get (index g) p) eqn:Hg; cbn [nodes].
  - rewrite Hi in Hg. apply position_Some_In in Hg. cbn [In]. split; [auto|]. intros [<-|H]; assumption.
  - rewrite map_app, in_app_iff. cbn [map nid In]. tauto.
Qed.
Lemma add_node_edges : forall g p, edges_of (nodes (add_node_if_none g p)) = edges_of (nodes g).
Proof.
  intros g p. unfold add_node_if_none. destruct (idx_get (index g) p); [reflexivity|]. cbn [nodes].
  unfold edges_of. rewrite flat_map_app. cbn [flat_map ndeps map app]. apply app_nil_r.
Qed.

(** inc_ref and r_inc decide alike: the edge r -> d closes a cycle (and is refused), or is added *)
Definition closes (E : list (Z * Z)) (r d : Z) : bool := negb (Z.eqb r d) && reachb E d r.
Definition adds (E : list (Z * Z)) (r d : Z) : bool := negb (Z.eqb r d) && negb (reachb E d r).

Lemma closes_spec : forall E r d, closes E r d = true <-> r <> d /\ reach E d r.
Proof. intros. unfold closes. rewrite andb_true_iff, negb_true_iff, Z.eqb_neq, reachb_spec. reflexivity. Qed.
Lemma adds_spec : forall E r d, adds E r d = true <-> r <> d /\ ~ reach E d r.
Proof.
  intros. unfold adds. rewrite andb_true_iff, !negb_true_iff, Z.eqb_neq, <- not_true_iff_false, reachb_spec. reflexivity.
Qed.
Lemma closes_set_eq : forall E1 E2 r d, set_eq E1 E2 -> closes E1 r d = closes E2 r d.
Proof.
  intros E1 E2 r d He. unfold closes. f_equal. apply eq_true_iff_eq. rewrite !reachb_spec. apply reach_set_eq, He.
Qed.
Lemma adds_set_eq : forall E1 E2 r d, set_eq E1 E2 -> adds E1 r d = adds E2 r d.
Proof.
  intros E1 E2 r d He. unfold adds. do 2 f_equal. apply eq_true_iff_eq. rewrite !reachb_spec. apply reach_set_eq, He.
Qed.

Lemma r_inc_eq : forall rg r d,
  fst (r_inc rg r d) = (if closes (E rg) r d then 1 else 0) /\
  V (snd (r_inc rg r d)) = set_insert r (V rg) /\
  forall e, In e (E (snd (r_inc rg r d))) <-> In e (E rg) \/ (adds (E rg) r d = true /\ e = (r, d)).
Proof.
  intros rg r d. unfold r_inc, closes, adds, r_add. cbn [E V].
  destruct (Z.eqb r d); [|destruct (reachb (E rg) d r)]; cbn [negb andb fst snd V E].
  1, 2: split; [reflexivity|split; [reflexivity|intros e; split; [auto|intros [H|[H _]]; [exact H|discriminate H]]]].
  split; [reflexivity|]. split; [reflexivity|]. intros e. rewrite (In_adjoin meme meme_In (r, d) (E rg) e). intuition auto.
Qed.

Lemma inc_ref_eq : forall g r d, index_inv g ->
  exists c g2, inc_ref g r d = Ok (c, g2) /\ index_inv g2 /\
    inc_code c = (if closes (eds g) r d then 1 else 0) /\
    (forall x, In x (ids g2) <-> x = r \/ In x (ids g)) /\
    (forall e, In e (eds g2) <-> In e (eds g) \/ (adds (eds g) r d = true /\ e = (r, d))) /\
    (c = IncCycle -> g2 = add_node_if_none g r).
Proof.
  intros g r d Hinv. set (g1 := add_node_if_none g r).
  pose proof (index_inv_add g r Hinv) as Hinv1. fold g1 in Hinv1.
  assert (Hids : forall x, In x (ids g1) <-> x = r \/ In x (ids g)).
  { intros x. unfold g1. rewrite (add_node_ids g r Hinv x). cbn [In]. intuition auto. }
  assert (Hed : eds g1 = eds g) by apply add_node_edges.
  unfold inc_ref, closes, adds. fold g1. rewrite (deep_depends_on_reachb g1 r Hinv1 d), Hed. cbn [bind].
  (* a self-import or a refused one leaves [g1] *)
  assert (Hsame : forall c, exists c0 g2, Ok (c, g1) = Ok (c0, g2) /\ index_inv g2 /\ inc_code c0 = inc_code c /\
              (forall x, In x (ids g2) <-> x = r \/ In x (ids g)) /\
              (forall e, In e (eds g2) <-> In e (eds g) \/ (false = true /\ e = (r, d))) /\
              (c0 = IncCycle -> g2 = add_node_if_none g r)).
  { intros c. exists c, g1. split; [reflexivity|]. split; [exact Hinv1|]. split; [reflexivity|]. split; [exact Hids|].
    split; [|reflexivity]. intros e. rewrite Hed. intuition discriminate. }
  destruct (Z.eqb r d); cbn [negb andb]; [exact (Hsame IncOk)|].
  destruct (reachb (eds g) d r); cbn [negb]; [exact (Hsame IncCycle)|].
  destruct Hinv1 as [Hnd1 Hi1]. destruct (position_In r (ids g1)) as [i Hp]; [apply Hids; left; reflexivity|].
  rewrite Hi1, Hp. destruct (position_node _ _ _ Hp) as [n [Hn Hid]]. rewrite Hn.
  destruct (push_dep_edges (nodes g1) i n d Hn) as [Hids' He]. exists IncOk. eexists. split; [reflexivity|].
  cbn [nodes index]. fold (push_dep d). split; [split; cbn [nodes index]; rewrite Hids'; assumption|].
  split; [reflexivity|]. split; [intros x; rewrite Hids'; apply Hids|]. split; [|discriminate].
  intros e. rewrite He, Hid, Hed. intuition auto.
Qed.

Lemma remove_total : forall g p, index_inv g -> exists g', remove g p = Ok g'.
Proof.
  intros g p [Hnd Hi]. unfold remove. destruct (idx_get (index g) p) as [i|] eqn:Hg; [|eexists; reflexivity].
  rewrite Hi in Hg. destruct (position_node _ _ _ Hg) as [n [Hn _]].
  assert (Hlt : (i < length (nodes g))%nat) by (apply nth_error_Some; congruence).
  apply Nat.ltb_lt in Hlt. rewrite Hlt. eexists; reflexivity.
Qed.

Lemma index_inv_remove : forall g p g', index_inv g -> remove g p = Ok g' -> index_inv g'.
Proof.
  intros g p g' Hinv H. unfold remove in H. destruct (idx_get (index g) p) as [i|] eqn:Hg.
  - destruct (Nat.ltb i (length (nodes g))) eqn:Hlt; [|discriminate]. inversion H; subst g'; clear H.
    destruct Hinv as [Hnd Hi]. rewrite Hi in Hg.
    split; cbn [nodes index]; rewrite map_nid_strip, map_remove_nth.
    + apply NoDup_remove_nth. exact Hnd.
    + intros q. rewrite (idx_get_map (fun v => if Nat.ltb i v then pred v else v)), idx_get_remove.
      rewrite (position_remove_nth _ p i q Hnd Hg), Hi.
      destruct (Z.eqb p q); reflexivity.
  - inversion H; subst g'; clear H. destruct Hinv as [Hnd Hi].
    split; cbn [nodes index]; rewrite map_nid_strip; assumption.
Qed.

Lemma remove_nodes : forall g p g' m, index_inv g -> remove g p = Ok g' ->
  (In m (nodes g') <-> exists n, In n (nodes g) /\ nid n <> p /\ m = strip_dep p n).
Proof.
  intros g p g' m [Hnd Hi] H. unfold remove in H. destruct (idx_get (index g) p) as [i|] eqn:Hg.
  - destruct (Nat.ltb i (length (nodes g))); [|discriminate]. inversion H; subst g'. cbn [nodes].
    rewrite Hi in Hg. rewrite in_map_iff. split.
    + intros [n [Hm Hn]]. apply (remove_nth_In _ p i n Hnd Hg) in Hn. destruct Hn as [Hn Hne]. exists n. auto.
    + intros [n [Hn [Hne Hm]]]. exists n. split; [auto|]. apply (remove_nth_In _ p i n Hnd Hg). auto.
  - inversion H; subst g'. cbn [nodes]. rewrite Hi in Hg. apply position_None_iff in Hg.
    rewrite in_map_iff. split.
    + intros [n [Hm Hn]]. exists n. split; [exact Hn|]. split; [|auto].
      intros He. apply Hg. rewrite <- He. apply in_map. exact Hn.
    + intros [n [Hn [_ Hm]]]. exists n. auto.
Qed.

Lemma remove_eq : forall g p, index_inv g ->
  exists g', remove g p = Ok g' /\ index_inv g' /\
    (forall x, In x (ids g') <-> In x (ids g) /\ x <> p) /\
    (forall e, In e (eds g') <-> In e (eds g) /\ fst e <> p /\ snd e <> p).
Proof.
  intros g p Hinv. destruct (remove_total g p Hinv) as [g' H]. exists g'. split; [exact H|].
  split; [exact (index_inv_remove g p g' Hinv H)|].
  pose proof (fun m => remove_nodes g p g' m Hinv H) as Hm. split.
  - intros y. rewrite !in_map_iff. split.
    + intros [m [Hy Hin]]. apply Hm in Hin. destruct Hin as [n [Hn [Hne ->]]]. cbn [strip_dep nid] in Hy.
      subst y. split; [exists n; auto|exact Hne].
    + intros [[n [Hy Hn]] Hne]. exists (strip_dep p n). split; [exact Hy|]. apply Hm. exists n. subst y. auto.
  - intros [a x]. cbn [fst snd]. rewrite !edges_of_In. split.
    + intros [m [Hin [Ha Hx]]]. apply Hm in Hin. destruct Hin as [n [Hn [Hne ->]]].
      cbn [strip_dep nid ndeps] in Ha, Hx. apply set_remove_In in Hx. subst a. split; [exists n; tauto|tauto].
    + intros [[n [Hn [Ha Hx]]] [Hap Hxp]]. exists (strip_dep p n). split; [apply Hm; exists n; subst a; auto|].
      cbn [strip_dep nid ndeps]. split; [exact Ha|]. apply set_remove_In. auto.
Qed.

Lemma op_ok_rename : forall g a b, op_ok g (ORename a b) = true -> ~ In b (map nid (nodes g)) /\ a <> b.
Proof.
  intros g a b H. cbn [op_ok] in H. apply andb_true_iff in H.
  rewrite !negb_true_iff, memz_false, Z.eqb_neq in H. exact H.
Qed.

Lemma index_inv_rename : forall g a b, index_inv g -> op_ok g (ORename a b) = true ->
  index_inv (rename_path g a b).
Proof.
  intros g a b [Hnd Hi] Hok. apply op_ok_rename in Hok. destruct Hok as [H1 _].
  split; unfold rename_path; cbn [nodes index]; rewrite map_nid_rename.
  - apply NoDup_map_ren; assumption.
  - intros q. rewrite (position_map_ren a b _ q H1).
    destruct (idx_get (index g) a) as [i|] eqn:Hg.
    + rewrite idx_get_insert, idx_get_remove, Hi. rewrite Hi in Hg. rewrite Hg.
      destruct (Z.eqb b q); [reflexivity|]. destruct (Z.eqb a q); reflexivity.
    + rewrite Hi in Hg. rewrite Hg. rewrite Hi. destruct (Z.eqb b q) eqn:Hbq.
      * apply Z.eqb_eq in Hbq. subst q. apply position_None_iff. exact H1.
      * destruct (Z.eqb a q) eqn:Haq; [|reflexivity]. apply Z.eqb_eq in Haq. subst q. exact Hg.
Qed.

Lemma dedup_e_In : forall l e, In e (dedup_e l) <-> In e l.
Proof.
  intros l e. rewrite (In_adjoin_all meme meme_In l [] e). cbn [In]. tauto.
Qed.

Lemma rename_deps_In : forall a b ds y, a <> b ->
  (In y (set_remove a (if memz a ds then set_insert b ds else ds)) <-> exists d, In d ds /\ ren a b d = y).
Proof.
  intros a b ds y Hab. rewrite set_remove_In. unfold ren. split.
  - intros [Hy Hne]. destruct (memz a ds) eqn:Hm.
    + apply memz_In in Hm. apply set_insert_In in Hy. destruct Hy as [->|Hy].
      * exists a. rewrite Z.eqb_refl. auto.
      * exists y. apply Z.eqb_neq in Hne. rewrite Hne. auto.
    + exists y. apply Z.eqb_neq in Hne. rewrite Hne. auto.
  - intros [d [Hd Hy]]. destruct (Z.eqb d a) eqn:Hda.
    + apply Z.eqb_eq in Hda. subst d y. assert (Hm : memz a ds = true) by (apply memz_In; exact Hd).
      rewrite Hm. split; [apply set_insert_In; left; reflexivity|congruence].
    + apply Z.eqb_neq in Hda. subst y. split; [|exact Hda].
      destruct (memz a ds); [apply set_insert_In; right; exact Hd|exact Hd].
Qed.

Definition ren_e (a b : Z) (e : Z * Z) : Z * Z := (ren a b (fst e), ren a b (snd e)).

Lemma rename_eq : forall g a b, index_inv g -> op_ok g (ORename a b) = true ->
  index_inv (rename_path g a b) /\
  (forall x, In x (ids (rename_path g a b)) <-> In x (map (ren a b) (ids g))) /\
  (forall e, In e (eds (rename_path g a b)) <-> In e (map (ren_e a b) (eds g))).
Proof.
  intros g a b Hinv Hok. split; [apply index_inv_rename; assumption|].
  pose proof (proj2 (op_ok_rename g a b Hok)) as Hab. split.
  - intros y. cbn [rename_path nodes]. rewrite map_nid_rename. tauto.
  - intros [x y]. cbn [rename_path nodes]. rewrite edges_of_In, in_map_iff. split.
    + intros [n [Hn [Hx Hy]]]. apply in_map_iff in Hn. destruct Hn as [m [Hm Hin]]. subst n.
      cbn [rename_node nid ndeps] in Hx, Hy. apply (rename_deps_In a b _ y Hab) in Hy. destruct Hy as [d [Hd Hy]].
      exists (nid m, d). unfold ren_e. cbn [fst snd]. split; [unfold ren at 1; rewrite Hx, Hy; reflexivity|].
      apply edges_of_In. exists m. auto.
    + intros [[u v] [He Hin]]. unfold ren_e in He. cbn [fst snd] in He. inversion He; subst x y. apply edges_of_In in Hin.
      destruct Hin as [m [Hm [Hu Hv]]]. exists (rename_node a b m). split; [apply in_map; exact Hm|].
      cbn [rename_node nid ndeps]. split; [subst u; reflexivity|]. apply (rename_deps_In a b _ _ Hab). exists v. auto.
Qed.

Lemma rebuild_index_gen : forall ns k ix q, NoDup (map nid ns) ->
  idx_get (fold_left (fun ix kn => idx_insert ix (nid (snd kn)) (fst kn)) (enumerate_from k ns) ix) q =
    match position q (map nid ns) with Some j => Some (k + j)%nat | None => idx_get ix q end.
Proof.
  induction ns as [|n r IH]; intros k ix q Hnd; cbn [enumerate_from fold_left map position fst snd]; [reflexivity|].
  cbn [map] in Hnd. inversion Hnd as [|? ? Hn Hr]; subst. rewrite (IH (S k) _ q Hr), idx_get_insert.
  destruct (Z.eqb (nid n) q) eqn:Hq.
  - apply Z.eqb_eq in Hq. subst q. apply position_None_iff in Hn. rewrite Hn. f_equal. lia.
  - destruct (position q (map nid r)); cbn [option_map]; [f_equal; lia|reflexivity].
Qed.

Lemma rebuild_index_spec : forall ns q, NoDup (map nid ns) ->
  idx_get (rebuild_index ns) q = position q (map nid ns).
Proof.
  intros ns q Hnd. unfold rebuild_index. rewrite (rebuild_index_gen ns 0 [] q Hnd).
  destruct (position q (map nid ns)); reflexivity.
Qed.

Lemma same_set_perm : forall a b, Permutation a b -> same_set a b = true.
Proof.
  intros a b Hp. unfold same_set. rewrite !andb_true_iff. split; [split|].
  - apply forallb_forall. intros x Hx. apply memz_In. apply (perm_set_eq _ _ Hp). exact Hx.
  - apply forallb_forall. intros x Hx. apply memz_In. apply (perm_set_eq _ _ Hp). exact Hx.
  - apply Nat.eqb_eq. apply Permutation_length. exact Hp.
Qed.

Lemma rebuild_refine : forall g ns, index_inv g -> Permutation ns (nodes g) ->
  index_inv {| nodes := ns; index := rebuild_index ns |} /\
  rg_eq (abs {| nodes := ns; index := rebuild_index ns |}) (abs g).
Proof.
  intros g ns [Hnd _] Hp.
  assert (Hids : Permutation (map nid ns) (map nid (nodes g))) by (apply Permutation_map; exact Hp).
  assert (Hnd' : NoDup (map nid ns)) by (apply (Permutation_NoDup (Permutation_sym Hids) Hnd)).
  split; [split; cbn [nodes index]; [exact Hnd'|intros q; apply rebuild_index_spec; exact Hnd']|].
  split; [exact (perm_set_eq _ _ Hids)|exact (edges_of_perm ns (nodes g) Hp)].
Qed.

Lemma before_all_judged : forall g s, Permutation s (nodes g) ->
  before_all (map nid s) (edges_of (nodes g)) [] = true ->
  has_cycle (abs g) = false /\ closed (abs g) = true.
Proof.
  intros g s Hp Hb. destruct (before_all_order _ _ Hb) as [Hac Hcl].
  { intros a b He. apply edges_of_In in He. destruct He as [n [Hn [<- _]]].
    apply in_map, (Permutation_in _ (Permutation_sym Hp)), Hn. }
  split.
  - destruct (has_cycle (abs g)) eqn:Hc; [|reflexivity]. apply has_cycle_spec in Hc. destruct Hc as [a Ha].
    destruct (Hac a Ha).
  - apply closed_spec. intros a b He. exact (Permutation_in _ (Permutation_map nid Hp) (Hcl a b He)).
Qed.

Lemma sort_refine : forall g, index_inv g ->
  exists x, sort g = Ok x /\ index_inv (snd x) /\ rg_eq (abs (snd x)) (abs g) /\
    judge_sort (abs g) (sort_code (fst x)) (map nid (nodes (snd x))) = true /\
    (sort_expected (abs g) = sort_code (fst x) \/ (sort_expected (abs g) = -1 /\ fst x <> None)).
Proof.
  intros g Hinv. destruct (tsort_spec (nodes g)) as [r [Hr Hs]].
  unfold sort, sort_gen. rewrite Hr. cbn [bind]. unfold judge_sort, sort_expected.
  destruct r as [[|]|ns]; eexists; (split; [reflexivity|]); cbn [fst snd sort_code].
  - assert (Hc : has_cycle (abs g) = true) by (apply has_cycle_spec; exact Hs).
    rewrite Hc. split; [exact Hinv|]. split; [apply rg_eq_refl|].
    destruct (closed (abs g)); (split; [reflexivity|]); [left; reflexivity|right; split; [reflexivity|discriminate]].
  - destruct Hs as [n [d [Hn [Hd Hnin]]]].
    assert (Hc : closed (abs g) = false).
    { destruct (closed (abs g)) eqn:Hc; [|reflexivity]. exfalso. apply Hnin.
      apply (proj1 (closed_spec (abs g)) Hc (nid n) d). cbn [abs E]. apply edges_of_In. exists n. auto. }
    rewrite Hc. split; [exact Hinv|]. split; [apply rg_eq_refl|].
    destruct (has_cycle (abs g)); (split; [reflexivity|]); [right; split; [reflexivity|discriminate]|left; reflexivity].
  - destruct Hs as [Hp Hb]. specialize (Hb (proj1 Hinv)).
    destruct (rebuild_refine g ns Hinv Hp) as [Hi He]. destruct (before_all_judged g ns Hp Hb) as [Hac Hcl].
    split; [exact Hi|]. split; [exact He|]. rewrite Hac, Hcl. cbn [nodes]. split; [|left; reflexivity].
    change (V (abs g)) with (map nid (nodes g)). change (E (abs g)) with (edges_of (nodes g)).
    rewrite (same_set_perm _ _ (Permutation_map nid Hp)), Hb. reflexivity.
Qed.

Lemma has_cycle_proper : forall g1 g2, rg_eq g1 g2 -> has_cycle g1 = has_cycle g2.
Proof.
  intros g1 g2 [_ He]. apply eq_true_iff_eq. rewrite !has_cycle_spec.
  split; intros [a Ha]; exists a; apply (reach_set_eq _ _ a a He); exact Ha.
Qed.
Lemma closed_proper : forall g1 g2, rg_eq g1 g2 -> closed g1 = closed g2.
Proof.
  intros g1 g2 [Hv He]. apply eq_true_iff_eq. rewrite !closed_spec.
  split; intros H a b Hin; apply Hv; apply (H a b); apply He; exact Hin.
Qed.

(** the result codes agree, except that the reference leaves the kind of sort error open (-1) when there are both a
    cycle and a missing node *)
Definition code_ok (cr c : Z) : Prop := cr = c \/ (cr = -1 /\ (c = 2 \/ c = 3)).

Theorem step_R : forall g rg o, R g rg ->
  exists x, step g o = Ok x /\
    (op_ok g o = true -> R (snd x) (snd (r_step rg o)) /\ code_ok (fst (r_step rg o)) (fst x)).
Proof.
  intros g rg o HR. pose proof HR as [Hinv [HV HE]]. unfold set_eq in HV, HE.
  destruct o as [p|r d|p|a b|]; cbn [step r_step].
  - eexists. split; [reflexivity|]. intros _. cbn [fst snd]. split; [|left; reflexivity].
    split; [apply index_inv_add; exact Hinv|]. split.
    + intros x. cbn [r_add V]. rewrite (add_node_ids g p Hinv x), set_insert_In, <- HV. cbn [In]. intuition auto.
    + intros e. cbn [r_add E]. rewrite add_node_edges. exact (HE e).
  - destruct (inc_ref_eq g r d Hinv) as [c [g2 [Hx [Hi2 [Hc [Hid [He _]]]]]]]. destruct (r_inc_eq rg r d) as [Rc [Rv Re]].
    rewrite Hx. eexists. split; [reflexivity|]. intros _. cbn [bind fst snd]. split.
    + split; [exact Hi2|]. split.
      * intros x. rewrite Rv, set_insert_In, Hid, HV. reflexivity.
      * intros e. rewrite Re, He, (adds_set_eq _ _ r d HE), HE. reflexivity.
    + left. rewrite Rc, <- (closes_set_eq _ _ r d HE), <- Hc. destruct c; reflexivity.
  - destruct (remove_eq g p Hinv) as [g' [Hg' [Hi' [Hid He]]]]. rewrite Hg'. eexists. split; [reflexivity|].
    intros _. cbn [bind fst snd]. split; [|left; reflexivity]. split; [exact Hi'|]. split.
    + intros x. cbn [r_remove V]. rewrite set_remove_In, Hid, HV. reflexivity.
    + intros e. cbn [r_remove E]. rewrite filter_In, andb_true_iff, !negb_true_iff, !Z.eqb_neq, He, HE. reflexivity.
  - eexists. split; [reflexivity|]. intros Hok. cbn [fst snd]. split; [|left; reflexivity].
    destruct (rename_eq g a b Hinv Hok) as [Hi' [Hid He]]. split; [exact Hi'|]. split.
    + intros x. cbn [r_rename V]. rewrite Hid, !in_map_iff.
      split; intros [y [Hy Hin]]; exists y; (split; [exact Hy|apply HV; exact Hin]).
    + intros e. cbn [r_rename E]. fold (ren_e a b). rewrite dedup_e_In, He, !in_map_iff.
      split; intros [y [Hy Hin]]; exists y; (split; [exact Hy|apply HE; exact Hin]).
  - destruct (sort_refine g Hinv) as [y [Hy [Hi [HR' [_ Hc]]]]]. rewrite Hy. eexists. split; [reflexivity|].
    intros _. cbn [bind fst snd]. split.
    + split; [exact Hi|]. destruct HR' as [HV' HE']. split; [intros x; rewrite <- HV; apply HV'|intros e; rewrite <- HE; apply HE'].
    + unfold sort_expected in *. rewrite <- (has_cycle_proper (abs g) rg (proj2 HR)), <- (closed_proper (abs g) rg (proj2 HR)).
      fold (sort_code (fst y)). destruct Hc as [Hc|[Hc Hn]]; [left; exact Hc|right].
      split; [exact Hc|]. destruct (fst y) as [[|]|]; [left; reflexivity|right; reflexivity|congruence].
Qed.

Lemma step_abs : forall g o x, index_inv g -> op_ok g o = true -> step g o = Ok x ->
  R (snd x) (snd (r_step (abs g) o)) /\ code_ok (fst (r_step (abs g) o)) (fst x).
Proof.
  intros g o x Hinv Hok H. destruct (step_R g (abs g) o (R_abs g Hinv)) as [y [Hy Hs]].
  rewrite H in Hy. inversion Hy; subst y. exact (Hs Hok).
Qed.

Lemma run_R : forall os g rg, R g rg -> hist_ok g os = true ->
  exists g', run_ops g os = Ok g' /\ R g' (r_run rg os).
Proof.
  induction os as [|o os IH]; intros g rg HR Hok; cbn [run_ops r_run]; [exists g; auto|].
  cbn [hist_ok] in Hok. apply andb_true_iff in Hok. destruct Hok as [Ho Hr].
  destruct (step_R g rg o HR) as [x [Hx Hs]]. rewrite Hx in *. exact (IH _ _ (proj1 (Hs Ho)) Hr).
Qed.

Lemma reach_add_edge : forall (EE E2 : list (Z * Z)) r d,
  (forall e, In e E2 <-> e = (r, d) \/ In e EE) ->
  forall x y, reach E2 x y -> reach EE x y \/ ((x = r \/ reach EE x r) /\ (d = y \/ reach EE d y)).
Proof.
  intros EE E2 r d He x y Hr. induction Hr as [a b Hab|a c b Hac Hcb IH].
  - apply He in Hab. destruct Hab as [Hab|Hab].
    + inversion Hab; subst. right. auto.
    + left. apply reach_edge. exact Hab.
  - apply He in Hac. destruct Hac as [Hac|Hac].
    + inversion Hac; subst a c. right. split; [left; reflexivity|].
      destruct IH as [IH|[_ IH]]; [right; exact IH|exact IH].
    + destruct IH as [IH|[[IH|IH] IH2]].
      * left. eapply reach_step; eassumption.
      * subst c. right. split; [right; apply reach_edge; exact Hac|exact IH2].
      * right. split; [right; eapply reach_step; eassumption|exact IH2].
Qed.

Lemma acyclic_add_edge : forall (EE E2 : list (Z * Z)) r d,
  (forall e, In e E2 <-> e = (r, d) \/ In e EE) ->
  acyclic EE -> r <> d -> ~ reach EE d r -> acyclic E2.
Proof.
  intros EE E2 r d He Hac Hne Hnr a Ha. destruct (reach_add_edge EE E2 r d He a a Ha) as [H|[[H1|H1] [H2|H2]]].
  - exact (Hac a H).
  - congruence.
  - subst a. exact (Hnr H2).
  - subst a. exact (Hnr H1).
  - apply Hnr. eapply reach_trans; eassumption.
Qed.

Lemma acyclic_incl : forall E1 E2 : list (Z * Z), incl E2 E1 -> acyclic E1 -> acyclic E2.
Proof. intros E1 E2 Hi Hac a Ha. apply (Hac a). eapply reach_mono; eassumption. Qed.

(** Acyclicity is a fact about the reference graph: it holds along reference runs without rename and is
    carried to the concrete state by the representation. *)
Lemma r_run_acyclic : forall os rg, no_rename os = true -> acyclic (E rg) -> acyclic (E (r_run rg os)).
Proof.
  induction os as [|o os IH]; intros rg Hnr Hac; cbn [r_run]; [exact Hac|].
  cbn [no_rename forallb] in Hnr. apply andb_true_iff in Hnr. destruct Hnr as [Ho Hnr]. apply IH; [exact Hnr|].
  destruct o as [p|r d|p|a b|]; cbn [r_step snd]; try exact Hac; try discriminate.
  - destruct (r_inc_eq rg r d) as [_ [_ Re]]. destruct (adds (E rg) r d) eqn:Ha.
    + apply adds_spec in Ha. destruct Ha as [Hne Hr]. apply (acyclic_add_edge (E rg) _ r d); [|exact Hac|exact Hne|exact Hr].
      intros e. rewrite Re. intuition auto.
    + eapply acyclic_incl; [|exact Hac]. intros e He. apply Re in He. intuition discriminate.
  - eapply acyclic_incl; [|exact Hac]. apply incl_filter.
Qed.

Lemma hist_ok_no_rename : forall os g, no_rename os = true -> hist_ok g os = true.
Proof.
  induction os as [|o os IH]; intros g H; [reflexivity|].
  cbn [no_rename forallb] in H. apply andb_true_iff in H. destruct H as [Ho Hos].
  cbn [hist_ok]. apply andb_true_iff. split; [destruct o; try reflexivity; discriminate|].
  destruct (step g o); [apply IH; exact Hos|reflexivity|reflexivity].
Qed.

Lemma acyclic_history : forall os g g', index_inv g -> acyclic (E (abs g)) -> no_rename os = true ->
  run_ops g os = Ok g' -> acyclic (E (abs g')).
Proof.
  intros os g g' Hinv Hac Hnr H.
  destruct (run_R os g (abs g) (R_abs g Hinv) (hist_ok_no_rename os g Hnr)) as [g2 [Hr [_ [_ He]]]].
  rewrite Hr in H. inversion H; subst g2.
  apply (acyclic_incl (E (r_run (abs g) os))); [intros e; apply He|]. apply r_run_acyclic; assumption.
Qed.

Lemma acyclic_inv_l : forall os g, no_rename os = true -> run_ops empty os = Ok g -> acyclic (E (abs g)).
Proof.
  intros os g. apply (acyclic_history os empty g index_inv_empty).
  intros a Ha. inversion Ha as [? ? Hin|? ? ? Hin _]; destruct Hin.
Qed.
