(** C21 — basic set/list facts and the executable reachability judge *)
From Coq Require Import ZArith List Bool Arith Lia.
From ErgV Require Import Common.Lists Graph.Model Graph.Spec.
Import ListNotations.
Open Scope Z_scope.

Lemma memz_In : forall x l, memz x l = true <-> In x l.
Proof. exact (existsb_eqb_In Z.eqb Z.eqb_eq). Qed.

Lemma memz_false : forall x l, memz x l = false <-> ~ In x l.
Proof. exact (existsb_eqb_notIn Z.eqb Z.eqb_eq). Qed.

Lemma set_insert_In : forall x y l, In y (set_insert x l) <-> y = x \/ In y l.
Proof. intros x y l. apply (In_adjoin memz memz_In). Qed.

Lemma set_remove_In : forall x y l, In y (set_remove x l) <-> In y l /\ y <> x.
Proof.
  intros x y l. unfold set_remove. rewrite filter_In.
  rewrite negb_true_iff, Z.eqb_neq. reflexivity.
Qed.

Lemma meme_In : forall e l, meme e l = true <-> In e l.
Proof.
  intros [e1 e2] l. unfold meme, edge_eqb. rewrite existsb_exists. split.
  - intros [[y1 y2] [Hin Heq]]. cbn [fst snd] in Heq.
    apply andb_true_iff in Heq. destruct Heq as [H1 H2].
    apply Z.eqb_eq in H1. apply Z.eqb_eq in H2. subst y1 y2. exact Hin.
  - intros Hin. exists (e1, e2). rewrite !Z.eqb_refl. auto.
Qed.

Lemma succs_In : forall E a b, In b (succs E a) <-> In (a, b) E.
Proof.
  intros E a b. unfold succs. rewrite in_map_iff. split.
  - intros [[p q] [Hs Hf]]. apply filter_In in Hf. destruct Hf as [Hin Heq].
    cbn [fst snd] in Hs, Heq. apply Z.eqb_eq in Heq. subst p q. exact Hin.
  - intros Hin. exists (a, b). split; [reflexivity|].
    apply filter_In. split; [exact Hin|]. cbn [fst]. apply Z.eqb_refl.
Qed.

Lemma find_node_cases : forall ns p,
  match find_node ns p with
  | Some n => In n ns /\ nid n = p
  | None => ~ In p (map nid ns)
  end.
Proof.
  intros ns p. unfold find_node. destruct (find _ ns) as [n|] eqn:Hf.
  - apply find_some in Hf. rewrite Z.eqb_eq in Hf. exact Hf.
  - intros Hin. apply in_map_iff in Hin. destruct Hin as [n [Hn Hin]].
    apply (find_none _ _ Hf) in Hin. rewrite Hn, Z.eqb_refl in Hin. discriminate.
Qed.

Lemma find_node_unique : forall ns n, NoDup (map nid ns) -> In n ns -> find_node ns (nid n) = Some n.
Proof.
  intros ns n Hnd Hin. pose proof (find_node_cases ns (nid n)) as Hc.
  destruct (find_node ns (nid n)) as [m|]; [|exfalso; apply Hc; apply in_map; exact Hin].
  destruct Hc as [Hm He]. f_equal. exact (NoDup_map_inj nid ns m n Hnd Hm Hin He).
Qed.

Lemma edges_of_In : forall ns a d,
  In (a, d) (edges_of ns) <-> exists n, In n ns /\ nid n = a /\ In d (ndeps n).
Proof.
  intros ns a d. unfold edges_of. rewrite in_flat_map. split.
  - intros [n [Hn Hin]]. apply in_map_iff in Hin. destruct Hin as [d' [He Hd]].
    inversion He; subst. exists n. auto.
  - intros [n [Hn [Ha Hd]]]. exists n. split; [exact Hn|]. apply in_map_iff. exists d. subst. auto.
Qed.

(** Every recursive search of the model (deep_depends_on, ancestors, tsort's dfs, the closure below) adds a new
    element to its visited set before it recurses, so the number of [ids] not in [vis] bounds the recursion depth. *)
Definition unseen (ids vis : list Z) : nat := length (filter (fun x => negb (memz x vis)) ids).

Lemma unseen_cons : forall x ids vis,
  unseen (x :: ids) vis = if memz x vis then unseen ids vis else S (unseen ids vis).
Proof. intros x ids vis. unfold unseen. cbn [filter]. destruct (memz x vis); reflexivity. Qed.

Lemma unseen_le : forall ids vis, (unseen ids vis <= length ids)%nat.
Proof.
  intros ids vis. induction ids as [|x ids IH]; [apply Nat.le_refl|].
  rewrite unseen_cons. destruct (memz x vis); cbn [length]; lia.
Qed.

Lemma unseen_mono : forall ids v1 v2, incl v1 v2 -> (unseen ids v2 <= unseen ids v1)%nat.
Proof.
  intros ids v1 v2 Hi. induction ids as [|x ids IH]; [apply Nat.le_refl|].
  rewrite !unseen_cons. destruct (memz x v1) eqn:H1.
  - apply memz_In, Hi, memz_In in H1. rewrite H1. exact IH.
  - destruct (memz x v2); lia.
Qed.

Lemma unseen_lt : forall ids p v1 v2, incl v1 v2 -> In p ids -> ~ In p v1 -> In p v2 ->
  (unseen ids v2 < unseen ids v1)%nat.
Proof.
  intros ids p v1 v2 Hi Hp H1 H2. induction ids as [|x ids IH]; [destruct Hp|].
  pose proof (unseen_mono ids v1 v2 Hi) as Hm. rewrite !unseen_cons. destruct Hp as [->|Hp].
  - apply memz_false in H1. apply memz_In in H2. rewrite H1, H2. lia.
  - specialize (IH Hp). destruct (memz x v1) eqn:Hx.
    + apply memz_In, Hi, memz_In in Hx. rewrite Hx. exact IH.
    + destruct (memz x v2); lia.
Qed.

Lemma unseen_0 : forall ids vis, unseen ids vis = 0%nat -> incl ids vis.
Proof.
  intros ids vis H x Hx. apply length_zero_iff_nil in H. apply memz_In.
  destruct (memz x vis) eqn:Hm; [reflexivity|].
  assert (Hin : In x (filter (fun y => negb (memz y vis)) ids)).
  { apply filter_In. rewrite Hm. auto. }
  rewrite H in Hin. destruct Hin.
Qed.

Lemma reach_trans : forall E a b c, reach E a b -> reach E b c -> reach E a c.
Proof.
  intros E a b c Hab. revert c.
  induction Hab as [a b Hin | a d b Hin Hdb IH]; intros c Hbc.
  - eapply reach_step; [exact Hin | exact Hbc].
  - eapply reach_step; [exact Hin | apply IH; exact Hbc].
Qed.

Lemma reach_snoc : forall E a c b, reach E a c -> In (c, b) E -> reach E a b.
Proof.
  intros E a c b Hac Hin. eapply reach_trans; [exact Hac|].
  apply reach_edge. exact Hin.
Qed.

Lemma reach_eq_snoc : forall E a c b, a = c \/ reach E a c -> In (c, b) E -> reach E a b.
Proof.
  intros E a c b [->|Hac] Hin; [apply reach_edge; exact Hin|eapply reach_snoc; eassumption].
Qed.

Lemma reach_mono : forall E E' a b, incl E E' -> reach E a b -> reach E' a b.
Proof.
  intros E E' a b Hincl Hab.
  induction Hab as [a b Hin | a d b Hin Hdb IH].
  - apply reach_edge. apply Hincl. exact Hin.
  - eapply reach_step; [apply Hincl; exact Hin | exact IH].
Qed.

Lemma reach_last : forall E a b, reach E a b -> exists c, (c = a \/ reach E a c) /\ In (c, b) E.
Proof.
  intros E a b Hab.
  induction Hab as [a b Hin | a d b Hin Hdb IH].
  - exists a. split; [left; reflexivity | exact Hin].
  - destruct IH as [c [Hc Hcb]]. exists c. split; [|exact Hcb].
    right. destruct Hc as [Hc|Hc].
    + subst c. apply reach_edge. exact Hin.
    + eapply reach_step; [exact Hin | exact Hc].
Qed.

Lemma reach_first : forall E a b, reach E a b -> exists c, In (a, c) E /\ (c = b \/ reach E c b).
Proof.
  intros E a b Hab.
  destruct Hab as [a b Hin | a d b Hin Hdb].
  - exists b. split; [exact Hin | left; reflexivity].
  - exists d. split; [exact Hin | right; exact Hdb].
Qed.

Definition succ_closed (G : list (Z * Z)) (s : list Z) : Prop :=
  forall x y, In x s -> In (x, y) G -> In y s.

Lemma succ_closed_reach : forall G s, succ_closed G s ->
  forall c b, reach G c b -> In c s -> In b s.
Proof.
  intros G s Hc c b Hr.
  induction Hr as [a b Hin | a d b Hin Hdb IH]; intros Ha.
  - eapply Hc; [exact Ha | exact Hin].
  - apply IH. eapply Hc; [exact Ha | exact Hin].
Qed.

Lemma union_In : forall b s x, In x (union s b) <-> In x s \/ In x b.
Proof. exact (In_adjoin_all memz memz_In). Qed.

Definition round (G : list (Z * Z)) (s : list Z) : list Z :=
  union s (flat_map (succs G) s).

Lemma round_In : forall G s x,
  In x (round G s) <-> In x s \/ exists c, In c s /\ In (c, x) G.
Proof.
  intros G s x. unfold round. rewrite union_In, in_flat_map.
  setoid_rewrite succs_In. reflexivity.
Qed.

Lemma close_incl : forall G n s, incl s (close n G s).
Proof.
  intros G n. induction n as [|n IH]; intros s x Hin.
  - exact Hin.
  - apply (IH (round G s)). apply round_In. left. exact Hin.
Qed.

Lemma close_sound : forall G n s x,
  In x (close n G s) -> In x s \/ exists c, In c s /\ reach G c x.
Proof.
  intros G n. induction n as [|n IH]; intros s x Hin.
  - left. exact Hin.
  - apply (IH (round G s)) in Hin.
    destruct Hin as [Hin | [c [Hc Hcx]]].
    + apply round_In in Hin. destruct Hin as [Hin | [c [Hc Hcx]]]; [left; exact Hin|].
      right. exists c. split; [exact Hc | apply reach_edge; exact Hcx].
    + right. apply round_In in Hc. destruct Hc as [Hc | [d [Hd Hdc]]].
      * exists c. split; [exact Hc | exact Hcx].
      * exists d. split; [exact Hd | eapply reach_step; [exact Hdc | exact Hcx]].
Qed.

(** Each round either changes nothing (and then the set is successor-closed, and stays so) or
    brings in an edge target that was unseen; there are at most |E| of those. *)
Lemma round_succ_closed : forall G s, succ_closed G s -> succ_closed G (round G s).
Proof.
  intros G s Hc.
  assert (Heq : forall x, In x (round G s) <-> In x s).
  { intros x. rewrite round_In. split; [|auto].
    intros [H|[c [Hcs Hcx]]]; [exact H | eapply Hc; [exact Hcs | exact Hcx]]. }
  intros x y Hx Hxy. apply Heq. eapply Hc; [apply Heq; exact Hx | exact Hxy].
Qed.

Lemma close_succ_closed : forall G n s, succ_closed G s -> succ_closed G (close n G s).
Proof.
  intros G n. induction n as [|n IH]; intros s Hc; [exact Hc|].
  apply (IH (round G s)). apply round_succ_closed. exact Hc.
Qed.

Definition stable (G : list (Z * Z)) (s : list Z) : bool :=
  forallb (fun x => memz x s) (flat_map (succs G) s).

Lemma stable_true : forall G s, stable G s = true -> succ_closed G s.
Proof.
  intros G s Hs x y Hx Hxy. unfold stable in Hs.
  rewrite forallb_forall in Hs. apply memz_In. apply Hs.
  apply in_flat_map. exists x. split; [exact Hx|]. apply succs_In. exact Hxy.
Qed.

Lemma stable_false_grows : forall G s, stable G s = false ->
  (unseen (map snd G) (round G s) < unseen (map snd G) s)%nat.
Proof.
  intros G s Hs. unfold stable in Hs.
  apply forallb_false_ex in Hs. destruct Hs as [y [Hy Hny]].
  apply in_flat_map in Hy. destruct Hy as [c [Hc Hcy]]. apply succs_In in Hcy.
  apply unseen_lt with (p := y).
  - intros x Hx. apply round_In. left. exact Hx.
  - apply in_map_iff. exists (c, y). split; [reflexivity | exact Hcy].
  - apply memz_false. exact Hny.
  - apply round_In. right. exists c. split; [exact Hc | exact Hcy].
Qed.

Lemma close_complete : forall G n s,
  (unseen (map snd G) s <= n)%nat -> succ_closed G (close n G s).
Proof.
  intros G n. induction n as [|n IH]; intros s Hn.
  - intros x y Hx Hxy. apply (unseen_0 (map snd G) s); [lia|].
    apply in_map_iff. exists (x, y). split; [reflexivity | exact Hxy].
  - destruct (stable G s) eqn:Hs.
    + apply close_succ_closed. apply stable_true. exact Hs.
    + apply (IH (round G s)). pose proof (stable_false_grows G s Hs) as Hg. lia.
Qed.

Lemma reach_set_spec : forall E a b, In b (reach_set E a) <-> reach E a b.
Proof.
  intros E a b. unfold reach_set. split.
  - intros Hin. apply close_sound in Hin.
    destruct Hin as [Hin | [c [Hc Hcb]]].
    + apply reach_edge. apply succs_In. exact Hin.
    + eapply reach_step; [apply succs_In; exact Hc | exact Hcb].
  - intros Hr. apply reach_first in Hr. destruct Hr as [c [Hac Hc]].
    assert (Hcin : In c (close (length E) E (succs E a))).
    { apply close_incl. apply succs_In. exact Hac. }
    destruct Hc as [Hc|Hc]; [subst c; exact Hcin|].
    eapply succ_closed_reach; [|exact Hc | exact Hcin].
    apply close_complete. rewrite <- (map_length snd E). apply unseen_le.
Qed.

Lemma reachb_spec : forall E a b, reachb E a b = true <-> reach E a b.
Proof.
  intros E a b. unfold reachb. rewrite memz_In. apply reach_set_spec.
Qed.

Lemma has_cycle_spec : forall g, has_cycle g = true <-> exists a, reach (E g) a a.
Proof.
  intros g. unfold has_cycle. rewrite existsb_exists. split.
  - intros [[a c] [Hin H]]. cbn [fst snd] in H.
    apply orb_true_iff in H. destruct H as [H|H].
    + apply Z.eqb_eq in H. subst c. exists a. apply reach_edge. exact Hin.
    + apply reachb_spec in H. exists a. eapply reach_step; [exact Hin | exact H].
  - intros [a Hr]. apply reach_first in Hr. destruct Hr as [c [Hac Hc]].
    exists (a, c). split; [exact Hac|]. cbn [fst snd].
    apply orb_true_iff. destruct Hc as [Hc|Hc].
    + left. subst c. apply Z.eqb_refl.
    + right. apply reachb_spec. exact Hc.
Qed.

Lemma closed_spec : forall g, closed g = true <-> forall a b, In (a, b) (E g) -> In b (V g).
Proof.
  intros g. unfold closed. rewrite forallb_forall. split.
  - intros H a b Hin. apply H in Hin. cbn [snd] in Hin. apply memz_In. exact Hin.
  - intros H [a b] Hin. cbn [snd]. apply memz_In. eapply H. exact Hin.
Qed.
