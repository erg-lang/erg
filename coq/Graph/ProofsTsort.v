(** C21 — correctness of the tsort model *)
From Coq Require Import ZArith List Bool Arith Lia Permutation Sorting.Sorted.
From ErgV Require Import Graph.Model Graph.Spec Graph.ProofsReach.
Import ListNotations.
Open Scope Z_scope.

Lemma position_In v l : In v l -> exists k, position v l = Some k.
Proof.
  induction l as [|x r IH]; intros H; [destruct H|]. cbn [position].
  destruct (Z.eqb x v) eqn:He; [eexists; reflexivity|].
  destruct H as [->|H]; [rewrite Z.eqb_refl in He; discriminate He|].
  destruct (IH H) as [k Hk]. rewrite Hk. eexists; reflexivity.
Qed.

Lemma position_nth : forall p l i, position p l = Some i -> nth_error l i = Some p.
Proof.
  intros p l. induction l as [|x r IH]; intros i H; cbn [position] in H.
  - discriminate.
  - destruct (Z.eqb x p) eqn:He.
    + apply Z.eqb_eq in He. inversion H. subst. reflexivity.
    + destruct (position p r) eqn:Hp; cbn [option_map] in H; [|discriminate].
      inversion H. subst. cbn [nth_error]. apply IH. reflexivity.
Qed.

Lemma position_Some_In : forall p l i, position p l = Some i -> In p l.
Proof. intros p l i H. apply position_nth, nth_error_In in H. exact H. Qed.

Lemma position_None_iff v l : position v l = None <-> ~ In v l.
Proof.
  split.
  - intros H Hin. apply position_In in Hin. destruct Hin as [k Hk]. congruence.
  - intros H. destruct (position v l) as [k|] eqn:Hk; [|reflexivity]. destruct (H (position_Some_In _ _ _ Hk)).
Qed.

Lemma position_app : forall p l1 l2,
  position p (l1 ++ l2) = match position p l1 with
                          | Some i => Some i
                          | None => option_map (fun j => (length l1 + j)%nat) (position p l2)
                          end.
Proof.
  intros p l1 l2. induction l1 as [|x r IH]; cbn [position app length].
  - destruct (position p l2); reflexivity.
  - destruct (Z.eqb x p); [reflexivity|]. rewrite IH.
    destruct (position p r); cbn [option_map]; [reflexivity|].
    destruct (position p l2); reflexivity.
Qed.

Definition dfs_each (f : nat) (ns : list node) :=
  fix each (ds : list Z) (used idx : list Z) {struct ds}
    : res (sort_err + (list Z * list Z)) :=
    match ds with
    | [] => Ok (inr (used, idx))
    | d :: ds' =>
      if memz d used && negb (memz d idx) then Ok (inl CyclicReference)
      else if negb (memz d used) then
        do r <- dfs f ns d used idx;
        match r with
        | inl e => Ok (inl e)
        | inr (u, i) => each ds' u i
        end
      else each ds' used idx
    end.

Lemma dfs_unfold f ns v used idx :
  dfs (S f) ns v used idx =
  match find_node ns v with
  | None => Ok (inl KeyNotFound)
  | Some vertex =>
    do r <- dfs_each f ns (ndeps vertex) (set_insert v used) idx;
    match r with
    | inl e => Ok (inl e)
    | inr (u, i) => Ok (inr (u, i ++ [v]))
    end
  end.
Proof. reflexivity. Qed.

Lemma dfs_zero ns v used idx : dfs O ns v used idx = Fuel.
Proof. reflexivity. Qed.

Lemma dfs_each_cons f ns d ds used idx :
  dfs_each f ns (d :: ds) used idx =
  if memz d used && negb (memz d idx) then Ok (inl CyclicReference)
  else if negb (memz d used) then
    do r <- dfs f ns d used idx;
    match r with
    | inl e => Ok (inl e)
    | inr (u, i) => dfs_each f ns ds u i
    end
  else dfs_each f ns ds used idx.
Proof. reflexivity. Qed.

Section Dfs.
Variable ns : list node.

Fixpoint deps_ok (pre l : list Z) : Prop :=
  match l with
  | [] => True
  | x :: r => (exists n, find_node ns x = Some n /\ forall d, In d (ndeps n) -> In d pre)
              /\ deps_ok (pre ++ [x]) r
  end.

Lemma deps_ok_app : forall la pre lb,
  deps_ok pre (la ++ lb) <-> deps_ok pre la /\ deps_ok (pre ++ la) lb.
Proof.
  induction la as [|x la IH]; intros pre lb.
  - cbn [app deps_ok]. rewrite app_nil_r. tauto.
  - cbn [app deps_ok]. rewrite IH. rewrite <- app_assoc. cbn [app]. tauto.
Qed.

(** a run from the state [(used, idx)] to [(u', i')] has finished the vertices [l], in this order, each after its
    dependencies *)
Definition dspec (used idx u' i' l : list Z) : Prop :=
  i' = idx ++ l /\ (forall x, In x u' <-> In x used \/ In x l) /\ deps_ok idx l.

Lemma dspec_refl used idx : dspec used idx used idx [].
Proof.
  unfold dspec. split; [symmetry; apply app_nil_r|]. split; [|exact I]. intro x. cbn [In]. tauto.
Qed.

Lemma dspec_trans used idx u1 i1 u' i' la lb :
  dspec used idx u1 i1 la -> dspec u1 i1 u' i' lb -> dspec used idx u' i' (la ++ lb).
Proof.
  intros (Hi1 & Hua & Hoa) (Hi' & Hub & Hob).
  unfold dspec. split; [|split].
  - subst. rewrite app_assoc. reflexivity.
  - intros x. rewrite Hub, Hua, in_app_iff. tauto.
  - apply deps_ok_app. split; [exact Hoa|]. rewrite <- Hi1. exact Hob.
Qed.

Definition missing_dep : Prop :=
  exists n d, In n ns /\ In d (ndeps n) /\ ~ In d (map nid ns).
Definition has_loop : Prop := exists a, reach (edges_of ns) a a.

(** What running [dfs_each] over the pending vertices [ds] from the state [(used, idx)] answers.  The vertices that
    are used but not yet in idx are those on the recursion stack; each of them has a path to every pending vertex,
    which is why meeting one of them again closes a cycle.  [dfs] on [v] is the case [ds = [v]], the outer loop of
    tsort the case without a stack. *)
Definition post (ds used idx : list Z) (r : sort_err + (list Z * list Z)) : Prop :=
  match r with
  | inr (u', i') => exists l, dspec used idx u' i' l /\ forall d, In d ds -> In d (idx ++ l)
  | inl KeyNotFound => (exists d, In d ds /\ ~ In d (map nid ns)) \/ missing_dep
  | inl CyclicReference =>
      (forall x d, In x used -> ~ In x idx -> In d ds -> reach (edges_of ns) x d) -> has_loop
  end.

Lemma post_cons d ds used idx u i la r :
  dspec used idx u i la -> In d (idx ++ la) -> post ds u i r -> post (d :: ds) used idx r.
Proof.
  intros Hs Hd H. pose proof Hs as (Hi & Hu & _). subst i.
  destruct r as [[|]|[u' i']]; cbn [post] in *.
  - intros Hreach. apply H. intros x d' Hxu Hxi Hd'. rewrite in_app_iff in Hxi. apply Hu in Hxu.
    destruct Hxu as [Hxu|Hxl]; [|tauto]. apply Hreach; [exact Hxu|tauto|right; exact Hd'].
  - destruct H as [[d0 [Hd0 Hn0]]|Hm]; [left|right; exact Hm].
    exists d0. split; [right; exact Hd0|exact Hn0].
  - destruct H as [lb [Hsb Hlb]]. exists (la ++ lb). split; [eapply dspec_trans; eassumption|].
    rewrite app_assoc. intros d' [<-|Hd']; [|apply Hlb; exact Hd'].
    apply in_app_iff. left. exact Hd.
Qed.

(** One walk serves [dfs] and its loop: on a vertex that is not used yet [dfs_each] unfolds to [dfs], whose body is
    [dfs_each] again on the dependencies, with one unit of fuel less.  The fuel is enough because [used] grows by an
    unused node id at every level. *)
Lemma each_spec : forall f ds used idx, (unseen (map nid ns) used < f)%nat ->
  exists r, dfs_each f ns ds used idx = Ok r /\ post ds used idx r.
Proof.
  induction f as [|f IHf]; [intros; lia|].
  induction ds as [|d ds IHds]; intros used idx Hc.
  { eexists. split; [reflexivity|]. exists []. split; [apply dspec_refl | intros d []]. }
  rewrite dfs_each_cons. destruct (memz d used) eqn:Hu; cbn [andb negb].
  - destruct (memz d idx) eqn:Hi; cbn [negb].
    + destruct (IHds used idx Hc) as [r [Hr Hp]]. exists r. split; [exact Hr|].
      apply (post_cons d ds used idx used idx [] r (dspec_refl used idx)); [|exact Hp].
      rewrite app_nil_r. apply memz_In. exact Hi.
    + eexists. split; [reflexivity|]. intros Hreach. exists d.
      apply (Hreach d d); [apply memz_In; exact Hu|apply memz_false; exact Hi|left; reflexivity].
  - apply memz_false in Hu. rewrite dfs_unfold. pose proof (find_node_cases ns d) as Hf.
    destruct (find_node ns d) as [vertex|] eqn:Hfv.
    2:{ eexists. split; [reflexivity|]. left. exists d. split; [left; reflexivity|exact Hf]. }
    destruct Hf as [Hin Hid].
    assert (Hlt : (unseen (map nid ns) (set_insert d used) < unseen (map nid ns) used)%nat).
    { apply unseen_lt with (p := d); [|rewrite <- Hid; apply in_map; exact Hin|exact Hu|].
      - intros x Hx. apply set_insert_In. right. exact Hx.
      - apply set_insert_In. left. reflexivity. }
    assert (Hedge : forall d', In d' (ndeps vertex) -> In (d, d') (edges_of ns))
      by (intros d' Hd'; apply edges_of_In; exists vertex; auto).
    destruct (IHf (ndeps vertex) (set_insert d used) idx) as [[e|[u i]] [He Hpe]]; [lia|..];
      rewrite He; cbn [bind].
    + eexists. split; [reflexivity|]. destruct e; cbn [post] in *.
      * intros Hreach. apply Hpe. intros x d' Hx Hxi Hd'. apply set_insert_In in Hx.
        apply (reach_eq_snoc _ x d d'); [|apply Hedge; exact Hd'].
        destruct Hx as [->|Hx]; [left; reflexivity|right; apply Hreach; [exact Hx|exact Hxi|left; reflexivity]].
      * right. destruct Hpe as [[d' [Hd' Hn]]|Hm]; [|exact Hm]. exists vertex, d'. auto.
    + destruct Hpe as [l [(Hi & Hu' & Hok) Hl]].
      assert (Hs : dspec used idx u (i ++ [d]) (l ++ [d])).
      { unfold dspec. split; [|split].
        - subst i. rewrite app_assoc. reflexivity.
        - intro x. rewrite Hu', set_insert_In, in_app_iff. cbn [In]. intuition (subst; auto).
        - apply deps_ok_app. split; [exact Hok|]. cbn [deps_ok]. split; [|exact I].
          exists vertex. split; [exact Hfv|exact Hl]. }
      destruct (IHds u (i ++ [d])) as [r [Hr Hp]].
      { assert (unseen (map nid ns) u <= unseen (map nid ns) (set_insert d used))%nat
          by (apply unseen_mono; intros x Hx; apply Hu'; left; exact Hx).
        lia. }
      exists r. split; [exact Hr|]. apply (post_cons d ds used idx u (i ++ [d]) (l ++ [d]) r Hs); [|exact Hp].
      rewrite !in_app_iff. right. right. left. reflexivity.
Qed.

(** The outer loop of tsort is [dfs_each] from a state without a stack: between two of its calls every used vertex is
    in idx, so its one test decides as the two tests of [dfs_each] do. *)
Lemma tsort_loop_each f : (length ns < f)%nat -> forall todo used idx, (forall x, In x used -> In x idx) ->
  tsort_loop f ns todo used idx =
  do r <- dfs_each f ns (map nid todo) used idx; Ok (match r with inl e => inl e | inr (_, i) => inr i end).
Proof.
  intros Hf. induction todo as [|v rest IH]; intros used idx Hui; [reflexivity|].
  cbn [tsort_loop map]. rewrite dfs_each_cons. destruct (memz (nid v) used) eqn:Hm; cbn [andb negb].
  - apply memz_In, Hui, memz_In in Hm. rewrite Hm. cbn [negb]. apply IH. exact Hui.
  - destruct (each_spec f [nid v] used idx) as [r [Hr Hp]].
    { pose proof (unseen_le (map nid ns) used) as Hle. rewrite map_length in Hle. lia. }
    rewrite dfs_each_cons, Hm in Hr. cbn [andb negb] in Hr.
    destruct (dfs f ns (nid v) used idx) as [[e|[u i]]| |]; cbn [bind] in *; try reflexivity.
    injection Hr as <-. destruct Hp as [l [(-> & Hu & _) _]]. apply IH.
    intros x Hx. apply Hu in Hx. rewrite in_app_iff. destruct Hx as [Hx|Hx]; auto.
Qed.

End Dfs.

(** the key [reorder_by_key] sorts by *)
Definition rank (idx : list Z) (n : node) : nat :=
  match position (nid n) idx with Some k => k | None => O end.

Lemma keyed_map idx : forall ns, (forall n, In n ns -> In (nid n) idx) ->
  keyed ns idx = Ok (map (fun n => (rank idx n, n)) ns).
Proof.
  induction ns as [|n r IH]; intro H; cbn [keyed map]; [reflexivity|]. unfold rank at 1.
  destruct (position_In (nid n) idx) as [k ->]; [apply H; left; reflexivity|].
  rewrite IH; [reflexivity|]. intros m Hm. apply H. right. exact Hm.
Qed.

Definition key_le (a b : nat * node) : Prop := (fst a <= fst b)%nat.
Definition isort (ks : list (nat * node)) : list (nat * node) :=
  fold_right (fun kn acc => insert_by (fst kn) (snd kn) acc) [] ks.

Lemma insert_by_perm k n l : Permutation (insert_by k n l) ((k, n) :: l).
Proof.
  induction l as [|[k' n'] r IH]; cbn [insert_by]; [apply Permutation_refl|].
  destruct (Nat.leb k' k).
  - eapply Permutation_trans; [apply perm_skip; exact IH|apply perm_swap].
  - apply Permutation_refl.
Qed.

Lemma insert_by_sorted k n l :
  StronglySorted key_le l -> StronglySorted key_le (insert_by k n l).
Proof.
  induction l as [|[k' n'] r IH]; intro H; cbn [insert_by].
  - constructor; [constructor|constructor].
  - inversion H as [|? ? Hr Hall]; subst.
    destruct (Nat.leb k' k) eqn:Hle.
    + apply Nat.leb_le in Hle. constructor; [apply IH; exact Hr|].
      apply Forall_forall. intros p Hp.
      apply (Permutation_in _ (insert_by_perm k n r)) in Hp.
      destruct Hp as [<-|Hp]; [unfold key_le; cbn [fst]; exact Hle|].
      rewrite Forall_forall in Hall. apply Hall. exact Hp.
    + apply Nat.leb_gt in Hle. constructor; [exact H|].
      constructor; [unfold key_le; cbn [fst]; lia|].
      rewrite Forall_forall in Hall. apply Forall_forall. intros p Hp.
      specialize (Hall p Hp). unfold key_le in *. cbn [fst] in *. lia.
Qed.

Lemma isort_perm ks : Permutation (isort ks) ks.
Proof.
  induction ks as [|[k n] r IH]; cbn [isort fold_right fst snd]; [constructor|].
  eapply Permutation_trans; [apply insert_by_perm|]. apply perm_skip. exact IH.
Qed.

Lemma isort_sorted ks : StronglySorted key_le (isort ks).
Proof.
  induction ks as [|[k n] r IH]; cbn [isort fold_right fst snd]; [constructor|].
  apply insert_by_sorted. exact IH.
Qed.

Lemma before_all_split E : forall l1 x l2 seen,
  before_all (l1 ++ x :: l2) E seen = true ->
  forall d, In d (succs E x) -> In d (seen ++ l1).
Proof.
  induction l1 as [|a l1 IH]; intros x l2 seen H d Hd; cbn [app before_all] in H;
    apply andb_prop in H; destruct H as [H1 H2].
  - rewrite app_nil_r. rewrite forallb_forall in H1. apply memz_In. apply H1. exact Hd.
  - specialize (IH x l2 (seen ++ [a]) H2 d Hd). rewrite <- app_assoc in IH. exact IH.
Qed.

Lemma before_all_earlier E : forall l seen a b, before_all l E seen = true -> In a l -> In (a, b) E ->
  In b seen \/ exists ka kb, position a l = Some ka /\ position b l = Some kb /\ (kb < ka)%nat.
Proof.
  induction l as [|x r IH]; intros seen a b H Ha Hab; [destruct Ha|].
  cbn [before_all] in H. apply andb_prop in H. destruct H as [H1 H2]. cbn [position].
  destruct (Z.eqb x a) eqn:Hxa.
  - apply Z.eqb_eq in Hxa. subst x. left. rewrite forallb_forall in H1. apply memz_In, H1, succs_In. exact Hab.
  - destruct Ha as [Ha|Ha]; [rewrite Ha, Z.eqb_refl in Hxa; discriminate|].
    destruct (IH (seen ++ [x]) a b H2 Ha Hab) as [Hs|[ka [kb (Hka & Hkb & Hlt)]]]; [apply in_app_iff in Hs|].
    + destruct Hs as [Hs|[->|[]]]; [left; exact Hs|right]. rewrite Z.eqb_refl.
      destruct (position_In a r Ha) as [ka ->]. exists (S ka), O. cbn [option_map]. repeat split. lia.
    + right. rewrite Hka. cbn [option_map]. destruct (Z.eqb x b); [exists (S ka), O|rewrite Hkb; exists (S ka), (S kb)];
        cbn [option_map]; repeat split; lia.
Qed.

(** the postorder lists node ids and, the ids being distinct (so that the dependencies [dfs] looked at are all the
    edges), passes the judge *)
Lemma deps_ok_before_all ns : forall l pre, deps_ok ns pre l ->
  incl l (map nid ns) /\ (NoDup (map nid ns) -> before_all l (edges_of ns) pre = true).
Proof.
  induction l as [|x l IH]; intros pre H; [split; [intros x []|reflexivity]|].
  cbn [deps_ok before_all] in *. destruct H as [[n [Hn Hd]] Hr]. destruct (IH _ Hr) as [Hi Hb].
  pose proof (find_node_cases ns x) as Hc. rewrite Hn in Hc. destruct Hc as [Hin Hid]. split.
  - intros y [<-|Hy]; [rewrite <- Hid; apply in_map; exact Hin|apply Hi; exact Hy].
  - intros Hnd. rewrite (Hb Hnd), andb_true_r.
    apply forallb_forall. intros d Hd'. apply memz_In, Hd. apply succs_In, edges_of_In in Hd'.
    destruct Hd' as [m [Hm [Hmx Hdm]]]. rewrite <- Hmx, (find_node_unique ns m Hnd Hm) in Hn.
    injection Hn as <-. exact Hdm.
Qed.

Lemma before_all_sorted E : forall ks seen,
  StronglySorted key_le ks ->
  (forall k x d, In (k, x) ks -> In d (succs E (nid x)) ->
     In d seen \/ exists k' y, In (k', y) ks /\ nid y = d /\ (k' < k)%nat) ->
  before_all (map nid (map snd ks)) E seen = true.
Proof.
  induction ks as [|[ka xa] r IH]; intros seen Hs Hc; [reflexivity|].
  cbn [map snd before_all]. inversion Hs as [|? ? Hsr Hall]; subst.
  rewrite Forall_forall in Hall.
  apply andb_true_intro. split.
  - apply forallb_forall. intros d Hd. apply memz_In.
    destruct (Hc ka xa d (or_introl eq_refl) Hd) as [Hseen|[k' [y [Hin [Hy Hlt]]]]];
      [exact Hseen|exfalso].
    destruct Hin as [Heq|Hin].
    + injection Heq as <- <-. lia.
    + specialize (Hall _ Hin). unfold key_le in Hall. cbn [fst] in Hall. lia.
  - apply IH; [exact Hsr|]. intros k x d Hin Hd.
    destruct (Hc k x d (or_intror Hin) Hd) as [Hseen|[k' [y [Hin' [Hy Hlt]]]]].
    + left. apply in_app_iff. left; exact Hseen.
    + destruct Hin' as [Heq|Hin'].
      * injection Heq as <- <-. left. apply in_app_iff. right. left. exact Hy.
      * right. exists k', y. auto.
Qed.

Lemma reorder_spec ns idx : (forall n, In n ns -> In (nid n) idx) ->
  exists s, reorder_by_key ns idx = Ok s /\ Permutation s ns /\
    forall E, incl idx (map nid ns) -> before_all idx E [] = true -> before_all (map nid s) E [] = true.
Proof.
  intros Hall. unfold reorder_by_key. rewrite (keyed_map idx ns Hall). cbn [bind].
  eexists. split; [reflexivity|]. set (ks := map _ ns). fold (isort ks).
  assert (Hks : forall k x, In (k, x) (isort ks) <-> In x ns /\ k = rank idx x).
  { intros k x. unfold ks. split.
    - intros H. apply (Permutation_in _ (isort_perm _)), in_map_iff in H. destruct H as [n [[= <- <-] Hn]]. auto.
    - intros [Hx ->]. apply (Permutation_in _ (Permutation_sym (isort_perm _))), (in_map (fun n => (rank idx n, n))), Hx. }
  split.
  - apply (Permutation_trans (Permutation_map snd (isort_perm ks))). unfold ks.
    rewrite map_map. cbn [snd]. rewrite map_id. apply Permutation_refl.
  - intros E Hsub Hb. apply before_all_sorted; [apply isort_sorted|].
    intros k x d Hin Hd. right. apply Hks in Hin. destruct Hin as [Hx ->]. apply succs_In in Hd.
    destruct (before_all_earlier E idx [] (nid x) d Hb (Hall x Hx) Hd) as [[]|[kx [kd (Hkx & Hkd & Hlt)]]].
    pose proof (Hsub d (position_Some_In _ _ _ Hkd)) as Hdn.
    apply in_map_iff in Hdn. destruct Hdn as [y [Hyid Hyin]].
    exists (rank idx y), y. split; [apply Hks; auto|]. split; [exact Hyid|].
    unfold rank. rewrite Hyid, Hkd, Hkx. exact Hlt.
Qed.

(** A list that passes the judge and holds the source of every edge ranks the vertices: an edge, hence a path, leads
    to a strictly earlier member.  So the edges are acyclic, and closed in the list. *)
Lemma before_all_order E l : before_all l E [] = true -> (forall a b, In (a, b) E -> In a l) ->
  acyclic E /\ forall a b, In (a, b) E -> In b l.
Proof.
  intros Hb Hsrc. pose (lt_in a b := exists ka kb, position a l = Some ka /\ position b l = Some kb /\ (kb < ka)%nat).
  assert (He : forall a b, In (a, b) E -> lt_in a b).
  { intros a b Hab. destruct (before_all_earlier E l [] a b Hb (Hsrc a b Hab) Hab) as [[]|H]. exact H. }
  assert (Hr : forall a b, reach E a b -> lt_in a b).
  { intros a b H. induction H as [a b Hab|a c b Hac _ IH]; [exact (He a b Hab)|].
    destruct (He a c Hac) as [ka [kc (Hka & Hkc & Hlt)]]. destruct IH as [kc' [kb (Hkc' & Hkb & Hlt')]].
    rewrite Hkc in Hkc'. injection Hkc' as <-. exists ka, kb. split; [exact Hka|]. split; [exact Hkb|lia]. }
  split.
  - intros a Ha. destruct (Hr a a Ha) as [ka [kb (Hka & Hkb & Hlt)]].
    rewrite Hka in Hkb. injection Hkb as <-. lia.
  - intros a b Hab. destruct (He a b Hab) as [_ [kb (_ & Hkb & _)]]. exact (position_Some_In _ _ _ Hkb).
Qed.

Theorem tsort_spec : forall ns, exists r, tsort ns = Ok r /\
  match r with
  | inr s => Permutation s ns /\
             (NoDup (map nid ns) -> before_all (map nid s) (edges_of ns) [] = true)
  | inl CyclicReference => exists a, reach (edges_of ns) a a
  | inl KeyNotFound => exists n d, In n ns /\ In d (ndeps n) /\ ~ In d (map nid ns)
  end.
Proof.
  intros ns. unfold tsort. rewrite tsort_loop_each; [|lia|intros x []].
  destruct (each_spec ns (S (S (length ns))) (map nid ns) [] []) as [[e|[u idx]] [Hr Hp]].
  { pose proof (unseen_le (map nid ns) []) as Hle. rewrite map_length in Hle. lia. }
  all: rewrite Hr; cbn [bind].
  { eexists. split; [reflexivity|]. destruct e; cbn [post] in Hp.
    - apply Hp. intros x d [].
    - destruct Hp as [[d [Hd Hn]]|Hm]; [contradiction|exact Hm]. }
  destruct Hp as [l [(-> & _ & Hok) Hall]]. cbn [app] in *.
  destruct (reorder_spec ns l) as [s [Hs [Hp Hb]]]; [intros n Hn; apply Hall, in_map; exact Hn|].
  rewrite Hs. cbn [bind]. exists (inr s). split; [reflexivity|]. split; [exact Hp|].
  destruct (deps_ok_before_all ns l [] Hok) as [Hsub Hba]. intros Hnd. exact (Hb _ Hsub (Hba Hnd)).
Qed.

Lemma tsort_total : forall ns, exists r, tsort ns = Ok r.
Proof. intros ns. destruct (tsort_spec ns) as [r [H _]]. exists r. exact H. Qed.

Lemma tsort_sound : forall ns s, NoDup (map nid ns) -> tsort ns = Ok (inr s) ->
  Permutation s ns /\ before_all (map nid s) (edges_of ns) [] = true.
Proof.
  intros ns s Hnd H. destruct (tsort_spec ns) as [r [Hr Hs]]. rewrite H in Hr. inversion Hr; subst r.
  split; [apply Hs|apply Hs; exact Hnd].
Qed.

Lemma tsort_err_keynotfound : forall ns, tsort ns = Ok (inl KeyNotFound) ->
  exists n d, In n ns /\ In d (ndeps n) /\ ~ In d (map nid ns).
Proof.
  intros ns H. destruct (tsort_spec ns) as [r [Hr Hs]]. rewrite H in Hr. inversion Hr; subst r. exact Hs.
Qed.

Lemma tsort_err_cyclic : forall ns, tsort ns = Ok (inl CyclicReference) ->
  exists a, reach (edges_of ns) a a.
Proof.
  intros ns H. destruct (tsort_spec ns) as [r [Hr Hs]]. rewrite H in Hr. inversion Hr; subst r. exact Hs.
Qed.

Lemma tsort_complete : forall ns, acyclic (edges_of ns) ->
  (forall n d, In n ns -> In d (ndeps n) -> In d (map nid ns)) ->
  exists s, tsort ns = Ok (inr s).
Proof.
  intros ns Hac Hcl. destruct (tsort_spec ns) as [[[|]|s] [H Hs]].
  - exfalso. destruct Hs as [a Ha]. exact (Hac a Ha).
  - exfalso. destruct Hs as [n [d (Hn & Hd & Hnot)]]. exact (Hnot (Hcl n d Hn Hd)).
  - exists s. exact H.
Qed.
