(** C09 — the recursion depth of the parser model is bounded for every token stream. *)
From Coq Require Import List Arith Bool Lia.
Require Import ErgV.ParseDepth.Model ErgV.ParseDepth.ProofsLen .
Import ListNotations.

(** frames that a call can still stack up before it reaches the next `nested` *)
Definition hgt (c : call) : nat :=
  match c with
  | CChunk _ _ | CExpr _ _ _ => 0
  | CModule | CBlock | CBlockLoop _ | CArg | CElem | CUnary => 1
  | CBody _ | CTuple _ | CTupleLoop _ | CSet | CSetLoop | CListLoop | CListElems | CArgs | CArgsLoop _ _ => 2
  | CList | CBrace | CAccLoop _ | CAccChain | CChunkLoop _ _ _ | CExprLoop _ _ _ _ => 3
  | CCallLoop _ | CCallOrAcc => 4
  | CBinLhs _ => 5
  end.
(** frames per unit of depth *)
Definition CF : nat := 6.
(** the first nesting that call [c], a frame at [l] with self.depth = [d], cannot reach *)
Definition top (l : nat) (c : call) (d : nat) : nat := l + hgt c + CF * (LIMIT - d).

Definition fits (D M : nat) (s : st) : Prop := mdep s <= D /\ mlev s <= M.

Lemma fits_adv D M s ts : fits D M s -> fits D M (adv s ts).
Proof. exact (fun H => H). Qed.
Lemma fits_err1 D M s : fits D M s -> fits D M (err1 s).
Proof. exact (fun H => H). Qed.
Lemma fits_enter D M l d s : fits D M s -> d <= D -> l <= M -> fits D M (enter l d s).
Proof. intros [A B] Hd Hl. split; apply Nat.max_lub; assumption. Qed.

Definition keeps (D M : nat) (r : out * st) : Prop := fits D M (snd r).
(** [S M]: the counted call that finds the limit reached enters no frame *)
Definition bnd_inv (D M : nat) (rec : call -> nat -> nat -> st -> out * st) : Prop :=
  forall c l d s, d <= LIMIT -> top l c d <= S M -> fits D M s -> keeps D M (rec c l d s).

Lemma conv_bnd lhs l d s D M : d <= D -> S l <= M -> fits D M s -> keeps D M (conv lhs l d s).
Proof.
  intros Hd Hl Hs. assert (l <= M) by apply Nat.lt_le_incl, Hl.
  unfold keeps, conv; cbv zeta; destruct lhs; cbn [snd]; repeat first [assumption | simple apply fits_err1 | simple apply fits_enter].
Qed.

Section Step.
  Variable rec : call -> nat -> nat -> st -> out * st.
  Variables D M : nat.
  Hypothesis HL : LIMIT <= D.
  Hypothesis Hrec : bnd_inv D M rec.

  (** [step] has the shape of the one in ProofsLen.v, but keeps the equation of no test other than that of the limit
      and leaves the state whole: every state met is the given one with frames entered and tokens or errors changed,
      and what is asked of a frame or of a call is arithmetic on its nesting and depth. *)
  Ltac arith :=
    repeat match goal with
           | E : (LIMIT <=? _) = false |- _ => apply Nat.leb_gt in E
           | E : (LIMIT <=? _) = true |- _ => apply Nat.leb_le in E
           end;
    unfold top, CF in *; cbn [hgt] in *; lia.
  Ltac side :=
    repeat first [ assumption | simple apply fits_adv | simple apply fits_err1 | simple apply fits_enter ];
    arith.
  (* asked of the callee: that it has room ([top] of it within [S M], its depth within LIMIT) and starts in a state that
     fits; known of its answer: the state fits, and nothing else, which keeps every arithmetic goal small *)
  Ltac call f a b c e :=
    let F := fresh "F" in let o1 := fresh "o" in let s1 := fresh "s" in
    lazymatch f with
    | conv => assert (F : keeps D M (conv a b c e)) by (apply conv_bnd; side)
    | _ => assert (F : keeps D M (f a b c e)) by (apply Hrec; side)
    end;
    destruct (f a b c e) as [o1 s1]; unfold keeps in F; cbn [snd] in F.
  Ltac ret := unfold keeps; cbn [snd]; side.
  Ltac tail a b c e := apply Hrec; side.

  Ltac step :=
    lazymatch goal with
    | |- context [if (LIMIT <=? ?d) then _ else _] => destruct (LIMIT <=? d) eqn:?
    | |- context [if ?b then _ else _] => destruct b
    | |- _ (andthen (rec ?a ?b ?c ?e) _) => call rec a b c e; apply andthen_cases; [intros ? _ | intros _; ret]
    | |- _ (rec ?a ?b ?c ?e) => tail a b c e
    | |- _ (_, _) => ret
    | |- _ =>
      match goal with
      | |- context [match ?x with _ => _ end] =>
        lazymatch x with
        | rec ?a ?b ?c ?e => call rec a b c e
        | conv ?a ?b ?c ?e => call conv a b c e
        | context [match _ with _ => _ end] => fail
        | _ => destruct x
        end
      end
    end.

  Lemma bnd_step : bnd_inv D M (body rec).
  Proof.
    intros c l d s Hd HB Hs.
    destruct c; unfold body, module_iter, block_iter, lambda_arm; cbv beta zeta; repeat step.
  Qed.
End Step.

Lemma bnd_inv_exec n D M : LIMIT <= D -> bnd_inv D M (exec n).
Proof.
  intro HL. induction n as [|n IH]; [|exact (bnd_step _ _ _ HL IH)].
  intros c l d s _ _ Hs. exact Hs.
Qed.

Lemma parse_fuel_bounded n ts :
  max_depth (parse_fuel n ts) <= LIMIT /\ max_level (parse_fuel n ts) <= CF * LIMIT + 1.
Proof.
  apply (bnd_inv_exec n LIMIT (CF * LIMIT + 1) (le_n _)); unfold top, fits; cbn [mdep mlev enter hgt]; lia.
Qed.
