(** C09 — nests of one kind of construct, of every depth: at least LIMIT deep they are reported as an error, below
    LIMIT they are parsed completely.  Both by induction on the nesting, one construct at a time; the run of the
    model through one construct, down to the counted call inside it and up again, is evaluated once on the known
    head of the stream, for any fuel that does not run out ([binlhs_construct], [construct]). *)
From Coq Require Import List Arith Bool Lia.
Require Import ErgV.ParseDepth.Model ErgV.ParseDepth.Spec ErgV.ParseDepth.ProofsLen .
Import ListNotations.

(** the calls that go through Parser::nested, which counts self.depth against the limit *)
Definition counted (c : call) : Prop := match c with CExpr _ _ _ | CChunk _ _ => True | _ => False end.

(** a counted call below the limit: the frame is entered, try_reduce_bin_lhs runs, then the loop of the method;
    the two counted calls differ in that loop only *)
Definition in_brace (c : call) : bool := match c with CChunk _ b | CExpr _ b _ => b | _ => false end.
Definition loop_of (c : call) (sh : shape) : call :=
  match c with CChunk w b => CChunkLoop w b sh | CExpr w b lb => CExprLoop w b lb sh | _ => c end.

Lemma counted_below f c l d s : counted c -> (LIMIT <=? d) = false ->
  exec (S f) c l d s = andthen (exec f (CBinLhs (in_brace c)) (S l) (S d) (enter l (S d) s))
                               (fun sh s1 => exec f (loop_of c sh) l (S d) s1).
Proof. intros Hc Hd. destruct c; try contradiction; cbn [exec body]; rewrite Hd; reflexivity. Qed.

Lemma below_limit f c l d s : counted c -> d < LIMIT ->
  exists b k, exec (S f) c l d s = andthen (exec f (CBinLhs b) (S l) (S d) (enter l (S d) s)) k.
Proof. intros Hc Hd. apply Nat.leb_gt in Hd. eexists _, _. apply counted_below; assumption. Qed.

Lemma andthen_fail r k o s' : andthen r k = (o, s') -> (forall sh, fst r <> Ok sh) -> r = (o, s').
Proof. destruct r as [[] ?]; cbn; intros H N; try assumption. exfalso; eapply N; reflexivity. Qed.

(** ---- descending through one construct: evaluation of the model on a known head of the stream *)
(** unfold the pending call, whose fuel has the form [S f] *)
Ltac unf_s H :=
  match type of H with
  | context C [exec (S ?f) ?c ?l ?d ?s] =>
    let t := context C [body (exec f) c l d s] in change t in H;
    unfold body at 1 in H; cbv beta zeta in H;
    cbn [toks enter adv err1 nerr] in H
  end.
(** the same for fuel [f]: with none left the whole result is Fuel *)
Ltac unf H Hf :=
  match type of H with
  | context [exec ?f _ _ _ _] =>
    is_var f; destruct f;
    [ cbn [exec andthen] in H; apply pair_inv in H; destruct H as [H _]; subst; exfalso; apply Hf; reflexivity
    | unf_s H ]
  end.

Ltac eval_toks H Ht :=
  rewrite ?Ht in H;
  cbn [is is_lp is_ls renc arg_start orb andb negb cur cur_is cur_lp cur_ls cur_renc cur_arg_start tl
       open_paren close_paren skip_nl skip_one_ded toks enter adv err1 nerr andthen] in H.

(** every frame of a construct is entered at the same depth; the repeated maxima are folded as they arise, since lia
    splits on each of them *)
Lemma max_again a b : Nat.max (Nat.max a b) b = Nat.max a b.
Proof. lia. Qed.

Ltac fuel_case H Hf := intros ->; cbn [andthen] in H; apply pair_inv in H; destruct H; subst; apply Hf; reflexivity.

(** the counted call inside a construct of kind [k] *)
Definition inner (k : kind) : call :=
  match k with
  | KParen | KSubscr => CExpr true false false
  | KSet => CChunk false true
  | _ => CExpr false false false
  end.
Lemma inner_counted k : counted (inner k). Proof. destruct k; exact I. Qed.

(** the first token after the opener in a uniform nest: the opener again, or the literal *)
Definition good_head (k : kind) (r : list tok) : Prop :=
  exists t r', r = t :: r' /\ (t = NAT \/ Some t = hd_error (opener k)).

Lemma drain_opener k r : drain (opener k ++ r) = drain r.
Proof. destruct k; reflexivity. Qed.

(** a closing token or the end of the line: what follows a complete expression inside a nest *)
Definition stop_head (ts : list tok) : Prop := exists t r, ts = t :: r /\ In t [RP; RS; RB; NL].

(** the loops that such a token ends without being consumed *)
Definition yields (c : call) : Prop :=
  match c with
  | CChunkLoop _ _ _ | CExprLoop _ _ _ _ | CAccLoop _ | CCallLoop _ | CArgsLoop false false => True
  | _ => False
  end.

Lemma stop_call fuel c l d s T o s' : yields c -> toks s = T -> stop_head T -> d <= mdep s ->
  exec fuel c l d s = (o, s') -> o <> Fuel ->
  (exists sh, o = Ok sh) /\ toks s' = T /\ nerr s' = nerr s /\ mdep s' = mdep s.
Proof.
  intros Hy <- (t & r & Ht & Hin) Hm H Hf.
  destruct fuel as [|f]; [cbn in H; inversion H; subst; contradiction|].
  assert (Hcur : forall p, cur p (toks s) = p t) by (intro p; rewrite Ht; reflexivity).
  destruct c as [| | | | | | | | | | | | | |[] []| | | | | | | | | | |]; try contradiction;
    cbn [exec body toks enter] in H; unfold cur_is, cur_arg_start in H; rewrite ?Hcur in H; rewrite ?Ht in H;
    cbn [In] in Hin; destruct Hin as [<-|[<-|[<-|[<-|[]]]]];
    cbn in H; inversion H; subst; cbn [toks nerr mdep enter]; repeat split; eauto; lia.
Qed.

Lemma yields_loop c sh : counted c -> yields (loop_of c sh).
Proof. destruct c; intro H; try contradiction; exact I. Qed.

(** how a run ended: with a tree ([ok]) or with Err; what is left of the stream, the errors counted, the deepest depth *)
Definition run_ends (ok : bool) (T : list tok) (E M : nat) (o : out) (s' : st) : Prop :=
  (if ok then exists sh, o = Ok sh else o = Err) /\ toks s' = T /\ nerr s' = E /\ mdep s' = M.

(** frames from a counted call to the counted call inside a construct of kind [k] that it opens *)
Definition frames (k : kind) : nat :=
  match k with
  | KLambda => 1
  | KParen | KMul => 2
  | KSet | KUnary => 3
  | KSubscr => 4
  | KList => 5
  | KCall | KCallNp => 6
  | KLamBlock => 0
  end.

(** ---- one construct of kind [k].  The run comes to the counted call inside it ([s1]: the state there, [lv] its
    nesting, [d] its depth), and what that call does ([o1], [s1']) decides the rest: a failure is handed up unchanged;
    after a success, if the closer of [k] follows, the construct is complete, and a closing token or the end of the
    line after it ends the loops of the calls on the way up. *)
Definition comes_to (r : list tok) (lv d : nat) (s s1 : st) : Prop :=
  toks s1 = r /\ nerr s1 = nerr s /\ mdep s1 = Nat.max (mdep s) d /\ lv <= S (mlev s1).
Definition goes_on (k : kind) (d : nat) (o1 : out) (s1' : st) (o : out) (s' : st) : Prop :=
  match o1 with
  | Ok _ => forall T, toks s1' = closer k ++ T -> stop_head T -> d <= mdep s1' ->
            run_ends true T (nerr s1') (mdep s1') o s'
  | _ => (o, s') = (o1, s1')
  end.

Lemma goes_on_fuel k d o1 s1' o s' : goes_on k d o1 s1' o s' -> o <> Fuel -> o1 <> Fuel.
Proof. intros H Hf ->. apply pair_inv in H. exact (Hf (proj1 H)). Qed.

(** the pending call is a loop that the token after the construct ends *)
Ltac stop_loop H Hf Hstop :=
  match type of H with
  | context [exec ?f ?c ?l ?d ?s1] =>
    let o1 := fresh "o" in let s1' := fresh "s" in let E1 := fresh "E" in
    destruct (exec f c l d s1) as [o1 s1'] eqn:E1;
    eapply stop_call in E1;
    [ let Ht1 := fresh "Ht" in let He1 := fresh "He" in let Hm1 := fresh "Hm" in
      destruct E1 as ((? & ->) & Ht1 & He1 & Hm1); cbn [nerr mdep enter adv err1] in He1, Hm1;
      cbn [andthen] in H
    | exact I
    | cbn [toks enter adv err1]; first [eassumption | reflexivity]
    | exact Hstop
    | cbn [mdep enter adv err1]; lia
    | fuel_case H Hf ]
  end.
(** the pending call is the counted call inside the construct: it and the state it starts in are the witnesses;
    then the way up, for each of its outcomes *)
Ltac at_inner H Hf Ht :=
  match type of H with
  | context [exec ?f ?c ?l ?d ?s1] =>
    lazymatch c with CExpr _ _ _ => idtac | CChunk _ _ => idtac end;
    let o1 := fresh "o" in let s1' := fresh "s" in let E1 := fresh "E" in
    destruct (exec f c l d s1) as [o1 s1'] eqn:E1;
    exists f, s1, o1, s1'; split; [exact E1|]; split;
    [ unfold comes_to; cbn [toks nerr mdep mlev enter adv err1]; rewrite ?max_again; repeat split; lia |];
    destruct o1; cbn [goes_on andthen] in *; try (symmetry; exact H);
    let T := fresh "T" in let Ht1 := fresh "Ht" in let Hstop := fresh "Hstop" in let Hm1 := fresh "Hm" in
    intros T Ht1 Hstop Hm1; cbn [closer app] in Ht1;
    repeat (first [ progress (cbn [toks enter adv err1] in H; rewrite ?Ht1 in H; eval_toks H Ht)
                  | stop_loop H Hf Hstop | unf_s H | unf H Hf ]);
    apply pair_inv in H; destruct H; subst; unfold run_ends; cbn [toks nerr mdep enter adv err1];
    split; [eauto | split; [congruence | split; [congruence | lia]]]
  end.
Ltac descend H Hf Ht :=
  repeat (first [ progress (eval_toks H Ht) | solve [at_inner H Hf Ht]
                | progress (unfold lambda_arm, conv in H; cbv beta zeta in H) | unf_s H | unf H Hf ]).

Lemma binlhs_construct k d r fuel b l s o s' :
  k <> KLambda -> k <> KLamBlock -> good_head k r -> toks s = opener k ++ r ->
  exec fuel (CBinLhs b) l d s = (o, s') -> o <> Fuel ->
  exists fuel' s1 o1 s1', exec fuel' (inner k) (pred (frames k) + l) d s1 = (o1, s1') /\
    comes_to r (pred (frames k) + l) d s s1 /\ goes_on k d o1 s1' o s'.
Proof.
  intros Hk Hk' (t & r' & -> & Hh) Ht H Hf.
  destruct k; try congruence; cbn [opener app hd_error inner frames Nat.pred Nat.add] in *;
    (destruct Hh as [-> | Hh]; [| inversion Hh; subst t]).
  all: descend H Hf Ht.
Qed.

Section Descend.
  Variables (T : list tok) (E : nat) (d : nat) (k : kind) (r : list tok).
  Hypothesis Hin : forall fuel' l' s1 o1 s1', toks s1 = r -> nerr s1 = E ->
      exec fuel' (inner k) l' d s1 = (o1, s1') -> o1 <> Fuel ->
      o1 = Err /\ nerr s1' = S E /\ toks s1' = T.
  Hypothesis Hgood : good_head k r.

  Lemma binlhs_descend fuel b l s o s' :
    k <> KLambda -> k <> KLamBlock -> toks s = opener k ++ r -> nerr s = E ->
    exec fuel (CBinLhs b) l d s = (o, s') -> o <> Fuel -> o = Err /\ nerr s' = S E /\ toks s' = T.
  Proof.
    intros Hk Hk' Ht He H Hf.
    destruct (binlhs_construct k d r fuel b l s o s' Hk Hk' Hgood Ht H Hf) as (f' & s1 & o1 & s1' & E1 & (Ht1 & He1 & _) & Hg).
    destruct (Hin _ _ _ _ _ Ht1 (eq_trans He1 He) E1 (goes_on_fuel _ _ _ _ _ _ Hg Hf)) as (-> & He' & Ht').
    apply pair_inv in Hg. destruct Hg; subst. auto.
  Qed.
End Descend.

(** [binlhs_construct] for a counted call below the limit, which runs try_reduce_bin_lhs and then its loop; the arrow
    of a lambda is met in that loop *)
Lemma construct k d r fuel c l s o s' :
  k <> KLamBlock -> counted c -> good_head k r -> d < LIMIT -> toks s = opener k ++ r ->
  exec fuel c l d s = (o, s') -> o <> Fuel ->
  exists fuel' s1 o1 s1', exec fuel' (inner k) (frames k + l) (S d) s1 = (o1, s1') /\
    comes_to r (frames k + l) (S d) s s1 /\ goes_on k (S d) o1 s1' o s'.
Proof.
  intros Hk Hc Hgood Hd Ht H Hf. apply Nat.leb_gt in Hd.
  destruct fuel as [|fu]; [cbn in H; inversion H; subst; contradiction|].
  rewrite (counted_below _ _ _ _ _ Hc Hd) in H.
  assert (Hl : k = KLambda \/ k <> KLambda) by (destruct k; (left; reflexivity) || (right; discriminate)).
  destruct Hl as [-> | Hl].
  - destruct Hgood as (t & r' & -> & Hh). cbn [opener app hd_error inner frames Nat.add] in *.
    destruct c; try contradiction; cbn [loop_of in_brace] in H; (destruct Hh as [-> | Hh]; [| inversion Hh; subst t]).
    all: descend H Hf Ht.
  - destruct (exec fu (CBinLhs (in_brace c)) (S l) (S d) (enter l (S d) s)) as [o2 s2] eqn:E2.
    apply binlhs_construct with (k := k) (r := r) in E2; try assumption; [| fuel_case H Hf].
    replace (pred (frames k) + S l) with (frames k + l) in E2 by (destruct k; try congruence; reflexivity).
    destruct E2 as (f' & s1 & o1 & s1' & E1 & (Ht1 & He1 & Hm1 & Hl1) & Hg). exists f', s1, o1, s1'.
    cbn [toks nerr mdep enter] in *. rewrite max_again in Hm1.
    split; [exact E1|]. split; [repeat split; assumption|].
    destruct o1; cbn [goes_on] in *; try (apply pair_inv in Hg; destruct Hg; subst; symmetry; exact H).
    intros T HtT Hs Hm. destruct (Hg T HtT Hs Hm) as ((sh2 & ->) & Ht2 & He2 & Hm2).
    eapply stop_call in H; [| apply yields_loop; exact Hc | exact Ht2 | exact Hs | rewrite Hm2; exact Hm | exact Hf].
    destruct H as (Ho & HT & He & HM). repeat split; congruence.
Qed.

Lemma uniform_good_head k m rest : good_head k (spine_on (repeat k m) rest).
Proof.
  destruct m as [|m].
  - exists NAT, rest. auto.
  - destruct k; cbn [opener app]; eexists _, _; split; try reflexivity; right; reflexivity.
Qed.

Lemma stop_closer k rest : stop_head rest -> stop_head (closer k ++ rest).
Proof. intro H. destruct k; try exact H; eexists _, _; (split; [reflexivity|]); cbn; tauto. Qed.

(** the counted call that finds the limit reached *)
Lemma at_limit fuel c l d s o s' : counted c -> LIMIT <= d ->
  exec fuel c l d s = (o, s') -> o <> Fuel ->
  run_ends false (drain (toks s)) (S (nerr s)) (mdep s) o s' /\ mlev s' = mlev s.
Proof.
  intros Hc Hd H Hf. destruct fuel as [|f]; [cbn in H; inversion H; subst; contradiction|].
  apply Nat.leb_le in Hd.
  destruct c; try contradiction; cbn [exec body] in H; rewrite Hd in H; inversion H; subst; repeat split.
Qed.

(** the literal inside the innermost construct *)
Lemma literal_run fuel c l d s rest o s' : counted c -> toks s = NAT :: rest -> stop_head rest -> d < LIMIT ->
  exec fuel c l d s = (o, s') -> o <> Fuel -> run_ends true rest (nerr s) (Nat.max (mdep s) (S d)) o s'.
Proof.
  intros Hc Ht (t & r & -> & Hin) Hd H Hf. apply Nat.leb_gt in Hd.
  destruct fuel as [|[|[|f]]]; cbn [In] in Hin; destruct Hin as [<-|[<-|[<-|[<-|[]]]]];
    destruct c; try contradiction; cbn [exec body andthen toks enter] in H; rewrite ?Hd, ?Ht in H;
    cbn in H; inversion H; subst; try contradiction;
    unfold run_ends; cbn [toks nerr mdep enter adv]; rewrite ?max_again; repeat split; eauto.
Qed.

(** ---- a uniform nest of [n] constructs under a counted call at depth [d].  If it stays below the limit it is parsed
    completely, up to the closing token or the end of the line that follows it, and reaches the depth of its innermost
    expression.  If not, the call that finds the limit reached refuses, the error comes up unchanged, and [frames k]
    frames are stacked per unit of depth: the frames of one construct lie below the counted call of the next. *)
Lemma uniform_run k : k <> KLamBlock -> forall n fuel c l d s rest o s',
  counted c -> toks s = spine_on (repeat k n) rest -> stop_head rest -> d <= mdep s -> l <= S (mlev s) ->
  exec fuel c l d s = (o, s') -> o <> Fuel ->
  if d + n <? LIMIT
  then run_ends true rest (nerr s) (Nat.max (mdep s) (S (d + n))) o s'
  else run_ends false (drain (toks s)) (S (nerr s)) (Nat.max (mdep s) LIMIT) o s' /\
       l + frames k * (LIMIT - d) <= S (mlev s').
Proof.
  intro Hk. induction n as [|m IH]; intros fuel c l d s rest o s' Hc Ht Hs Hm Hlev H Hf;
    destruct (le_lt_dec LIMIT d) as [Hd|Hd].
  1, 3: replace (d + _ <? LIMIT) with false by (symmetry; apply Nat.ltb_ge; lia);
    destruct (at_limit fuel c l d s o s' Hc Hd H Hf) as (R & ->);
    replace (Nat.max (mdep s) LIMIT) with (mdep s) by lia; replace (LIMIT - d) with 0 by lia; split; [exact R | lia].
  - rewrite Nat.add_0_r. replace (d <? LIMIT) with true by (symmetry; apply Nat.ltb_lt; exact Hd).
    exact (literal_run fuel c l d s rest o s' Hc Ht Hs Hd H Hf).
  - cbn [repeat spine_on] in Ht.
    destruct (construct k d _ fuel c l s o s' Hk Hc (uniform_good_head k m _) Hd Ht H Hf)
      as (f' & s1 & o1 & s1' & E1 & (Ht1 & He1 & Hm1 & Hl1) & Hg).
    apply IH with (rest := closer k ++ rest) in E1;
      [| apply inner_counted | exact Ht1 | apply stop_closer, Hs | lia | exact Hl1 | exact (goes_on_fuel _ _ _ _ _ _ Hg Hf)].
    rewrite Nat.add_succ_comm in E1. destruct (d + S m <? LIMIT).
    + destruct E1 as ((sh & ->) & HT & HE & HM).
      destruct (Hg rest HT Hs ltac:(lia)) as (Ho & HT' & HE' & HM').
      repeat split; try assumption; [congruence | lia].
    + destruct E1 as ((-> & HT & HE & HM) & Hv). apply pair_inv in Hg. destruct Hg; subst o s'.
      rewrite Ht, drain_opener, <- Ht1, <- He1. replace (LIMIT - d) with (S (LIMIT - S d)) by lia.
      rewrite Nat.mul_succ_r. repeat split; try assumption; lia.
Qed.
