(** C09 — the parser model terminates: [bound ts] units of fuel are enough for every token stream. *)
From Coq Require Import List Arith Bool Lia.
Require Import ErgV.ParseDepth.Model ErgV.ParseDepth.ProofsLen .
Import ListNotations.

(** order of the calls that are made without consuming a token and without going deeper *)
Definition rank (c : call) : nat :=
  match c with
  | CExpr _ _ _ | CChunk _ _ | CTupleLoop _ | CSetLoop | CListLoop | CList | CUnary | CCallOrAcc => 0
  | CArg | CElem | CBlock | CArgsLoop _ _ | CTuple _ | CSet | CBlockLoop _ | CModule => 1
  | CBody _ | CArgs | CBrace | CListElems | CExprLoop _ _ _ _ => 2
  | CAccLoop _ | CCallLoop _ | CBinLhs _ | CChunkLoop _ _ _ => 3
  | CAccChain => 4
  end.
(** what a call may still cost: tokens left, depth left, rank *)
Definition pot (c : call) (n d : nat) : nat := (2 * RANK) * n + RANK * (LIMIT - d) + rank c.

Definition nf (r : out * st) : Prop := fst r <> Fuel.
Definition fuel_inv (n : nat) (rec : call -> nat -> nat -> st -> out * st) : Prop :=
  forall c l d s, pot c (length (toks s)) d < n -> nf (rec c l d s).

Lemma conv_not_fuel lhs l d s : nf (conv lhs l d s).
Proof. destruct lhs; discriminate. Qed.
Lemma not_fuel_neq : Fuel <> Fuel -> False. Proof. intro H; apply H; reflexivity. Qed.

Section Step.
  Variable rec : call -> nat -> nat -> st -> out * st.
  Variable n : nat.
  Hypothesis Hlen : len_inv rec.
  Hypothesis Hf : fuel_inv n rec.

  (** ([step] and [settle] of ProofsLen.v.)  An answer made in place is not Fuel; what has to be shown is that every callee starts
      with a potential below [n]: it runs on fewer tokens, or deeper, or has a lower rank. *)
  Ltac arith :=
    repeat match goal with
           | E : (LIMIT <=? _) = false |- _ => apply Nat.leb_gt in E
           | E : (LIMIT <=? _) = true |- _ => apply Nat.leb_le in E
           end;
    lens; unfold pot, RANK in *; cbn [rank] in *; lia.
  (* asked of the callee: a potential below [n]; known of its answer: it is not Fuel, and [len_ok] on the stream the
     callee was given *)
  Ltac call f a b c e :=
    let F := fresh "F" in let G := fresh "G" in let o1 := fresh "o" in
    let ts1 := fresh "ts" in let ne1 := fresh "ne" in let md1 := fresh "md" in let ml1 := fresh "ml" in
    lazymatch f with
    | conv => pose proof (conv_not_fuel a b c e) as G; pose proof (conv_toks a b c e) as F;
              destruct (conv a b c e) as [o1 [ts1 ne1 md1 ml1]]; cbn [snd toks adv err1 enter] in F; subst ts1
    | _ => assert (G : nf (f a b c e)) by (apply Hf; arith); pose proof (Hlen a b c e) as F;
           destruct (f a b c e) as [o1 [ts1 ne1 md1 ml1]]; unfold len_ok in F; cbn [fst snd toks adv err1 enter] in F
    end;
    unfold nf in G; cbn [fst] in G.
  Ltac ret := unfold nf; cbn [fst]; first [discriminate | assumption].
  Ltac tail a b c e := apply Hf; arith.

  Lemma fuel_step : fuel_inv (S n) (body rec).
  Proof.
    intros c l d [ts ne md ml] Hp. cbn [toks] in Hp.
    destruct c; steps rec ltac:(fun f a b c e => call f a b c e) ltac:(fun a b c e => tail a b c e) ltac:(idtac; ret) ltac:(idtac; settle).
  Qed.
End Step.

Lemma fuel_inv_exec n : fuel_inv n (exec n).
Proof.
  induction n as [|n IH]; [intros c l d s H; lia|].
  exact (fuel_step _ _ (len_inv_exec n) IH).
Qed.

Lemma fuel_sufficient ts : fst (parse ts) <> Fuel.
Proof.
  apply fuel_inv_exec. unfold bound, pot, potential. cbn [rank toks enter length]. unfold RANK. lia.
Qed.
