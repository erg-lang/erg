(** C09 — the whole parse of a uniform nest ([uniform_parse]): the first turn of the module loop runs the chunk, whose
    run is ProofsDeep.uniform_run; what Props_C09.v says of shallow and of deep nests is read off it. *)
From Coq Require Import List Arith Bool Lia.
Require Import ErgV.ParseDepth.Model ErgV.ParseDepth.Spec ErgV.ParseDepth.ProofsLen ErgV.ParseDepth.ProofsBnd ErgV.ParseDepth.ProofsFuel ErgV.ParseDepth.ProofsDeep .
Import ListNotations.

Definition all_kinds : list kind := [KParen; KList; KSet; KUnary; KLambda; KCall; KCallNp; KSubscr; KMul].
Definition clean (r : out * st) : bool := match fst r with Ok _ => negb (has_errors r) | _ => false end.
Definition reports (r : out * st) : bool := match fst r with Ok _ | Err => has_errors r | _ => false end.

Lemma all_kinds_spec k : In k all_kinds <-> k <> KLamBlock.
Proof. destruct k; cbn; intuition congruence. Qed.

(** ---- the whole parse of a one-line program: the first turn of the module loop runs the chunk; an Ok or Err of
    the chunk that leaves the end of the line or of the stream ends the parse with the state the chunk left *)
Lemma module_end fuel l d s o s' : toks s = [EOF] \/ toks s = [NL; EOF] ->
  exec fuel CModule l d s = (o, s') -> o <> Fuel -> o = Ok SOther /\ nerr s' = nerr s /\ mdep s' = mdep s /\ mlev s' = mlev s.
Proof.
  intros Ht H Hf.
  destruct fuel as [|[|f]]; cbn [exec body] in H; unfold module_iter in H; destruct Ht as [Ht|Ht]; rewrite ?Ht in H; cbn in H;
    inversion H; subst; try contradiction; auto.
Qed.

Lemma parse_line t r : is NL t = false -> is EOF t = false ->
  exists f o1 s1, exec f (CChunk true false) 2 0 (enter 1 0 (mkst (t :: r) 0 0 0)) = (o1, s1) /\ o1 <> Fuel /\
    (toks s1 = [EOF] \/ toks s1 = [NL; EOF] -> (exists sh, o1 = Ok sh) \/ o1 = Err ->
      fst (parse (t :: r)) = Ok SOther /\ nerr (snd (parse (t :: r))) = nerr s1 /\
      max_depth (parse (t :: r)) = mdep s1 /\ max_level (parse (t :: r)) = mlev s1).
Proof.
  intros Hnl Heof. pose proof (fuel_sufficient (t :: r)) as Hf.
  unfold max_depth, max_level, parse, parse_fuel in *. destruct (bound (t :: r)) as [|f]; [exfalso; apply Hf; reflexivity|].
  cbn [exec body] in *. unfold module_iter in *. cbn [toks enter] in *. rewrite Hnl, Heof in *.
  destruct (exec f (CChunk true false) 2 0 _) as [o1 s1] eqn:E1. exists f, o1, s1. split; [exact E1|].
  split; [intros ->; apply Hf; reflexivity|].
  intros HT' Ho.
  assert (Hbad : negb (cur_is EOF (toks s1) || cur_is NL (toks s1)) = false) by (destruct HT' as [-> | ->]; reflexivity).
  destruct Ho as [(sh & ->)| ->]; rewrite ?Hbad in *;
    destruct (exec f CModule 1 0 s1) as [o s'] eqn:E2; cbn [fst snd] in *;
    destruct (module_end _ _ _ _ _ _ HT' E2 Hf) as (-> & He & Hm & Hv); auto.
Qed.

Lemma uniform_head k n : exists t r, uniform k n = t :: r /\ is NL t = false /\ is EOF t = false.
Proof.
  unfold uniform, nest. destruct n as [|m]; cbn [repeat spine_on]; [eexists _, _; repeat split|].
  destruct k; cbn [opener app]; eexists _, _; repeat split.
Qed.

Lemma drain_spine ks : forall rest, ~ In KLamBlock ks -> drain (spine_on ks rest) = drain rest.
Proof.
  induction ks as [|k r IH]; intros rest Hn; cbn [spine_on]; [reflexivity|].
  rewrite drain_opener, IH by (intro; apply Hn; right; assumption).
  destruct k; reflexivity.
Qed.

(** the parse of a uniform nest.  Below the limit: no error, and the depth of the innermost expression.  From the
    limit on: the chunk fails at the limit with one error and the parse ends there, having stacked [frames k] frames
    for every unit of depth *)
Lemma uniform_parse k n : k <> KLamBlock ->
  fst (parse (uniform k n)) = Ok SOther /\
  if n <? LIMIT then nerr (snd (parse (uniform k n))) = 0 /\ max_depth (parse (uniform k n)) = S n
  else nerr (snd (parse (uniform k n))) = 1 /\ max_depth (parse (uniform k n)) = LIMIT /\
       frames k * LIMIT + 1 <= max_level (parse (uniform k n)).
Proof.
  intro Hk. destruct (uniform_head k n) as (t & r & Eu & Hnl & Heof).
  destruct (parse_line t r Hnl Heof) as (f & o1 & s1 & E1 & Hf1 & Hp). rewrite <- Eu in *.
  assert (Hstop : stop_head [NL; EOF]) by (eexists _, _; split; [reflexivity | cbn; tauto]).
  pose proof (uniform_run k Hk n f (CChunk true false) 2 0 (enter 1 0 (mkst (uniform k n) 0 0 0)) [NL; EOF] o1 s1
                I eq_refl Hstop (Nat.le_0_l _) (le_n _) E1 Hf1) as R.
  cbn [Nat.add toks enter] in R. destruct (n <? LIMIT).
  - destruct R as (Ho & Ht & He & Hm).
    destruct (Hp (or_intror Ht) (or_introl Ho)) as (Hfst & Hnerr & Hdep & _).
    rewrite Hnerr, Hdep, He, Hm. auto.
  - destruct R as ((Ho & Ht & He & Hm) & Hv).
    unfold uniform, nest in Ht. rewrite drain_spine in Ht by (intro Hin; apply repeat_spec in Hin; congruence).
    destruct (Hp (or_introl Ht) (or_intror Ho)) as (Hfst & Hnerr & Hdep & Hlev).
    rewrite Hnerr, Hdep, Hlev, He, Hm. repeat split; try assumption. lia.
Qed.

Lemma shallow_parse k n : k <> KLamBlock -> n < LIMIT ->
  clean (parse (uniform k n)) = true /\ max_depth (parse (uniform k n)) = S n.
Proof.
  intros Hk Hn. destruct (uniform_parse k n Hk) as (Hfst & H). apply Nat.ltb_lt in Hn. rewrite Hn in H.
  unfold clean, has_errors. rewrite Hfst, (proj1 H). split; [reflexivity | exact (proj2 H)].
Qed.

Lemma shallow_uniform k n : k <> KLamBlock -> n <= CPYTHON_DEPTH -> clean (parse (uniform k n)) = true.
Proof. intros Hk Hn. apply shallow_parse; [assumption|]. unfold CPYTHON_DEPTH, LIMIT in *. lia. Qed.

Lemma deep_parse k n : k <> KLamBlock -> LIMIT <= n ->
  reports (parse (uniform k n)) = true /\ max_depth (parse (uniform k n)) = LIMIT.
Proof.
  intros Hk Hn. destruct (uniform_parse k n Hk) as (Hfst & H). apply Nat.ltb_ge in Hn. rewrite Hn in H.
  unfold reports, has_errors. rewrite Hfst, (proj1 H). split; [reflexivity | exact (proj1 (proj2 H))].
Qed.

(** nested calls that reach the limit use every frame that [parse_fuel_bounded] allows *)
Lemma deep_calls_frames n : LIMIT <= n -> max_level (parse (uniform KCall n)) = 6 * LIMIT + 1.
Proof.
  intro Hn. apply Nat.le_antisymm; [apply (parse_fuel_bounded (bound (uniform KCall n)))|].
  assert (Hk : KCall <> KLamBlock) by discriminate. destruct (uniform_parse KCall n Hk) as (_ & H).
  apply Nat.ltb_ge in Hn. rewrite Hn in H. apply H.
Qed.

(** indented blocks: the lexer never produces more than 100 levels (known finding) *)
Lemma shallow_lamblock n : n <= 100 -> clean (parse (lamblock n)) = true.
Proof.
  intro Hn. assert (H : forallb (fun n => clean (parse (lamblock n))) (seq 0 101) = true) by (vm_compute; reflexivity).
  rewrite forallb_forall in H. apply H. apply in_seq. lia.
Qed.

(** a uniform nest of up to CPYTHON_DEPTH constructs reaches the depth of its nesting plus one *)
Lemma uniform_depth_ok :
  forallb (fun k => forallb (fun n => Nat.eqb (max_depth (parse (uniform k n))) (S n)) (seq 0 (S CPYTHON_DEPTH))) all_kinds = true.
Proof.
  apply forallb_forall. intros k Hk. apply forallb_forall. intros n Hn.
  apply in_seq in Hn. apply Nat.eqb_eq, shallow_parse; [apply all_kinds_spec; exact Hk|].
  unfold CPYTHON_DEPTH, LIMIT in *. lia.
Qed.

(** without `nested` (Model.parse_nofix) n nested parentheses reach depth n + 1, beyond LIMIT too.  [fuel_sufficient]
    speaks of the parser with `nested` only (past LIMIT the potential stops falling), so the run is followed forwards with
    its fuel counted: two units for each pair of parentheses, three for the literal *)
Lemma nofix_parens n : forall g c l d s rest,
  counted c -> toks s = spine_on (repeat KParen n) rest -> stop_head rest -> 2 * n + 3 <= g ->
  exists sh s', exec_nofix g c l d s = (Ok sh, s') /\ toks s' = rest /\ mdep s' = Nat.max (mdep s) (S (d + n)).
Proof.
  induction n as [|m IH]; intros g c l d s rest Hc Ht Hs Hg.
  - destruct Hs as (t & r & -> & Hin). destruct g as [|[|[|g]]]; try lia.
    cbn [In] in Hin; destruct Hin as [<-|[<-|[<-|[<-|[]]]]];
      destruct c; try contradiction; cbn [exec_nofix nofix_body body toks enter]; rewrite Ht; cbn;
      eexists _, _; (split; [reflexivity|]); (split; [reflexivity | cbn [mdep enter adv]; lia]).
  - destruct g as [|[|g]]; try lia. cbn [repeat spine_on opener closer app] in Ht.
    set (r := spine_on (repeat KParen m) (RP :: rest)) in *.
    assert (Hop : open_paren r = (false, r) /\ cur_is RP r = false) by (destruct m; split; reflexivity).
    destruct (IH g (CExpr true false false) (S (S l)) (S d) (adv (enter (S l) (S d) (enter l (S d) s)) r) (RP :: rest))
      as (sh & s1 & E1 & Ht1 & Hm1); [exact I | reflexivity | eexists _, _; split; [reflexivity | cbn; tauto] | lia |].
    destruct Hs as (t & r' & -> & Hin).
    cbn [In] in Hin; destruct Hin as [<-|[<-|[<-|[<-|[]]]]];
      destruct c; try contradiction; cbn [exec_nofix nofix_body body toks enter]; rewrite Ht; cbn [is is_lp orb andb];
      rewrite (proj1 Hop), (proj2 Hop), E1; cbn [andthen close_paren]; rewrite Ht1; cbn;
      eexists _, _; (split; [reflexivity|]); (split; [reflexivity | cbn [mdep adv enter] in *; rewrite Hm1; lia]).
Qed.

Lemma parens_length n : forall rest, length (spine_on (repeat KParen n) rest) = 2 * n + 1 + length rest.
Proof. induction n as [|m IH]; intro rest; cbn [repeat spine_on opener closer app length]; [|rewrite IH; cbn [length]]; lia. Qed.

Lemma nofix_depth n : max_depth (parse_nofix (bound (uniform KParen n)) (uniform KParen n)) = S n.
Proof.
  destruct (uniform_head KParen n) as (t & r & Eu & Hnl & Heof).
  assert (Hg : 2 * n + 3 <= potential (length (uniform KParen n)) 0)
    by (unfold uniform, nest, potential, RANK; rewrite parens_length; lia).
  unfold max_depth, parse_nofix, bound. set (g := potential _ 0) in *.
  destruct (nofix_parens n g (CChunk true false) 2 0 (enter 1 0 (mkst (uniform KParen n) 0 0 0)) [NL; EOF] I eq_refl)
    as (sh & s1 & E1 & Ht1 & Hm1); [eexists _, _; split; [reflexivity | cbn; tauto] | exact Hg |].
  rewrite Eu in *. cbn [exec_nofix nofix_body body]. unfold module_iter at 1. cbn [toks enter]. rewrite Hnl, Heof, E1, Ht1.
  cbn [cur_is cur is orb negb]. destruct g as [|[|g]]; try lia. cbn [exec_nofix nofix_body body]. unfold module_iter.
  rewrite Ht1. cbn. exact Hm1.
Qed.

Lemma nofix_depth_grows :
  forallb (fun n => Nat.leb n (max_depth (parse_nofix (bound (uniform KParen n)) (uniform KParen n))))
          [1; 10; 100; 600; 1000] = true.
Proof. apply forallb_forall. intros n _. apply Nat.leb_le. rewrite nofix_depth. apply Nat.le_succ_diag_r. Qed.

(** ---- the judge on the model: it accepts the model's ending at every depth, a tree without errors below the
    limit and an error from the limit on *)
Lemma uniform_ending k n : k <> KLamBlock ->
  model_ending (parse (uniform k n)) = if Nat.ltb n LIMIT then EOk 0 else EErr 1.
Proof.
  intro Hk. destruct (uniform_parse k n Hk) as (Hfst & H). unfold model_ending, has_errors. rewrite Hfst.
  destruct (n <? LIMIT); destruct H as (-> & _); reflexivity.
Qed.

Lemma model_judge k n : k <> KLamBlock -> judge (mkobs (Some n) 0 0 (model_ending (parse (uniform k n)))) = true.
Proof.
  intro Hk. rewrite (uniform_ending k n Hk).
  unfold judge, Known_C09, Known_indent, Known_chain. cbn [o_end o_nest o_cols o_chain].
  destruct (Nat.ltb_spec n LIMIT) as [Hn | Hn].
  - replace (Nat.ltb LIMIT n) with false by (symmetry; apply Nat.ltb_ge; lia).
    destruct (Nat.leb n CPYTHON_DEPTH); reflexivity.
  - replace (Nat.leb n CPYTHON_DEPTH) with false by (symmetry; apply Nat.leb_gt; unfold CPYTHON_DEPTH, LIMIT in *; lia).
    destruct (Nat.ltb LIMIT n); reflexivity.
Qed.
