(** C09 — the parser model never produces tokens, and the calls that loops rely on consume at least one. *)
From Coq Require Import List Arith Bool Lia.
Require Import ErgV.ParseDepth.Model .
Import ListNotations.

Lemma next_expr_le ts : length (next_expr ts) <= length ts.
Proof. induction ts as [|t r IH]; cbn; [lia|]. destruct t; cbn; lia. Qed.
Lemma until_dedent_le ts : forall n, length (until_dedent n ts) <= length ts.
Proof.
  induction ts as [|t r IH]; intro n; cbn; [lia|].
  destruct t; cbn; try (specialize (IH n); lia).
  - specialize (IH (S n)); lia.
  - destruct (Nat.leb n 1); [lia|]. specialize (IH (n - 1)); lia.
Qed.
Lemma drain_le ts : length (drain ts) <= length ts.
Proof. induction ts as [|t r IH]; cbn; [lia|]. destruct t; cbn; lia. Qed.
Lemma skip_nl_le ts : length (skip_nl ts) <= length ts.
Proof. induction ts as [|t r IH]; cbn; [lia|]. destruct t; cbn; lia. Qed.
Lemma skip_ded_le ts : length (skip_ded ts) <= length ts.
Proof. induction ts as [|t r IH]; cbn; [lia|]. destruct t; cbn; lia. Qed.
Lemma skip_one_ded_le ts : length (skip_one_ded ts) <= length ts.
Proof. destruct ts as [|t r]; cbn; [lia|]. destruct t; cbn; lia. Qed.
Lemma open_paren_le r lb r2 : open_paren r = (lb, r2) -> length r2 <= length r.
Proof.
  unfold open_paren. pose proof (skip_nl_le r) as L. destruct (skip_nl r) as [|t r1]; intro H.
  - inversion H; subst; cbn in *; lia.
  - destruct t; inversion H; subst; cbn in *; lia.
Qed.
Lemma close_paren_le lb ts : length (close_paren lb ts) <= length ts.
Proof. unfold close_paren. destruct lb; [|lia]. pose proof (skip_one_ded_le (skip_nl ts)). pose proof (skip_nl_le ts). lia. Qed.
Lemma skip_nl_cons_lt t r : is NL t = true -> length (skip_nl (t :: r)) <= length r.
Proof. destruct t; cbn; try discriminate. intros _. apply skip_nl_le. Qed.

(** the stream has a token to consume that is not EOF *)
Definition hd_live (ts : list tok) : bool := cur (fun t => negb (is EOF t)) ts.

Lemma next_expr_lt ts : hd_live ts = true -> length (next_expr ts) < length ts.
Proof.
  destruct ts as [|t r]; cbn; [discriminate|].
  pose proof (next_expr_le r). destruct t; cbn; intro; lia.
Qed.
Lemma drain_lt ts : hd_live ts = true -> length (drain ts) < length ts.
Proof.
  destruct ts as [|t r]; cbn; [discriminate|].
  pose proof (drain_le r). destruct t; cbn; intro; lia.
Qed.
Lemma symnat_arg_start t : is SYM t || is NAT t = true -> arg_start t = true.
Proof. destruct t; cbn; intro; try discriminate; reflexivity. Qed.
Lemma lpg_arg_start t : is LPg t = true -> arg_start t = true.
Proof. destruct t; cbn; intro; try discriminate; reflexivity. Qed.
Lemma arg_start_open t : arg_start t = true -> is RP t = false /\ is RB t || is RS t || is DED t = false.
Proof. destruct t; cbn; intro; try discriminate; split; reflexivity. Qed.
Lemma arg_start_live t : arg_start t = true -> negb (is EOF t) = true.
Proof. destruct t; cbn; intro; try discriminate; reflexivity. Qed.
Lemma is_live k t : is k t = true -> is EOF k = false -> negb (is EOF t) = true.
Proof. destruct k, t; cbn; intros; try discriminate; reflexivity. Qed.

(** when a call must have consumed a token: the rows are those that the loops (the two iterations here, the calls of
    ProofsFuel.fuel_step that make no other progress) rely on, not all that holds *)
Definition must_consume (c : call) (ts : list tok) (o : out) : bool :=
  match c with
  | CChunk _ _ | CExpr _ _ _ | CBinLhs _ => match o with Ok _ | Err => hd_live ts | _ => false end
  | CArg | CElem => match o with Ok _ => hd_live ts | _ => false end
  | CArgs => match o with Ok _ => cur arg_start ts | _ => false end
  | CTuple _ | CTupleLoop _ => match o with Ok _ => cur (is COMMA) ts | _ => false end
  | CCallOrAcc | CUnary | CList | CBrace => match o with Ok _ => true | Err => hd_live ts | _ => false end
  | _ => false
  end.

(** [r] is the run of method [c] on the stream [ts]: it produced no token, and consumed one where [must_consume] says so *)
Definition len_ok (c : call) (ts : list tok) (r : out * st) : Prop :=
  length (toks (snd r)) <= length ts /\
  (must_consume c ts (fst r) = true -> length (toks (snd r)) < length ts).
Definition len_inv (rec : call -> nat -> nat -> st -> out * st) : Prop :=
  forall c l d s, len_ok c (toks s) (rec c l d s).

Lemma conv_toks lhs l d s : toks (snd (conv lhs l d s)) = toks s.
Proof. destruct lhs; reflexivity. Qed.

(** ([inversion] would simplify [next_line (t :: r)] away) *)
Lemma pair_inv {A B} (a a' : A) (b b' : B) : (a, b) = (a', b') -> a = a' /\ b = b'.
Proof. intro H; inversion H; auto. Qed.
Lemma toks_adv s ts : toks (adv s ts) = ts. Proof. reflexivity. Qed.
Lemma toks_err1 s : toks (err1 s) = toks s. Proof. reflexivity. Qed.
Lemma toks_enter l d s : toks (enter l d s) = toks s. Proof. reflexivity. Qed.

(** ---- lengths of the streams met in a run, as hypotheses for [lia] *)
Ltac pose_one f lem :=
  match goal with
  | |- context [f ?x] => lazymatch goal with H : length (f x) <= length x |- _ => fail | _ => pose proof (lem x) end
  | H0 : context [f ?x] |- _ => lazymatch goal with H : length (f x) <= length x |- _ => fail | _ => pose proof (lem x) end
  end.
Ltac pose_two f lem :=
  match goal with
  | |- context [f ?n ?x] => lazymatch goal with H : length (f n x) <= length x |- _ => fail | _ => pose proof (lem n x) end
  | H0 : context [f ?n ?x] |- _ => lazymatch goal with H : length (f n x) <= length x |- _ => fail | _ => pose proof (lem n x) end
  end.
Lemma until_dedent_le' n ts : length (until_dedent n ts) <= length ts.
Proof. apply until_dedent_le. Qed.
Ltac pose_les :=
  unfold next_line in *;
  repeat first [ pose_one next_expr next_expr_le | pose_one drain drain_le | pose_one skip_nl skip_nl_le
               | pose_one skip_ded skip_ded_le | pose_one skip_one_ded skip_one_ded_le
               | pose_two until_dedent until_dedent_le' ].
(** equations left by destructing a helper's result *)
Ltac eqn_les :=
  repeat match goal with
         | E : skip_nl ?y = _ |- _ => let L := fresh "L" in pose proof (skip_nl_le y) as L; rewrite E in L; clear E
         | E : skip_ded ?y = _ |- _ => let L := fresh "L" in pose proof (skip_ded_le y) as L; rewrite E in L; clear E
         | E : skip_one_ded ?y = _ |- _ => let L := fresh "L" in pose proof (skip_one_ded_le y) as L; rewrite E in L; clear E
         | E : close_paren ?b ?y = _ |- _ => let L := fresh "L" in pose proof (close_paren_le b y) as L; rewrite E in L; clear E
         | E : open_paren ?y = (_, _) |- _ => apply open_paren_le in E
         end.
(** (an unrestricted cbn would also reduce [next_expr] under [length]) *)
Ltac lens := cbn [toks adv err1 enter] in *; unfold tl in *; eqn_les; pose_les; cbn [length] in *.

(** ---- how an invariant of the run is proved: [len_step] here and ProofsFuel.fuel_step with the [step] below,
    ProofsBnd.bnd_step with one of the same shape that keeps the equation of no test but that of the limit and leaves
    the state whole.
    The invariant is a predicate [P] on a run, assumed of [rec c l d s] for every call; the goal is [P (body rec c l d s)].
    [step] looks at the goal.  At a test it splits.  At a call [rec a b c e] it runs [call], which proves what the
    invariant asks of the callee, names its answer [(o1, s1)] and keeps what the invariant says of it; after `?`
    ([andthen_cases]) the run goes on with a tree or ends with that answer.  A call in tail position and an answer made
    in place close the goal by [tail] and [ret].  With the state written out as a record, [toks] of every state computes
    and a test of the next token is a test of a variable.  A wrong entry of a table ([rank], [hgt]) leaves the call site it
    breaks as the open goal at [Qed]; a missing row of [must_consume] shows later, in fuel_step, since a consumption fact
    whose premise cannot be proved is dropped. *)
Lemma andthen_cases (P : out * st -> Prop) o1 s1 k :
  (forall sh, o1 = Ok sh -> P (k sh s1)) -> ((forall sh, o1 <> Ok sh) -> P (o1, s1)) -> P (andthen (o1, s1) k).
Proof. intros Hk Hf. destruct o1; cbn [andthen]; try (apply Hf; discriminate). apply Hk; reflexivity. Qed.

Ltac open_body :=
  unfold body, module_iter, block_iter, lambda_arm, cur_is, cur_lp, cur_ls, cur_renc, cur_arg_start, cur;
  cbv beta zeta; cbn [toks adv err1 enter tl] in *.
(** a test of a stream, or of an answer, that is a variable *)
Ltac split_var :=
  match goal with
  | |- context [match ?x with _ => _ end] => is_var x; destruct x
  | |- context [tl ?x] => is_var x; destruct x
  end.

(** [call f a b c e] with [f] the recursion or [conv]; [settle] runs whenever an answer has become known *)
Ltac step rec call tail ret settle :=
  first [ split_var; settle |
  lazymatch goal with
  | |- context [if ?b then _ else _] => destruct b eqn:?
  | |- context [tl ?x] => destruct x eqn:?
  | |- _ (andthen (rec ?a ?b ?c ?e) _) => call rec a b c e; apply andthen_cases; [intros ? ->; settle | intro]
  | |- _ (rec ?a ?b ?c ?e) => tail a b c e
  | |- _ (_, _) => ret
  | |- _ =>
    match goal with
    | |- context [match ?x with _ => _ end] =>
      lazymatch x with
      | rec ?a ?b ?c ?e => call rec a b c e
      | conv ?a ?b ?c ?e => call conv a b c e
      | context [match _ with _ => _ end] => fail
      | _ => destruct x eqn:?
      end
    end
  end ].
Ltac steps rec call tail ret settle :=
  open_body; repeat (progress (step rec call tail ret settle); cbn [toks adv err1 enter tl]).

(** why a callee had to consume: what the body has tested of the next token *)
Ltac had_to_consume :=
  first [ reflexivity | assumption
        | apply symnat_arg_start; assumption
        | apply lpg_arg_start; assumption
        | match goal with
          | E : is EOF ?t = false |- negb (is EOF ?t) = true => rewrite E; reflexivity
          | E : is COMMA ?t && _ = true |- is COMMA ?t = true => exact (proj1 (andb_prop _ _ E))
          end ].
(* once the answer of a callee is known, the premise of its consumption fact is proved or the fact dropped *)
Ltac settle :=
  repeat match goal with
         | F : _ /\ _ |- _ => destruct F
         | F : (must_consume ?c ?ts ?o = true) -> _ < _ |- _ =>
           first [ let P := fresh "P" in assert (P : must_consume c ts o = true) by (unfold must_consume, hd_live, cur; had_to_consume); specialize (F P); clear P
                 | clear F ]
         end.

(** what one turn of a loop leaves: less than it found if the loop goes around again *)
Definition iter_ok (ts : list tok) (it : iter) : Prop :=
  match it with
  | Stop r => length (toks (snd r)) <= length ts
  | Again s2 => length (toks s2) < length ts
  end.

Section Step.
  Variable rec : call -> nat -> nat -> st -> out * st.
  Hypothesis Hrec : len_inv rec.

  (* nothing is asked of the callee; known of its answer: [len_ok] on the stream it was given *)
  Ltac call f a b c e :=
    let F := fresh "F" in let o1 := fresh "o" in
    let ts1 := fresh "ts" in let ne1 := fresh "ne" in let md1 := fresh "md" in let ml1 := fresh "ml" in
    lazymatch f with
    | conv => pose proof (conv_toks a b c e) as F; destruct (conv a b c e) as [o1 [ts1 ne1 md1 ml1]];
              cbn [snd toks adv err1 enter] in F; subst ts1
    | _ => pose proof (Hrec a b c e) as F; destruct (f a b c e) as [o1 [ts1 ne1 md1 ml1]];
           unfold len_ok in F; cbn [fst snd toks adv err1 enter] in F
    end.
  (* the callees' consumption facts have premises: an equation, the caller's own "the head is live" [Hmc], or that an
     argument starts at the head; a fact whose premise cannot be had is dropped *)
  Ltac premises Hmc :=
    repeat match goal with
           | F : ?p -> _ < _ |- _ =>
             first [ specialize (F eq_refl)
                   | specialize (F Hmc)
                   | let P := fresh "P" in assert (P : p) by (first [ apply arg_start_live; assumption | apply symnat_arg_start; assumption ]); specialize (F P); clear P
                   | clear F ]
           end.
  (* the run ends here: nothing is produced, by [lia] over the callees' lengths; consumption, by handing [Hmc] to the
     callees that ran on the same head *)
  Ltac ret :=
    unfold len_ok; cbn [fst snd];
    repeat match goal with F : _ /\ _ |- _ => destruct F end;
    lens;
    (split; [lia |]);
    try match goal with |- context [must_consume _ _ ?o] => is_var o; destruct o end;
    try match goal with N : forall sh, Ok _ <> Ok sh |- _ => exfalso; exact (N _ eq_refl) end;
    unfold must_consume in *;
    first [ discriminate |
      let Hmc := fresh "Hmc" in intro Hmc;
      try (pose proof (drain_lt _ Hmc)); try (pose proof (next_expr_lt _ Hmc));
      unfold hd_live, cur in *;
      premises Hmc; cbn [length] in *; try lia;
      try congruence;
      (* no argument starts on a closing token *)
      try (destruct (arg_start_open _ Hmc); congruence) ].
  Ltac tail a b c e := call rec a b c e; ret.

  Lemma len_step : len_inv (body rec).
  Proof.
    intros c l d [ts ne md ml]. cbn [toks].
    destruct c; steps rec ltac:(fun f a b c e => call f a b c e) ltac:(fun a b c e => tail a b c e) ltac:(idtac; ret) ltac:(idtac).
  Qed.
  (* one turn of the loop of a module or of a block: the walk ends at the turn's result (no call in tail position, no
     answer of the method), which [turn] closes; the chunk of the turn started on a token other than EOF, so it
     consumed ([settle]) *)
  Ltac turn := unfold iter_ok; cbn [snd]; lens; lia.
  Lemma module_iter_len l d s : iter_ok (toks s) (module_iter rec l d s).
  Proof.
    destruct s as [ts ne md ml]. cbn [toks].
    steps rec ltac:(fun f a b c e => call f a b c e) ltac:(fun a b c e => fail) ltac:(fail) ltac:(idtac; settle); turn.
  Qed.
  Lemma block_iter_len ne0 l d s : iter_ok (toks s) (snd (block_iter rec ne0 l d s)).
  Proof.
    destruct s as [ts ne md ml]. cbn [toks].
    steps rec ltac:(fun f a b c e => call f a b c e) ltac:(fun a b c e => fail) ltac:(fail) ltac:(idtac; settle); turn.
  Qed.
End Step.

Lemma len_inv_exec n : len_inv (exec n).
Proof.
  induction n as [|n IH]; [|exact (len_step _ IH)].
  intros c l d s. split; cbn; [lia|]. destruct c; cbn; discriminate.
Qed.
