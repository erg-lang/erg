(** C09 — The parser is total and never exhausts the stack.

    For every input text, parsing terminates without crashing or aborting and yields either a syntax tree with no
    errors or at least one syntax error; bracket and block nesting up to the depth CPython accepts (200) is handled,
    and deeper nesting is reported as an error instead of overflowing the stack.

    Theorems over the model of ParseDepth/Model.v ([parse]: the recursion skeleton of the repaired parser on a token
    stream; `LIMIT` = MAX_NEST). What a Coq model cannot show - bytes of stack per frame - is measured by the check
    (checks/c09.py) and combined with [depth_bounded]. *)
From Coq Require Import List Arith Bool NArith.
Require Import ErgV.gen.ParseDepthConst .
Require Import ErgV.ParseDepth.Model ErgV.ParseDepth.Spec ErgV.ParseDepth.ProofsLen ErgV.ParseDepth.Proofs .
Import ListNotations.

(** The model's limit is the one in the source (gen/ParseDepthConst.v is regenerated from parse.rs on every run), and
    it leaves room for 200 constructs that cost 2 each (records, `if c, do:` blocks) plus the enclosing definition. *)
Theorem limit_matches_source : N.of_nat LIMIT = MAX_NEST /\ (2 * CPYTHON_DEPTH + 8 <= LIMIT)%nat.
Proof. split; [vm_compute; reflexivity | apply Nat.leb_le; reflexivity]. Qed.

(** Each turn of the top-level loop (try_reduce_module) that goes around again has consumed at least one token. *)
Theorem module_loop_progress : forall fuel l d s s2,
  module_iter (exec fuel) l d s = Again s2 -> length (toks s2) < length (toks s).
Proof. intros fuel l d s s2 H. pose proof (module_iter_len _ (len_inv_exec fuel) l d s) as L. rewrite H in L. exact L. Qed.
Example module_loop_progress_ex :
  exists s2, module_iter (exec 50) 1 0 (mkst [RP; NL; SYM; NL; EOF] 0 0 0) = Again s2 /\ toks s2 = [SYM; NL; EOF].
Proof. eexists; split; vm_compute; reflexivity. Qed.

(** The same for the loop over the lines of an indented block (try_reduce_block). *)
Theorem block_loop_progress : forall fuel ne l d s ne' s2,
  block_iter (exec fuel) ne l d s = (ne', Again s2) -> length (toks s2) < length (toks s).
Proof. intros fuel ne l d s ne' s2 H. pose proof (block_iter_len _ (len_inv_exec fuel) ne l d s) as L. rewrite H in L. exact L. Qed.
Example block_loop_progress_ex :
  exists s2, block_iter (exec 50) false 3 1 (mkst [NAT; RP; NL; SYM; NL; DED; EOF] 0 0 0) = (true, Again s2)
             /\ toks s2 = [SYM; NL; DED; EOF].
Proof. eexists; split; vm_compute; reflexivity. Qed.

(** The recovery loops next_expr, next_line, until_dedent and the give-up loop of `nested` only drop tokens, and
    next_expr / the give-up loop drop at least one when the next token is not EOF. *)
Theorem recovery_loops_progress : forall ts,
  length (next_expr ts) <= length ts /\ length (next_line ts) <= length ts /\
  (forall k, length (until_dedent k ts) <= length ts) /\ length (drain ts) <= length ts /\
  (hd_live ts = true -> length (next_expr ts) < length ts /\ length (drain ts) < length ts).
Proof.
  intro ts. repeat split; try apply next_expr_le; try apply drain_le; try (intro; apply until_dedent_le).
  - apply next_expr_lt; assumption.
  - apply drain_lt; assumption.
Qed.
Example recovery_loops_progress_ex : next_expr [RP; RP; NL; SYM; EOF] = [SYM; EOF] /\ until_dedent 1 [IND; SYM; DED; DED; NAT] = [NAT].
Proof. split; reflexivity. Qed.

(** Termination for all token lists: [bound ts] units of fuel are never used up. *)
Theorem parse_terminates : forall ts, fst (parse ts) <> Fuel.
Proof. exact ProofsFuel.fuel_sufficient. Qed.
Example parse_terminates_ex : fst (parse [RP; LP; LS; COMMA; ARROW; PRE; EOF]) = Ok SOther /\ nerr (snd (parse [RP; LP; LS; COMMA; ARROW; PRE; EOF])) = 1.
Proof. split; vm_compute; reflexivity. Qed.

(** For ALL token sequences the recursion of the model is bounded by a constant determined by LIMIT: `depth` never
    exceeds LIMIT and at most 6 * LIMIT + 2 instrumented frames are ever nested. *)
Theorem depth_bounded : forall ts, max_depth (parse ts) <= LIMIT /\ max_level (parse ts) <= 6 * LIMIT + 2.
Proof.
  intro ts. destruct (ProofsBnd.parse_fuel_bounded (bound ts) ts) as [A B]. split; [exact A|].
  apply Nat.le_trans with (1 := B), Nat.leb_le. reflexivity.
Qed.
(** non-vacuity: 1000 nested calls reach depth LIMIT and 6 * LIMIT + 1 frames, one short of the bound stated above *)
Example depth_bounded_ex :
  max_depth (parse (uniform KCall 1000)) = LIMIT /\ max_level (parse (uniform KCall 1000)) = 6 * LIMIT + 1.
Proof.
  assert (H : LIMIT <= 1000) by (apply Nat.leb_le; reflexivity).
  split; [apply deep_parse; [discriminate | exact H] | exact (deep_calls_frames 1000 H)].
Qed.

(** Full statement wanted: for every well-nested program, nesting > LIMIT -> an error is reported.
    Proved: for every depth (no bound) and each one-line construct nested uniformly - parentheses, list, set, prefix
    operator, lambda, call with and without parentheses, subscript, star-less multiplication.
    Missing: mixtures of kinds (a combination may cost less than one unit of depth per construct, e.g. `f (x)` is one
    call, so the statement needs the cost function; sampled by the check) and indented blocks (the lexer refuses more
    than 100 columns of indentation before the parser sees them: known finding, Spec.Known_indent). *)
Theorem deep_nesting_is_error_partial : forall k n,
  k <> KLamBlock -> LIMIT <= n -> reports (parse (uniform k n)) = true.
Proof. intros k n Hk Hn. apply deep_parse; assumption. Qed.
Example deep_nesting_is_error_ex :
  reports (parse (uniform KSet 513)) = true /\ nerr (snd (parse (uniform KSet 513))) = 1 /\ reports (parse (lamblock 600)) = true.
Proof.
  assert (Hk : KSet <> KLamBlock) by discriminate. destruct (uniform_parse KSet 513 Hk) as (_ & U).
  split; [apply (deep_parse KSet 513 Hk), Nat.leb_le; reflexivity|]. split; [exact (proj1 U) | vm_compute; reflexivity].
Qed.

(** Full statement wanted: every well-nested program with at most 200 nested constructs parses without any error.
    Proved: each one-line construct nested uniformly 0..200 deep (Proofs.shallow_parse: every depth below LIMIT), and,
    by computation, 0..100 indented lambda blocks (all the lexer can deliver). Missing: mixtures (sampled by the check). *)
Theorem shallow_nesting_ok_partial :
  (forall k n, k <> KLamBlock -> n <= CPYTHON_DEPTH -> clean (parse (uniform k n)) = true) /\
  (forall n, n <= 100 -> clean (parse (lamblock n)) = true).
Proof. split; [exact shallow_uniform | exact shallow_lamblock]. Qed.
Example shallow_nesting_ok_ex : clean (parse (uniform KSubscr 200)) = true /\ max_depth (parse (uniform KSubscr 200)) = 201.
Proof. apply shallow_parse; [discriminate | apply Nat.ltb_lt; reflexivity]. Qed.

(** The executable statement of the property (Spec.judge) accepts what the model does on these programs. *)
Theorem model_meets_judge : forall k n,
  k <> KLamBlock -> n <= CPYTHON_DEPTH \/ LIMIT < n ->
  judge (mkobs (Some n) 0 0 (model_ending (parse (uniform k n)))) = true.
Proof. intros k n Hk _. apply model_judge; exact Hk. Qed.

(** Before the repair nothing bounded the depth: 600 nested parentheses go beyond LIMIT, and at each of five sampled
    nestings n the depth is at least n. *)
Theorem depth_unbounded_refuted :
  exists ts, LIMIT < max_depth (parse_nofix (bound ts) ts) /\
             forallb (fun n => Nat.leb n (max_depth (parse_nofix (bound (uniform KParen n)) (uniform KParen n)))) [1; 10; 100; 600; 1000] = true.
Proof.
  exists (uniform KParen 600). split; [|exact nofix_depth_grows].
  rewrite nofix_depth. apply Nat.ltb_lt. reflexivity.
Qed.
