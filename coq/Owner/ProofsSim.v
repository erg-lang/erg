(** C23: on a well-formed tree the checker of Model.v computes exactly the uses-after-move of the
    Spec, or panics where the Spec finds a move of an unbound name. [Sims c evs]: the piece [c] of the checker
    against the events [evs], from any refining state. Pieces compose as their events concatenate ([Sims_bind]), so
    every arm of check_expr is matched with its arm of [events] piece by piece ([sim_expr]). *)
From Coq Require Import ZArith List Bool Lia.
From ErgV Require Import Owner.Model Owner.Spec Owner.ProofsState.
Import ListNotations.
Open Scope Z_scope.

Section ExprInd.
  Variable P : expr -> Prop.
  Hypothesis HLit : P ELit.
  Hypothesis HVar : forall l x m, P (EVar l x m).
  Hypothesis HAttr : forall o, P o -> P (EAttr o).
  Hypothesis HCall : forall c sg pos star kwn kws kwstar,
      P c -> Forall P pos -> Forall P star -> Forall P kws -> Forall P kwstar -> P (ECall c sg pos star kwn kws kwstar).
  Hypothesis HBin : forall l r, P l -> P r -> P (EBinOp l r).
  Hypothesis HUn : forall a, P a -> P (EUnary a).
  Hypothesis HColl : forall k es, Forall P es -> P (EColl k es).
  Hypothesis HCollTodo : P ECollTodo.
  Hypothesis HLam : forall n names ds body, Forall P ds -> Forall P body -> P (ELambda n names ds body).
  Hypothesis HDef : forall k pub n names ds body, Forall P ds -> Forall P body -> P (EDef k pub n names ds body).
  Hypothesis HClass : forall hs ms, Forall P hs -> Forall P ms -> P (EClassDef hs ms).
  Hypothesis HAsc : forall a, P a -> P (ETypeAsc a).
  Hypothesis HOther : forall subs, P (EOther subs).

  Fixpoint expr_ind' (e : expr) : P e :=
    let go := Common.Lists.Forall_all expr_ind' in
    match e with
    | ELit => HLit
    | EVar l x m => HVar l x m
    | EAttr o => HAttr o (expr_ind' o)
    | ECall c sg pos star kwn kws kwstar =>
      HCall c sg pos star kwn kws kwstar (expr_ind' c) (go pos) (go star) (go kws) (go kwstar)
    | EBinOp l r => HBin l r (expr_ind' l) (expr_ind' r)
    | EUnary a => HUn a (expr_ind' a)
    | EColl k es => HColl k es (go es)
    | ECollTodo => HCollTodo
    | ELambda n names ds body => HLam n names ds body (go ds) (go body)
    | EDef k pub n names ds body => HDef k pub n names ds body (go ds) (go body)
    | EClassDef hs ms => HClass hs ms (go hs) (go ms)
    | ETypeAsc a => HAsc a (expr_ind' a)
    | EOther subs => HOther subs
    end.
End ExprInd.

Lemma run_app : forall a b en,
    run_events en (a ++ b) =
    let '(en1, u1, b1) := run_events en a in
    let '(en2, u2, b2) := run_events en1 b in
    (en2, u1 ++ u2, b1 && b2).
Proof.
  induction a as [|e a IH]; intros b en; cbn [app run_events].
  - destruct (run_events en b) as [[en2 u2] b2]. reflexivity.
  - destruct (step en e) as [[en1 u1] b1]. rewrite IH.
    destruct (run_events en1 a) as [[en2 u2] b2]. destruct (run_events en2 b) as [[en3 u3] b3].
    rewrite app_assoc, andb_assoc. reflexivity.
Qed.

Definition strip (e : err) : uam := (e_name e, e_loc e, e_moved e).

Definition pos_of (o : own) (chunk : bool) : pos :=
  match o with Owned => if chunk then PStmt else POwn | _ => PBorrow end.

Lemma sub_pos_of : forall o chunk, sub (pos_of o chunk) = pos_of o false.
Proof. intros [| |] [|]; reflexivity. Qed.

Lemma is_own_pos_of : forall o chunk, is_own (pos_of o chunk) = is_owned o && negb chunk.
Proof. intros [| |] [|]; reflexivity. Qed.

Definition Sim (s s' : st) (en' : env) (us : list uam) : Prop :=
  stk s' = stk s /\ refines s' en' /\ map strip (errs s') = map strip (errs s) ++ us.

Lemma Sim_refl : forall s en, refines s en -> Sim s s en [].
Proof. intros s en H. split; [reflexivity|]. split; [exact H|]. rewrite app_nil_r. reflexivity. Qed.

Lemma Sim_dict : forall s d' en', Rl (stk s) d' en' -> Sim s (MkSt (stk s) d' (errs s)) en' [].
Proof. intros s d' en' H. split; [reflexivity|]. split; [exact H|]. cbn [errs]. rewrite app_nil_r. reflexivity. Qed.

Lemma Sim_trans : forall s s1 s2 en1 en2 u1 u2,
    Sim s s1 en1 u1 -> Sim s1 s2 en2 u2 -> Sim s s2 en2 (u1 ++ u2).
Proof.
  intros s s1 s2 en1 en2 u1 u2 [Ha [_ Hc]] [Ha' [Hb' Hc']].
  split; [congruence|]. split; [exact Hb'|]. rewrite Hc', Hc, app_assoc. reflexivity.
Qed.

(** While every moved name is bound, [c] does to the state what the events do to the environment and reports the
    uses-after-move found on the way; the first move of an unbound name is where `drop` panics, and the flag of
    [run_events] falls. The path stack is never empty: [check] pushes the component of the module first. *)
Definition Sims (c : st -> res st) (evs : list event) : Prop :=
  forall s en, stk s <> [] -> refines s en ->
    match run_events en evs with
    | (en', us, true) => exists s', c s = Ok s' /\ Sim s s' en' us
    | (_, _, false) => c s = Panic P_not_found
    end.

Lemma Sims_ret : Sims Ok [].
Proof. intros s en _ HR. exists s. split; [reflexivity|exact (Sim_refl s en HR)]. Qed.

Lemma Sims_bind : forall c1 c2 ev1 ev2,
    Sims c1 ev1 -> Sims c2 ev2 -> Sims (fun s => bind (c1 s) c2) (ev1 ++ ev2).
Proof.
  intros c1 c2 ev1 ev2 H1 H2 s en Hne HR. rewrite run_app. specialize (H1 s en Hne HR).
  destruct (run_events en ev1) as [[en1 u1] [|]].
  - destruct H1 as [s1 [Hc1 S1]]. rewrite Hc1. cbn [bind]. pose proof S1 as [Hs1 [HR1 _]].
    assert (Hne1 : stk s1 <> []) by congruence. specialize (H2 s1 en1 Hne1 HR1).
    destruct (run_events en1 ev2) as [[en2 u2] [|]]; [|exact H2].
    destruct H2 as [s2 [Hc2 S2]]. exists s2. split; [exact Hc2|]. exact (Sim_trans _ _ _ _ _ _ _ S1 S2).
  - rewrite H1. destruct (run_events en1 ev2) as [[en2 u2] b2]. reflexivity.
Qed.

Lemma Sims_define_name : forall x, Sims (define_name x) [EvBind x].
Proof.
  intros x s en Hne HR. destruct (refines_cons s en Hne HR) as [f [en0 E]]. subst en.
  destruct (define_name_bind x s f en0 HR) as [d' [Hd HR']].
  eexists. split; [exact Hd|exact (Sim_dict s d' _ HR')].
Qed.

Lemma Sims_define_names : forall xs, Sims (define_names xs) (map EvBind xs).
Proof.
  induction xs as [|x xs IH]; [exact Sims_ret|]. exact (Sims_bind _ _ _ _ (Sims_define_name x) IH).
Qed.

Lemma Sims_scope : forall c k evs,
    Sims k evs ->
    Sims (fun s => bind (k (push_scope c s)) (fun s => Ok (pop_scope s))) ([EvEnter] ++ evs ++ [EvExit]).
Proof.
  intros c k evs Hk s en Hne HR. cbn [app run_events step]. rewrite run_app.
  assert (Hne1 : stk (push_scope c s) <> []) by discriminate.
  specialize (Hk (push_scope c s) ([] :: en) Hne1 (refines_push c s en HR)).
  destruct (run_events ([] :: en) evs) as [[en1 u1] [|]]; cbn [run_events step app andb].
  - destruct Hk as [s1 [Hc1 [Hs1 [HR1 He1]]]]. rewrite Hc1, app_nil_r. cbn [bind]. eexists. split; [reflexivity|].
    split; [unfold pop_scope; cbn [stk]; rewrite Hs1; reflexivity|].
    split; [exact (refines_pop s1 en1 HR1)|exact He1].
  - rewrite Hk. reflexivity.
Qed.

Definition SimE (e : expr) : Prop :=
  forall o chunk, Sims (check_expr e o chunk) (events e (pos_of o chunk)).

Lemma sim_ident : forall l x m, SimE (EVar l x m).
Proof.
  intros l x m o chunk s en _ HR.
  cbn [events run_events step check_expr]. rewrite is_own_pos_of, andb_assoc.
  unfold check_ident. rewrite (check_if_dropped_lookup x s en HR). cbn [bind].
  pose proof (Sim_refl s en HR) as Same.
  destruct (lookup x en) as [[ml|]|] eqn:Hl.
  - eexists. split; [reflexivity|].
    split; [reflexivity|]. split; [exact HR|]. cbn [push_err errs]. rewrite map_app. reflexivity.
  - destruct (m && is_owned o && negb chunk); [|exists s; split; [reflexivity|exact Same]].
    destruct (drop_alive x l s en HR Hl) as [d' [Hd HR']]. eexists. split; [exact Hd|exact (Sim_dict s d' _ HR')].
  - destruct (m && is_owned o && negb chunk); [exact (drop_unbound x l s en HR Hl)|].
    exists s. split; [reflexivity|exact Same].
Qed.

Lemma sim_iter : forall l, Forall SimE l -> forall o,
    Sims (iter check_expr o l) (ev_all events (pos_of o false) l).
Proof.
  induction 1 as [|a l Ha _ IH]; intro o; [exact Sims_ret|]. exact (Sims_bind _ _ _ _ (Ha o false) (IH o)).
Qed.

Lemma sim_iter_chunks : forall l, Forall SimE l -> Sims (iter_chunks check_expr l) (ev_all events PStmt l).
Proof.
  induction 1 as [|a l Ha _ IH]; [exact Sims_ret|]. exact (Sims_bind _ _ _ _ (Ha Owned true) IH).
Qed.

Lemma sim_iter_block : forall l, Forall SimE l -> Sims (iter_block check_expr l) (ev_block events l).
Proof.
  induction 1 as [|a l Ha _ IH]; [exact Sims_ret|].
  destruct l as [|b l]; [exact (Ha Owned false)|exact (Sims_bind _ _ _ _ (Ha Owned true) IH)].
Qed.

Lemma sim_check_block : forall l, Forall SimE l -> forall bound,
    Sims (check_block check_expr bound l) (ev_body events bound l).
Proof. intros l Fl [|]; [exact (sim_iter_block l Fl)|exact (sim_iter_chunks l Fl)]. Qed.

Lemma bind_assoc : forall {A B C} (r : res A) (f : A -> res B) (g : B -> res C),
    bind (bind r f) g = bind r (fun a => bind (f a) g).
Proof. intros A B C [a|z] f g; reflexivity. Qed.

Lemma sim_body : forall c names bound body k' evs',
    Forall SimE body -> Sims k' evs' ->
    Sims (fun s => bind (define_names names (push_scope c s))
                        (fun s => bind (check_block check_expr bound body s) (fun s => k' (pop_scope s))))
         ([EvEnter] ++ map EvBind names ++ ev_body events bound body ++ [EvExit] ++ evs').
Proof.
  intros c names bound body k' evs' Fbody Hk' s en.
  pose proof (Sims_scope c _ _ (Sims_bind _ _ _ _ (Sims_define_names names) (sim_check_block body Fbody bound)))
    as Hscope.
  pose proof (Sims_bind _ _ _ _ Hscope Hk' s en) as H. cbv beta in H. rewrite !bind_assoc in H.
  rewrite <- !app_assoc in H. exact H.
Qed.

(** args_ownership in closed form; the name of an unnamed default parameter is never looked at *)
Definition named (p : param) : bool := match p_name p with Some _ => true | None => false end.
Definition p_own (p : param) : own := own_of_kind (p_kind p).
Definition nd_own (p : param) : option str * own := (p_name p, p_own p).
Definition d_own (p : param) : str * own := (match p_name p with Some n => n | None => [] end, p_own p).

Definition ao_of (g : subr_sig) : args_own :=
  MkAO (map nd_own (sg_nd g)) (map p_own (sg_var g)) (map d_own (sg_d g)) (map p_own (sg_kwvar g)).

Lemma d_owns_spec : forall ps,
    d_owns ps = if forallb named ps then Ok (map d_own ps) else Panic P_dname_unwrap.
Proof.
  induction ps as [|p ps IH]; cbn [d_owns forallb map]; [reflexivity|].
  unfold named at 1, d_own at 1. destruct (p_name p); [|reflexivity].
  rewrite IH. destruct (forallb named ps); reflexivity.
Qed.

Lemma args_ownership_spec : forall g,
    args_ownership g = if forallb named (sg_d g) then Ok (ao_of g) else Panic P_dname_unwrap.
Proof. intro g. unfold args_ownership. rewrite d_owns_spec. destruct (forallb named (sg_d g)); reflexivity. Qed.

Lemma pos_of_kind : forall p, pos_of (p_own p) false = decl_pos p.
Proof. intros [n [| | |]]; reflexivity. Qed.

(** walk_pos stops at a surplus argument, [ev_zip] goes on: there must be none *)
Lemma sim_walk_pos : forall l, Forall SimE l -> forall var nds ds m,
    (length l <= m)%nat -> var <> [] \/ (length l <= length nds + length ds)%nat ->
    Sims (walk_pos check_expr (map p_own var) l (map p_own nds) (map p_own ds))
         (ev_zip events l (firstn (length l) (map decl_pos nds ++
                                              match var with
                                              | v :: _ => repeat (decl_pos v) m
                                              | [] => map decl_pos ds ++ repeat PBorrow m
                                              end))).
Proof.
  induction 1 as [|a l Ha _ IH]; intros var nds ds m Hm Hfit; [exact Sims_ret|].
  cbn [length] in Hm, Hfit. destruct m as [|m]; [lia|].
  assert (Hp : forall p, Sims (check_expr a (p_own p) false) (events a (decl_pos p))).
  { intro p. rewrite <- pos_of_kind. exact (Ha (p_own p) false). }
  destruct nds as [|p nds]; [destruct var as [|p var]; [destruct ds as [|p ds]|]|].
  - exfalso. destruct Hfit as [Hf|Hf]; [congruence|cbn [length] in Hf; lia].
  - refine (Sims_bind _ _ _ _ (Hp p) (IH [] [] ds (S m) _ _)); [lia|].
    right. destruct Hfit as [Hf|Hf]; [congruence|cbn [length] in *; lia].
  - refine (Sims_bind _ _ _ _ (Hp p) (IH (p :: var) [] ds m _ _)); [lia|]. left. discriminate.
  - refine (Sims_bind _ _ _ _ (Hp p) (IH var nds ds (S m) _ _)); [lia|].
    destruct Hfit as [Hf|Hf]; [left; exact Hf|right; cbn [length] in *; lia].
Qed.

Lemma find_d_own : forall k ps,
    forallb named ps = true ->
    find (fun q : str * own => str_eqb (fst q) k) (map d_own ps) = option_map d_own (find (has_name k) ps).
Proof.
  intros k ps. induction ps as [|p ps IH]; cbn [forallb map find]; [reflexivity|]. intro H.
  apply andb_prop in H as [Hn H]. unfold named in Hn. unfold has_name at 1, d_own at 1.
  destruct (p_name p) as [n|]; [|discriminate]. cbn [fst]. destruct (str_eqb n k); [reflexivity|exact (IH H)].
Qed.

Lemma find_nd_own : forall k nd,
    find (fun q : option str * own => match fst q with Some n => str_eqb n k | None => false end) (map nd_own nd) =
    option_map nd_own (find (has_name k) nd).
Proof.
  intros k nd. induction nd as [|p nd IH]; cbn [map find nd_own fst]; [reflexivity|].
  fold (has_name k p). fold (nd_own p). destruct (has_name k p); [reflexivity|exact IH].
Qed.

Lemma find_none_existsb : forall {A} (f : A -> bool) l, find f l = None -> existsb f l = false.
Proof.
  intros A f l. induction l as [|a l IH]; cbn [find existsb]; [reflexivity|].
  destruct (f a); [discriminate|]. exact IH.
Qed.

(** the clause of [wf_sig] on a keyword *)
Definition kw_known (g : subr_sig) (k : str) : bool :=
  existsb (has_name k) (sg_d g) || existsb (has_name k) (sg_nd g) || match sg_kwvar g with [] => false | _ => true end.

Lemma kw_own_keyword : forall g k,
    forallb named (sg_d g) = true -> kw_known g k = true ->
    exists o, kw_own (ao_of g) k = Ok o /\ pos_of o false = keyword g k.
Proof.
  intros g k Hd Hres. unfold kw_own, keyword, ao_of. cbn [ao_d ao_nd ao_kwvar].
  rewrite (find_d_own k _ Hd), find_nd_own.
  destruct (find (has_name k) (sg_d g)) as [p|] eqn:Ed; cbn [option_map d_own];
    [exists (p_own p); split; [reflexivity|apply pos_of_kind]|].
  destruct (find (has_name k) (sg_nd g)) as [p|] eqn:En; cbn [option_map nd_own];
    [exists (p_own p); split; [reflexivity|apply pos_of_kind]|].
  unfold kw_known in Hres. rewrite (find_none_existsb _ _ Ed), (find_none_existsb _ _ En) in Hres.
  destruct (sg_kwvar g) as [|v vs]; [discriminate|].
  exists (p_own v). split; [reflexivity|apply pos_of_kind].
Qed.

Lemma sim_walk_kw : forall g l, Forall SimE l -> forallb named (sg_d g) = true -> forall ks,
    length ks = length l -> forallb (kw_known g) ks = true ->
    Sims (walk_kw check_expr (ao_of g) l ks) (ev_zip events l (map (keyword g) ks)).
Proof.
  intros g l Fl Hd. induction Fl as [|a l Ha _ IH]; intros [|k ks] Hlen Hks; try discriminate; [exact Sims_ret|].
  cbn [forallb] in Hks. apply andb_prop in Hks as [Hk Hks]. injection Hlen as Hlen.
  destruct (kw_own_keyword g k Hd Hk) as [o [Ho Hp]].
  intros s en. cbn [walk_kw map ev_zip]. rewrite Ho, <- Hp. cbn [bind].
  exact (Sims_bind _ _ _ _ (Ha o false) (IH ks Hlen Hks) s en).
Qed.

(** `non_defaults.len() - 1` of a method, and what is then skipped of the non-default ownerships: `self` *)
Lemma skipn_self : forall {A} (l : list A), skipn (length l - Nat.pred (length l)) l = tl l.
Proof.
  intros A [|a l]; [reflexivity|]. cbn [length Nat.pred].
  replace (S (length l) - length l)%nat with 1%nat by lia. reflexivity.
Qed.

Lemma sim_call : forall callee g pos star kwn kws kwstar,
    SimE callee -> Forall SimE pos -> Forall SimE star -> Forall SimE kws -> Forall SimE kwstar ->
    length kwn = length kws -> wf_sig g (length pos) kwn = true ->
    SimE (ECall callee (SigSubr g) pos star kwn kws kwstar).
Proof.
  intros callee g pos star kwn kws kwstar Hc Fpos Fstar Fkws Fkwstar Hlen W o chunk.
  unfold wf_sig in W. apply andb_prop in W as [W Wkw]. apply andb_prop in W as [W Wfit].
  apply andb_prop in W as [Wself Wd].
  change (forallb named (sg_d g) = true) in Wd.
  cbn [events check_expr]. apply Sims_bind; [exact (Hc Ref false)|].
  assert (Hrest : Sims (fun s => bind (iter check_expr Ref star s) (fun s =>
                                 bind (walk_kw check_expr (ao_of g) kws kwn s) (iter check_expr Ref kwstar)))
                       (ev_all events PBorrow star ++ ev_zip events kws (map (keyword g) kwn) ++
                        ev_all events PBorrow kwstar)).
  { exact (Sims_bind _ _ _ _ (sim_iter star Fstar Ref)
             (Sims_bind _ _ _ _ (sim_walk_kw g kws Fkws Wd kwn Hlen Wkw) (sim_iter kwstar Fkwstar Ref))). }
  assert (Hpos : Sims (walk_pos check_expr (ao_var (ao_of g)) pos
                                (map snd (map nd_own (if sg_method g then tl (sg_nd g) else sg_nd g)))
                                (map snd (ao_d (ao_of g))))
                      (ev_zip events pos (positional g (length pos)))).
  { cbn [ao_of ao_var ao_d]. rewrite !map_map.
    apply (sim_walk_pos pos Fpos (sg_var g) _ (sg_d g)); [exact (le_n _)|].
    destruct (sg_var g); [right|left; discriminate]. apply Nat.leb_le in Wfit. exact Wfit. }
  intros s en. rewrite args_ownership_spec, Wd. cbn [bind ao_of ao_nd].
  destruct (sg_method g).
  - destruct (sg_nd g) as [|p0 nd]; [discriminate|]. cbn [map bind]. rewrite skipn_self.
    exact (Sims_bind _ _ _ _ Hpos Hrest s en).
  - cbn [bind]. rewrite Nat.sub_diag.
    exact (Sims_bind _ _ _ _ Hpos Hrest s en).
Qed.

Lemma Forall_wf : forall l, Forall (fun a => wf a = true -> SimE a) l -> forallb wf l = true -> Forall SimE l.
Proof.
  intros l H Hw. revert H. apply (Common.Lists.Forall_forallb_impl wf); [intros a Ha Hp; exact (Hp Ha)|exact Hw].
Qed.

Lemma is_nil_true : forall {A} (l : list A), is_nil l = true -> l = [].
Proof. intros A [|a l] H; [reflexivity|discriminate]. Qed.

Theorem sim_expr : forall e, wf e = true -> SimE e.
Proof.
  induction e using expr_ind'; intro Hwf; cbn [wf] in Hwf.
  - intros o chunk. exact Sims_ret.
  - apply sim_ident.
  - intros o chunk. cbn [events]. rewrite sub_pos_of. exact (IHe Hwf o false).
  - rename H into Hpos, H0 into Hstar, H1 into Hkws, H2 into Hkwstar.
    apply andb_prop in Hwf as [Hwf Wsg]. apply andb_prop in Hwf as [Hwf Wlen].
    apply andb_prop in Hwf as [Hwf Wkwstar]. apply andb_prop in Hwf as [Hwf Wkws].
    apply andb_prop in Hwf as [Hwf Wstar]. apply andb_prop in Hwf as [Wc Wpos].
    apply Nat.eqb_eq in Wlen. destruct sg as [| |g]; [|discriminate|].
    + (* no subroutine type: the checker returns after the callee, and there are no arguments *)
      apply andb_prop in Wsg as [Wsg N4]. apply andb_prop in Wsg as [Wsg N3]. apply andb_prop in Wsg as [N1 N2].
      apply is_nil_true in N1, N2, N3, N4. subst pos star kws kwstar.
      intros o chunk. exact (Sims_bind _ _ _ _ (IHe Wc Ref false) Sims_ret).
    + exact (sim_call e g pos star kwn kws kwstar (IHe Wc) (Forall_wf _ Hpos Wpos) (Forall_wf _ Hstar Wstar)
                      (Forall_wf _ Hkws Wkws) (Forall_wf _ Hkwstar Wkwstar) Wlen Wsg).
  - apply andb_prop in Hwf as [W1 W2].
    intros o chunk. exact (Sims_bind _ _ _ _ (IHe1 W1 Ref false) (IHe2 W2 Ref false)).
  - intros o chunk. exact (IHe Hwf Ref false).
  - apply andb_prop in Hwf as [W1 _].
    intros o chunk. cbn [events]. rewrite sub_pos_of. destruct k; exact (sim_iter es (Forall_wf _ H W1) o).
  - discriminate.
  - apply andb_prop in Hwf as [W1 W2].
    intros o chunk.
    exact (Sims_bind _ _ _ _ (sim_iter ds (Forall_wf _ H W1) Ref)
             (sim_body (false, n) names false body Ok [] (Forall_wf _ H0 W2) Sims_ret)).
  - apply andb_prop in Hwf as [Hwf W3]. apply andb_prop in Hwf as [W1 W2].
    pose proof (Forall_wf _ H W1) as Fds. pose proof (Forall_wf _ H0 W2) as Fbody.
    intros o chunk. destruct k.
    + (* a variable: bound after its initialiser *)
      apply andb_prop in W3 as [N1 N2]. apply is_nil_true in N1, N2. subst names ds.
      exact (sim_body (pub, n) [] true body (define_name n) [EvBind n] Fbody (Sims_define_name n)).
    + exact (Sims_bind _ _ _ _ (Sims_define_name n)
               (Sims_bind _ _ _ _ (sim_iter ds Fds Ref) (sim_body (pub, n) names false body Ok [] Fbody Sims_ret))).
    + apply andb_prop in W3 as [N1 N2]. apply is_nil_true in N1, N2. subst names ds.
      exact (sim_body (pub, [42]) [] true body Ok [] Fbody Sims_ret).
  - apply andb_prop in Hwf as [W1 W2].
    intros o chunk.
    exact (Sims_bind _ _ _ _ (sim_iter hs (Forall_wf _ H W1) Owned) (sim_iter_chunks ms (Forall_wf _ H0 W2))).
  - intros o chunk. exact (IHe Hwf o chunk).
  - apply is_nil_true in Hwf. subst subs. intros o chunk. exact Sims_ret.
Qed.
