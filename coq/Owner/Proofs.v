(** C23: the checker against the Spec on whole modules; then the checker, [args_ownership] and the moved set at one
    occurrence. *)
From Coq Require Import ZArith List Bool Lia.
From ErgV Require Import Owner.Model Owner.Spec Owner.ProofsState Owner.ProofsSim.
Import ListNotations.
Open Scope Z_scope.

(** on a well-formed module the checker reports exactly the uses-after-move of the Spec, in source order, if every
    moved variable is bound, and panics with "variable not found" if not *)
Theorem check_spec : forall name chunks,
    wf_module chunks = true ->
    if well_scoped chunks then exists es, check name chunks = Ok es /\ map strip es = uams chunks
    else check name chunks = Panic P_not_found.
Proof.
  intros name chunks Hwf. unfold check, uams, well_scoped, events_module. cbn [run_events step].
  assert (Fch : Forall SimE chunks).
  { apply Forall_wf; [|exact Hwf]. apply Forall_forall. intros e _. exact (sim_expr e). }
  assert (Hne : stk (push_scope (false, name) init_st) <> []) by discriminate.
  match goal with |- context [run_events ?en ?evs] =>
    pose proof (sim_iter_chunks chunks Fch _ en Hne (refines_push _ init_st [] I)) as H;
    destruct (run_events en evs) as [[en' us] [|]]; cbn [fst snd app andb]
  end.
  - destruct H as [s1 [Hc1 [_ [_ Hm]]]].
    rewrite Hc1. cbn [bind]. exists (errs s1). split; [reflexivity|exact Hm].
  - rewrite H. reflexivity.
Qed.

Theorem check_refines_spec : forall name chunks,
    wf_module chunks = true -> well_scoped chunks = true ->
    exists es, check name chunks = Ok es /\ map strip es = uams chunks.
Proof. intros name chunks Hwf Hws. pose proof (check_spec name chunks Hwf) as H. rewrite Hws in H. exact H. Qed.

Lemma ident_not_moved : forall l x m o chunk s s',
    m = false \/ o <> Owned \/ chunk = true ->
    check_expr (EVar l x m) o chunk s = Ok s' ->
    dict s' = dict s /\ stk s' = stk s.
Proof.
  intros l x m o chunk s s' Hc H. cbn [check_expr] in H. unfold check_ident in H.
  destruct (check_if_dropped x s) as [[ml|]|z]; cbn [bind] in H; try discriminate.
  - inversion H; subst. split; reflexivity.
  - assert (Hf : m && is_owned o && negb chunk = false).
    { destruct Hc as [Hc|[Hc|Hc]]; subst.
      - reflexivity.
      - destruct o; try contradiction; destruct m; reflexivity.
      - destruct m, (is_owned o); reflexivity. }
    rewrite Hf in H. inversion H; subst. split; reflexivity.
Qed.

Lemma own_of_kind_owned : forall k, is_owned (own_of_kind k) = true <-> k = KMut.
Proof. intros [| | |]; cbn; split; intro H; try discriminate; reflexivity. Qed.

Lemma args_ownership_kinds : forall g ao,
    args_ownership g = Ok ao ->
    map (fun q => is_owned (snd q)) (ao_nd ao) = map (fun p => match p_kind p with KMut => true | _ => false end) (sg_nd g) /\
    map (fun q => is_owned (snd q)) (ao_d ao) = map (fun p => match p_kind p with KMut => true | _ => false end) (sg_d g) /\
    map is_owned (ao_var ao) = map (fun p => match p_kind p with KMut => true | _ => false end) (sg_var g) /\
    map is_owned (ao_kwvar ao) = map (fun p => match p_kind p with KMut => true | _ => false end) (sg_kwvar g).
Proof.
  intros g ao H. rewrite args_ownership_spec in H. destruct (forallb named (sg_d g)); [|discriminate].
  inversion H; subst ao. cbn [ao_of ao_nd ao_d ao_var ao_kwvar]. rewrite !map_map.
  repeat split; apply map_ext; intros [n [| | |]]; reflexivity.
Qed.

Lemma lookup_mark : forall x l en, lookup x en <> None -> lookup x (mark x l en) = Some (Some l).
Proof.
  intros x l en. induction en as [|f en IH]; cbn [lookup mark]; [congruence|].
  destruct (lookup_frame x f) as [v|] eqn:E; cbn [lookup].
  - intros _. rewrite lookup_mark_frame; [reflexivity|congruence].
  - rewrite E. exact IH.
Qed.

Lemma lookup_mark_other : forall x y l en, str_eqb x y = false -> lookup x (mark y l en) = lookup x en.
Proof.
  intros x y l en Hxy. induction en as [|f en IH]; cbn [mark lookup]; [reflexivity|].
  destruct (lookup_frame y f); cbn [lookup]; [|rewrite IH; reflexivity].
  rewrite (lookup_mark_frame_other x y l f Hxy). reflexivity.
Qed.
