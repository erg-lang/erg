(** C23: the path-keyed scope dictionary of the checker refines the frame stack of the Spec.
    [Rl p d en]: for every suffix of the path stack [p] the dictionary [d] has an entry under the key of that
    suffix, and that entry describes the corresponding frame of [en]. Keys of different suffixes differ (their
    lengths differ), so an insertion for one scope leaves the others alone. *)
From Coq Require Import ZArith List Bool Lia.
From ErgV Require Import Common.Lists Owner.Model Owner.Spec.
Import ListNotations.
Open Scope Z_scope.

Lemma str_eqb_refl : forall a, str_eqb a a = true.
Proof. exact Common.Lists.zs_eqb_refl. Qed.

Lemma str_eqb_eq : forall a b, str_eqb a b = true <-> a = b.
Proof. exact Common.Lists.zs_eqb_eq. Qed.

Lemma str_eqb_neq : forall a b, str_eqb a b = false <-> a <> b.
Proof. exact Common.Lists.zs_eqb_neq. Qed.

Lemma str_eqb_sym : forall a b, str_eqb a b = str_eqb b a.
Proof. exact Common.Lists.zs_eqb_sym. Qed.

Lemma set_mem_insert : forall x y s, set_mem x (set_insert y s) = str_eqb x y || set_mem x s.
Proof.
  intros x y s. unfold set_insert. destruct (set_mem y s) eqn:E; cbn [set_mem]; [|reflexivity].
  destruct (str_eqb x y) eqn:Exy; [|reflexivity]. apply str_eqb_eq in Exy. subst. cbn. exact E.
Qed.

Lemma set_mem_remove : forall x y s, set_mem x (set_remove y s) = negb (str_eqb x y) && set_mem x s.
Proof.
  intros x y s. induction s as [|z s IH]; cbn [set_remove set_mem].
  - rewrite andb_false_r. reflexivity.
  - destruct (str_eqb y z) eqn:Eyz.
    + apply str_eqb_eq in Eyz. subst z. rewrite IH. destruct (str_eqb x y); reflexivity.
    + cbn [set_mem]. rewrite IH. destruct (str_eqb x z) eqn:Exz; [|reflexivity].
      apply str_eqb_eq in Exz. subst z. rewrite (str_eqb_sym x y), Eyz. reflexivity.
Qed.

Section DictLemmas.
  Context {V : Type}.
  Lemma dict_get_remove : forall k k' (d : list (str * V)),
      dict_get k (dict_remove k' d) = if str_eqb k k' then None else dict_get k d.
  Proof.
    intros k k' d. induction d as [|[k2 v] d IH]; cbn [dict_remove dict_get].
    - destruct (str_eqb k k'); reflexivity.
    - destruct (str_eqb k' k2) eqn:E2.
      + apply str_eqb_eq in E2. subst k2. rewrite IH. destruct (str_eqb k k'); reflexivity.
      + cbn [dict_get]. rewrite IH. destruct (str_eqb k k2) eqn:E; [|reflexivity].
        apply str_eqb_eq in E. subst k2. rewrite (str_eqb_sym k k'), E2. reflexivity.
  Qed.

  Lemma dict_get_insert : forall k k' v (d : list (str * V)),
      dict_get k (dict_insert k' v d) = if str_eqb k k' then Some v else dict_get k d.
  Proof.
    intros k k' v d. unfold dict_insert. cbn [dict_get]. rewrite dict_get_remove.
    destruct (str_eqb k k'); reflexivity.
  Qed.
End DictLemmas.

Lemma path_of_longer : forall c p, (length (path_of p) < length (path_of (c :: p)))%nat.
Proof.
  intros [pub n] p. cbn [path_of]. rewrite !app_length. destruct pub; cbn [length]; lia.
Qed.

Lemma path_of_suffix_le : forall p k, (length (path_of (skipn k p)) <= length (path_of p))%nat.
Proof.
  induction p as [|c p IH]; intros [|k]; cbn [skipn]; try lia.
  specialize (IH k). pose proof (path_of_longer c p). lia.
Qed.

Lemma key_neq_by_length : forall a b : str, length a <> length b -> str_eqb a b = false.
Proof. intros a b H. apply str_eqb_neq. intro E. subst. contradiction. Qed.

Definition status (x : str) (v : lv) : option (option loc) :=
  if set_mem x (alive v) then Some None
  else match dict_get x (dropped v) with Some l => Some (Some l) | None => None end.

Definition frame_rel (v : lv) (f : frame) : Prop := forall x, lookup_frame x f = status x v.

Lemma frame_rel_default : frame_rel lv_default [].
Proof. intro x. reflexivity. Qed.

Lemma frame_rel_define : forall v f x,
    frame_rel v f -> frame_rel (MkLv (set_insert x (alive v)) (dict_remove x (dropped v))) ((x, None) :: f).
Proof.
  intros v f x H y. cbn [lookup_frame]. unfold status. cbn [alive dropped].
  rewrite set_mem_insert, dict_get_remove. destruct (str_eqb y x) eqn:E; cbn [orb]; [reflexivity|].
  rewrite H. reflexivity.
Qed.

Lemma lookup_mark_frame : forall x l f, lookup_frame x f <> None -> lookup_frame x (mark_frame x l f) = Some (Some l).
Proof.
  intros x l f. induction f as [|[y v] f IH]; cbn [lookup_frame mark_frame]; [congruence|].
  destruct (str_eqb x y) eqn:E; cbn [lookup_frame]; rewrite E; [reflexivity|exact IH].
Qed.

Lemma lookup_mark_frame_other : forall x y l f,
    str_eqb x y = false -> lookup_frame x (mark_frame y l f) = lookup_frame x f.
Proof.
  intros x y l f Hxy. induction f as [|[z w] f IH]; cbn [mark_frame lookup_frame]; [reflexivity|].
  destruct (str_eqb y z) eqn:Eyz; cbn [lookup_frame].
  - apply str_eqb_eq in Eyz. subst z. rewrite Hxy. reflexivity.
  - destruct (str_eqb x z); [reflexivity|exact IH].
Qed.

Lemma frame_rel_mark : forall v f x l,
    frame_rel v f -> set_mem x (alive v) = true ->
    frame_rel (MkLv (set_remove x (alive v)) (dict_insert x l (dropped v))) (mark_frame x l f).
Proof.
  intros v f x l H Hal y. unfold status. cbn [alive dropped]. rewrite set_mem_remove, dict_get_insert.
  destruct (str_eqb y x) eqn:E; cbn [negb andb].
  - apply str_eqb_eq in E. subst y. apply lookup_mark_frame. rewrite (H x). unfold status. rewrite Hal. discriminate.
  - rewrite lookup_mark_frame_other by exact E. exact (H y).
Qed.

Fixpoint Rl (p : list comp) (d : list (str * lv)) (en : env) : Prop :=
  match p, en with
  | [], [] => True
  | c :: outer, f :: en' =>
    (exists v, dict_get (path_of p) d = Some v /\ frame_rel v f) /\ Rl outer d en'
  | _, _ => False
  end.

Lemma Rl_length : forall p d en, Rl p d en -> length p = length en.
Proof.
  induction p as [|c p IH]; intros d [|f en] H; cbn [Rl] in H; try contradiction; [reflexivity|].
  destruct H as [_ H]. cbn [length]. f_equal. eapply IH. exact H.
Qed.

Lemma Rl_agree : forall p d d' en,
    (forall k, (length k <= length (path_of p))%nat -> dict_get k d' = dict_get k d) ->
    Rl p d en -> Rl p d' en.
Proof.
  induction p as [|c p IH]; intros d d' [|f en] Hag H; cbn [Rl] in *; try contradiction; [exact I|].
  destruct H as [[v [Hv Hf]] H]. split.
  - exists v. split; [|exact Hf]. rewrite Hag; [exact Hv|lia].
  - eapply IH; [|exact H]. intros k Hk. apply Hag. pose proof (path_of_longer c p). lia.
Qed.

(** every write of the checker has this form: a new entry for the innermost scope, the outer ones untouched *)
Lemma Rl_top : forall c p d en v f,
    frame_rel v f -> Rl p d en -> Rl (c :: p) (dict_insert (path_of (c :: p)) v d) (f :: en).
Proof.
  intros c p d en v f Hf H. cbn [Rl]. split.
  - exists v. split; [|exact Hf]. rewrite dict_get_insert, str_eqb_refl. reflexivity.
  - eapply Rl_agree; [|exact H]. intros k Hk. rewrite dict_get_insert, key_neq_by_length; [reflexivity|].
    pose proof (path_of_longer c p). lia.
Qed.

Definition refines (s : st) (en : env) : Prop := Rl (stk s) (dict s) en.

Lemma refines_cons : forall s en, stk s <> [] -> refines s en -> exists f en0, en = f :: en0.
Proof.
  intros s [|f en] Hne H; [|exists f, en; reflexivity].
  apply Rl_length in H. destruct (stk s); [contradiction|discriminate].
Qed.

Lemma refines_push : forall c s en, refines s en -> refines (push_scope c s) ([] :: en).
Proof. intros c s en H. exact (Rl_top c _ _ _ _ _ frame_rel_default H). Qed.

Lemma refines_pop : forall s en, refines s en -> refines (pop_scope s) (tl en).
Proof.
  intros s en. unfold refines, pop_scope. cbn [stk dict].
  destruct (stk s), en; cbn [Rl tl]; try contradiction; [exact (fun H => H)|]. intros [_ H]. exact H.
Qed.

(** the loops over the enclosing scopes, started at the [n]-th: [p] is what is left of the path stack there *)
Lemma check_if_dropped_from_lookup : forall x s en n p,
    skipn n (stk s) = p -> Rl p (dict s) en ->
    check_if_dropped_from (length en) n x s = Ok (match lookup x en with Some (Some l) => Some l | _ => None end).
Proof.
  intros x s. induction en as [|f en IH]; intros n p E H; [reflexivity|].
  destruct p as [|c outer]; cbn [Rl] in H; [contradiction|]. destruct H as [[v [Hv Hfr]] H].
  cbn [length check_if_dropped_from lookup]. unfold nth_outer_scope. rewrite E, Hv. cbn [bind].
  rewrite (Hfr x). unfold status.
  destruct (set_mem x (alive v)); [reflexivity|]. destruct (dict_get x (dropped v)); [reflexivity|].
  apply (IH (S n) outer); [|exact H]. rewrite skipn_S_tl, E. reflexivity.
Qed.

Lemma check_if_dropped_lookup : forall x s en,
    refines s en ->
    check_if_dropped x s = Ok (match lookup x en with Some (Some l) => Some l | _ => None end).
Proof.
  intros x s en H. unfold check_if_dropped. rewrite (Rl_length _ _ _ H).
  exact (check_if_dropped_from_lookup x s en 0 (stk s) eq_refl H).
Qed.

(** `drop` looks for the innermost scope in which the name is alive; it is called on names that are not moved.
    Only the dictionary changes, and in it only entries of the scopes from the [n]-th outward. *)
Lemma drop_from_lookup : forall x l s en n p,
    skipn n (stk s) = p -> Rl p (dict s) en ->
    match lookup x en with
    | Some None =>
      exists d', drop_from (length en) n x l s = Ok (MkSt (stk s) d' (errs s)) /\ Rl p d' (mark x l en) /\
                 (forall k, (length (path_of p) < length k)%nat -> dict_get k d' = dict_get k (dict s))
    | None => drop_from (length en) n x l s = Panic P_not_found
    | Some (Some _) => True
    end.
Proof.
  intros x l s. induction en as [|f en IH]; intros n p E H; [reflexivity|].
  destruct p as [|c outer]; cbn [Rl] in H; [contradiction|]. destruct H as [[v [Hv Hfr]] H].
  cbn [length drop_from mark lookup]. unfold nth_outer_scope. rewrite E, Hv. cbn [bind].
  rewrite (Hfr x). unfold status.
  destruct (set_mem x (alive v)) eqn:Hal.
  - eexists. unfold set_nth_outer_scope. rewrite E. split; [reflexivity|]. split.
    + apply Rl_top; [apply frame_rel_mark; assumption|exact H].
    + intros k Hk. rewrite dict_get_insert, key_neq_by_length; [reflexivity|lia].
  - destruct (dict_get x (dropped v)); [exact I|].
    assert (E' : skipn (S n) (stk s) = outer) by (rewrite skipn_S_tl, E; reflexivity).
    specialize (IH (S n) outer E' H). destruct (lookup x en) as [[ml|]|]; [exact I| |exact IH].
    destruct IH as [d' [Hd [HR Hag]]]. pose proof (path_of_longer c outer) as Hlt.
    exists d'. split; [exact Hd|]. split.
    + cbn [Rl]. split; [|exact HR]. exists v. split; [|exact Hfr]. rewrite Hag; [exact Hv|exact Hlt].
    + intros k Hk. apply Hag. lia.
Qed.

Lemma drop_alive : forall x l s en,
    refines s en -> lookup x en = Some None ->
    exists d', drop x l s = Ok (MkSt (stk s) d' (errs s)) /\ Rl (stk s) d' (mark x l en).
Proof.
  intros x l s en H Hl. unfold drop. rewrite (Rl_length _ _ _ H).
  pose proof (drop_from_lookup x l s en 0 (stk s) eq_refl H) as D. rewrite Hl in D.
  destruct D as [d' [Hd [HR _]]]. exists d'. split; [exact Hd|exact HR].
Qed.

Lemma drop_unbound : forall x l s en, refines s en -> lookup x en = None -> drop x l s = Panic P_not_found.
Proof.
  intros x l s en H Hl. unfold drop. rewrite (Rl_length _ _ _ H).
  pose proof (drop_from_lookup x l s en 0 (stk s) eq_refl H) as D. rewrite Hl in D. exact D.
Qed.

Lemma define_name_bind : forall x s f en,
    refines s (f :: en) ->
    exists d', define_name x s = Ok (MkSt (stk s) d' (errs s)) /\ Rl (stk s) d' (((x, None) :: f) :: en).
Proof.
  intros x [p d es] f en H. unfold refines in H. cbn [stk dict] in H.
  destruct p as [|c p]; cbn [Rl] in H; [contradiction|]. destruct H as [[v [Hv Hf]] H].
  unfold define_name, nth_outer_scope, set_nth_outer_scope. cbn [stk dict errs skipn]. rewrite Hv. cbn [bind].
  eexists. split; [reflexivity|]. exact (Rl_top c p d en _ _ (frame_rel_define v f x Hf) H).
Qed.
