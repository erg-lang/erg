(** C23 — "A moved mutable value cannot be used again".

    Model: Owner/Model.v (crates/erg_compiler/ownercheck.rs and SubrType::args_ownership, arm by arm, after the
    repairs listed in /verif/known/C23.json). Spec: Owner/Spec.v (events in source order + moved-set semantics).
    Every theorem is for arbitrary modules: any sequence of chunks, any nesting of definitions, lambdas, blocks,
    calls and containers. Hypotheses:
      [wf_module]   the lowered tree has none of the shapes the earlier stages exclude (Spec.v, [wf]; evaluated by
                    the check on every dumped tree);
      [well_scoped] every variable that is moved is bound by an enclosing definition or parameter (the checker
                    panics with "variable not found" otherwise; that is part of C07, not of this property). *)
From Coq Require Import ZArith List Bool.
From ErgV Require Import Owner.Model Owner.Spec Owner.ProofsState Owner.ProofsSim Owner.Proofs.
Import ListNotations.
Open Scope Z_scope.

(** any use, at any depth, of a variable after a moving statement yields a MoveError at that use, naming the place
    of the move *)
Theorem use_after_move_rejected : forall name chunks,
    wf_module chunks = true -> well_scoped chunks = true ->
    forall x l ml, In (x, l, ml) (uams chunks) ->
    exists es by_, check name chunks = Ok es /\ In (MkErr x l ml by_) es.
Proof.
  intros name chunks Hwf Hws x l ml Hin.
  destruct (check_refines_spec name chunks Hwf Hws) as [es [Hc Hm]].
  rewrite <- Hm in Hin. apply in_map_iff in Hin. destruct Hin as [[n l' ml' by_] [He Hi]].
  injection He as -> -> ->. exists es, by_. split; [exact Hc|exact Hi].
Qed.

(** programs that never use a moved variable get no ownership error *)
Theorem no_move_no_error : forall name chunks,
    wf_module chunks = true -> well_scoped chunks = true ->
    uams chunks = [] -> check name chunks = Ok [].
Proof.
  intros name chunks Hwf Hws Hu.
  destruct (check_refines_spec name chunks Hwf Hws) as [es [Hc Hm]].
  rewrite Hu in Hm. destruct es; [exact Hc|discriminate].
Qed.

(** more precisely: every reported error is a use-after-move of the Spec; the checker and the Spec agree exactly *)
Theorem only_uses_after_move_reported : forall name chunks,
    wf_module chunks = true -> well_scoped chunks = true ->
    forall es e, check name chunks = Ok es -> In e es -> In (e_name e, e_loc e, e_moved e) (uams chunks).
Proof.
  intros name chunks Hwf Hws es e Hc Hin.
  destruct (check_refines_spec name chunks Hwf Hws) as [es' [Hc' Hm]].
  rewrite Hc in Hc'. injection Hc' as <-. rewrite <- Hm. exact (in_map strip es e Hin).
Qed.

Theorem checker_agrees_with_spec : forall name chunks,
    wf_module chunks = true -> well_scoped chunks = true ->
    exists es, check name chunks = Ok es /\ map strip es = uams chunks.
Proof. exact check_refines_spec. Qed.

Theorem checker_does_not_panic : forall name chunks,
    wf_module chunks = true -> well_scoped chunks = true -> forall z, check name chunks <> Panic z.
Proof.
  intros name chunks Hwf Hws z. destruct (check_refines_spec name chunks Hwf Hws) as [es [Hc _]]. congruence.
Qed.

(** passing a variable where a reference or an immutable type is expected does not move it:
    (1) in whatever state, the checker leaves its scope dictionary unchanged at an identifier that is not
        mutable-typed, or is judged with Ref / RefMut, or is a bare chunk;
    (2) args_ownership makes a parameter Owned exactly when its declared type is a mutable type (never for
        `Ref(..)`, `RefMut(..)` or an immutable type; non-default, default, `*` and `**` parameters alike);
    (3) in the Spec an argument position is owning exactly for such a parameter, only a mutable-typed variable
        in an owning position is a moving occurrence, and a non-moving occurrence leaves the moved set unchanged *)
Theorem ref_or_immutable_does_not_move :
    (forall l x m o chunk s s',
        m = false \/ o <> Owned \/ chunk = true ->
        check_expr (EVar l x m) o chunk s = Ok s' -> dict s' = dict s /\ stk s' = stk s) /\
    (forall g ao, args_ownership g = Ok ao ->
        map (fun q => is_owned (snd q)) (ao_nd ao) = map (fun p => match p_kind p with KMut => true | _ => false end) (sg_nd g) /\
        map (fun q => is_owned (snd q)) (ao_d ao) = map (fun p => match p_kind p with KMut => true | _ => false end) (sg_d g) /\
        map is_owned (ao_var ao) = map (fun p => match p_kind p with KMut => true | _ => false end) (sg_var g) /\
        map is_owned (ao_kwvar ao) = map (fun p => match p_kind p with KMut => true | _ => false end) (sg_kwvar g)) /\
    (forall p, decl_pos p = POwn <-> p_kind p = KMut) /\
    (forall l x m p, events (EVar l x m) p = [EvVar l x true] <-> (m = true /\ p = POwn)) /\
    (forall en l x, fst (fst (step en (EvVar l x false))) = en).
Proof.
  split; [exact ident_not_moved|]. split; [exact args_ownership_kinds|]. split; [|split].
  - intros [n [| | |]]; cbn; split; intro H; try discriminate; reflexivity.
  - intros l x m p. cbn [events]. split.
    + intro H. injection H as H1. apply andb_true_iff in H1. destruct H1 as [H1 H2]. split; [exact H1|].
      destruct p; try discriminate; reflexivity.
    + intros [H1 H2]. subst. reflexivity.
  - intros en l x. cbn [step]. destruct (lookup x en) as [[ml|]|]; reflexivity.
Qed.

(** the moved set of the Spec: a moving occurrence of an alive binding marks it moved; every occurrence of a moved
    binding is a use-after-move; occurrences of other names do not change its status *)
Theorem moved_stays_moved :
    (forall en l x, lookup x en = Some None -> lookup x (fst (fst (step en (EvVar l x true)))) = Some (Some l)) /\
    (forall en l x mv ml, lookup x en = Some (Some ml) -> step en (EvVar l x mv) = (en, [(x, l, ml)], true)) /\
    (forall en l y mv x, str_eqb x y = false -> lookup x (fst (fst (step en (EvVar l y mv)))) = lookup x en).
Proof.
  split; [|split].
  - intros en l x H. cbn [step]. rewrite H. cbn [fst]. apply lookup_mark. congruence.
  - intros en l x mv ml H. cbn [step]. rewrite H. reflexivity.
  - intros en l y mv x Hxy. cbn [step]. destruct (lookup y en) as [[ml|]|]; cbn [fst]; try reflexivity.
    destruct mv; [|reflexivity]. exact (lookup_mark_other x y l en Hxy).
Qed.

(** the hypotheses are needed *)
Definition v : str := [118].
Definition w : str := [119].
Definition x_ : str := [120].
Definition f_ : str := [102].
Definition c_ : str := [99].
Definition pr : str := [112; 114; 105; 110; 116; 33].
Definition md : str := [109].
Definition mut_list : expr := EUnary (EColl CList [ELit]).                        (* ![1] *)
Definition print_sig : call_sig := SigSubr (MkSig false [] [MkParam (Some [111]) KRef] [] []).
Definition print_ l e : expr := ECall (EVar l pr false) print_sig [e] [] [] [] [].

(** a node the checker skips (`_ => {}`: ReDef, Code, Compound, Dummy) with a use inside: the Spec sees the
    use-after-move, the checker does not — [wf_module] excludes such trees *)
Lemma skipped_nodes_refuted :
    exists chunks, wf_module chunks = false /\ well_scoped chunks = true /\
                   uams chunks <> [] /\ check md chunks = Ok [].
Proof.
  exists [EDef DVar false v [] [] [mut_list]; EDef DVar false w [] [] [EVar 21 v true]; EOther [print_ 30 (EVar 31 v true)]].
  vm_compute. repeat split; discriminate.
Qed.

(** moving a variable that nothing binds makes the checker panic — [well_scoped] excludes it *)
Lemma unbound_move_refuted :
    exists chunks, wf_module chunks = true /\ well_scoped chunks = false /\ check md chunks = Panic P_not_found.
Proof.
  exists [EDef DVar false w [] [] [EVar 21 v true]]. vm_compute. repeat split.
Qed.

(** non-vacuity and regression examples
    (the programs with which the defects repaired for this property were found; see /verif/known/C23.json) *)
Definition prog_rebind := [EDef DVar false v [] [] [mut_list]; EDef DVar false w [] [] [EVar 21 v true]; print_ 30 (EVar 31 v true)].
Example ex_rebind : wf_module prog_rebind = true /\ well_scoped prog_rebind = true /\
                    uams prog_rebind = [(v, 31, 21)] /\
                    check md prog_rebind = Ok [MkErr v 31 21 [58; 58; 109]].
Proof. vm_compute. repeat split. Qed.

(** v.push! 1 after the move: the receiver is a use *)
Definition push_sig : call_sig := SigSubr (MkSig true [MkParam (Some [115]) KMut; MkParam (Some [101]) KImm] [] [] []).
Definition prog_receiver := [EDef DVar false v [] [] [mut_list]; EDef DVar false w [] [] [EVar 21 v true];
                             ECall (EVar 31 v true) push_sig [ELit] [] [] [] []].
Example ex_receiver : check md prog_receiver = Ok [MkErr v 31 21 [58; 58; 109]] /\ uams prog_receiver = [(v, 31, 21)].
Proof. vm_compute. split; reflexivity. Qed.

(** c.take! u, v  with take!(ref self, a: Ref(..), b: List!(..)): v is moved, u is not *)
Definition take_sig : call_sig :=
  SigSubr (MkSig true [MkParam (Some [115]) KRef; MkParam (Some [97]) KRef; MkParam (Some [98]) KMut] [] [] []).
Definition prog_method := [EDef DVar false v [] [] [mut_list]; EDef DVar false x_ [] [] [mut_list];
                           ECall (EVar 30 c_ false) take_sig [EVar 31 x_ true; EVar 32 v true] [] [] [] [];
                           print_ 40 (EVar 41 x_ true); print_ 50 (EVar 51 v true)].
Example ex_method_args : check md prog_method = Ok [MkErr v 51 32 [58; 58; 109]] /\ uams prog_method = [(v, 51, 32)].
Proof. vm_compute. split; reflexivity. Qed.

(** f!(x := v) for a non-default parameter x: List!(..) moves v *)
Definition f_sig : call_sig := SigSubr (MkSig false [MkParam (Some x_) KMut] [] [] []).
Definition prog_kw := [EDef DVar false v [] [] [mut_list];
                       ECall (EVar 30 f_ false) f_sig [] [] [x_] [EVar 31 v true] []; print_ 40 (EVar 41 v true)].
Example ex_keyword : check md prog_kw = Ok [MkErr v 41 31 [58; 58; 109]] /\ uams prog_kw = [(v, 41, 31)].
Proof. vm_compute. split; reflexivity. Qed.

(** v passed for a Ref, a RefMut, an immutable-typed and a variadic (`*args`, immutable-typed) parameter: nothing
    moves *)
Definition g_sig k : call_sig := SigSubr (MkSig false [MkParam (Some x_) k] [] [] []).
Definition prog_borrow := [EDef DVar false v [] [] [mut_list];
                           ECall (EVar 30 f_ false) (g_sig KRef) [EVar 31 v true] [] [] [] [];
                           ECall (EVar 40 f_ false) (g_sig KRefMut) [EVar 41 v true] [] [] [] [];
                           ECall (EVar 50 f_ false) (g_sig KImm) [EVar 51 v true] [] [] [] [];
                           ECall (EVar 60 f_ false) (SigSubr (MkSig false [] [MkParam (Some x_) KImm] [] [])) [EVar 61 v true] [] [] [] [];
                           print_ 70 (EVar 71 v true)].
Example ex_borrow : wf_module prog_borrow = true /\ well_scoped prog_borrow = true /\
                    uams prog_borrow = [] /\ check md prog_borrow = Ok [].
Proof. vm_compute. repeat split. Qed.

(** known finding "generic-instantiated" (known/C23.json): the tree the checker sees carries the callee's type as
    instantiated at the call site. The same source program — gen! |T| x: T; for! .., x => (gen! x; c.mo! v, x) —
    with the declared kind of the generic parameter (not a mutable type: the Spec finds no use after a move) and with
    the kind the type checker left at that call site (T linked to List!(Int, _): the checker, faithfully to
    args_ownership, moves x and rejects its next use). The theorems above are about the tree as dumped; the class
    [Known_C23] guards the judge of the check, which works with the declared types. *)
Definition gen_ : str := [103].
Definition prog_generic (k : pkind) :=
  [ECall (EVar 10 f_ false) (g_sig KImm)
     [ELambda [60; 108; 62] [x_] []
        [ECall (EVar 20 gen_ false) (g_sig k) [EVar 21 x_ true] [] [] [] []; print_ 30 (EVar 31 x_ true)]] [] [] [] []].
Lemma generic_instantiation_refuted :
    Known_C23 [gen_] (prog_generic KImm) = true /\
    wf_module (prog_generic KImm) = true /\ well_scoped (prog_generic KImm) = true /\
    uams (prog_generic KImm) = [] /\
    check md (prog_generic KMut) = Ok [MkErr x_ 31 21 [58; 58; 109; 58; 58; 60; 108; 62]].
Proof. vm_compute. repeat split. Qed.

(** an inner variable shadows a moved outer one; a redefinition is a fresh variable *)
Definition prog_shadow := [EDef DVar false v [] [] [mut_list]; EDef DVar false w [] [] [EVar 21 v true];
                           EDef DSubr false f_ [] [] [EDef DVar false v [] [] [mut_list]; print_ 40 (EVar 41 v true)];
                           EDef DVar false v [] [] [mut_list]; print_ 60 (EVar 61 v true)].
Example ex_shadow : uams prog_shadow = [] /\ check md prog_shadow = Ok [].
Proof. vm_compute. split; reflexivity. Qed.

(** p!() = (v = [v]; print! v): the initialiser moves the outer v, the inner v is fresh *)
Definition prog_init := [EDef DVar false v [] [] [mut_list];
                         EDef DSubr false f_ [] [] [EDef DVar false v [] [] [EColl CList [EVar 31 v true]]; print_ 40 (EVar 41 v false)];
                         print_ 50 (EVar 51 v true)].
Example ex_initialiser : uams prog_init = [(v, 51, 31)] /\ check md prog_init = Ok [MkErr v 51 31 [58; 58; 109]].
Proof. vm_compute. split; reflexivity. Qed.

(** for! [..], x => (y = x): the lambda parameter is registered, no panic *)
Definition prog_lambda := [ECall (EVar 10 f_ false) (g_sig KImm)
                             [ELambda [60; 108; 62] [x_] [] [EDef DVar false w [] [] [EVar 21 x_ true]; print_ 30 (EVar 31 w true)]] [] [] [] []].
Example ex_lambda_param : wf_module prog_lambda = true /\ well_scoped prog_lambda = true /\ check md prog_lambda = Ok [].
Proof. vm_compute. repeat split. Qed.

(** while! do! v, do!: print! v   and   f() = v; print! v : what a lambda or subroutine body returns is not moved *)
Definition prog_returned := [EDef DVar false v [] [] [mut_list];
                             ECall (EVar 20 f_ false) (SigSubr (MkSig false [MkParam (Some x_) KImm; MkParam (Some w) KImm] [] [] []))
                                   [ELambda [60; 108; 62] [] [] [EVar 21 v true];
                                    ELambda [60; 109; 62] [] [] [print_ 30 (EVar 31 v true)]] [] [] [] [];
                             EDef DSubr false c_ [] [] [EVar 41 v true];
                             print_ 50 (EVar 51 v true)].
Example ex_returned_value : wf_module prog_returned = true /\ well_scoped prog_returned = true /\
                            uams prog_returned = [] /\ check md prog_returned = Ok [].
Proof. vm_compute. repeat split. Qed.

(** w = (x = 1; v): the value of the block that initialises a variable is moved *)
Definition prog_block := [EDef DVar false v [] [] [mut_list];
                          EDef DVar false w [] [] [EDef DVar false x_ [] [] [ELit]; EVar 22 v true]; print_ 30 (EVar 31 v true)].
Example ex_block_value : uams prog_block = [(v, 31, 22)] /\ check md prog_block = Ok [MkErr v 31 22 [58; 58; 109]].
Proof. vm_compute. split; reflexivity. Qed.

(** a use inside a nested function, lambda and container, after a move inside a block: every depth *)
Definition prog_deep := [EDef DVar false v [] [] [mut_list];
                         EDef DSubr false f_ [x_] [] [EDef DVar false w [] [] [EColl CDict [ELit; EColl CTuple [EVar 21 v true]]]; ELit];
                         EDef DSubr true c_ [] [EVar 30 v true]
                              [ELambda [60; 108; 62] [] [] [EBinOp (EAttr (EVar 41 v true)) ELit]]].
Example ex_deep : wf_module prog_deep = true /\ well_scoped prog_deep = true /\
                  uams prog_deep = [(v, 30, 21); (v, 41, 21)] /\
                  check md prog_deep = Ok [MkErr v 30 21 [58; 58; 109]; MkErr v 41 21 [58; 58; 109; 46; 99; 58; 58; 60; 108; 62]].
Proof. vm_compute. repeat split. Qed.
