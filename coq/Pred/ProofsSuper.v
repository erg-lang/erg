(** C03 — the model of Context::is_super_pred_of (with reduce_preds).  [calls] names the pairs on which the function
    calls itself; [is_super_step] specifies one call, for every outcome ([ret], ProofsRet.v), from what the calls
    do.  Read with everything claimed it is soundness under the current configuration: `is_super lhs rhs = Ok true`
    implies that every integer satisfying rhs satisfies lhs, for every order oracle, every valuation of the opaque
    atoms, all well-formed predicates ([is_super_sound]). *)
From Coq Require Import ZArith List Bool Arith Lia Btauto Permutation.
From ErgV Require Import Common.Lists Pred.Model Pred.Spec Pred.Proofs Pred.ProofsRet.
Import ListNotations.
Open Scope Z_scope.

Lemma bind_ok : forall A B (r : res A) (k : A -> res B) b, bind r k = Ok b -> exists a, r = Ok a /\ k a = Ok b.
Proof. intros A B [a| |] k b H; cbn in H; try discriminate. eauto. Qed.

Lemma negM_true : forall a, negM a = Ok true -> a = Ok false.
Proof. intros a H. unfold negM in H. apply bind_ok in H. destruct H as ([] & Ha & H); auto. discriminate. Qed.

Lemma ceval_current : forall c z, ceval current c = Ok z -> z = cval c.
Proof.
  intros [x|x|x] z H; cbn in H.
  - now injection H as <-.
  - destruct (x =? u64_max); [discriminate|]. now injection H as <-.
  - destruct (x =? i32_min); [discriminate|]. rewrite andb_false_r in H. now injection H as <-.
Qed.

Lemma try_cmp_current : forall a b o, try_cmp current a b = Ok o -> o = (cval a ?= cval b).
Proof.
  intros a b o H. unfold try_cmp in H. destruct (cst_eqb a b) eqn:E.
  - apply cst_eqb_eq in E. subst. injection H as <-. symmetry. apply Z.compare_refl.
  - apply bind_ok in H. destruct H as (x & Hx & H). apply bind_ok in H. destruct H as (y & Hy & H).
    apply ceval_current in Hx. apply ceval_current in Hy. subst. injection H as <-.
    unfold cmp_val. cbn [fx_cmp current]. destruct (Z.eqb_spec (cval a) (cval b)) as [->|]; [|reflexivity].
    symmetry. apply Z.compare_refl.
Qed.

Lemma wf_or : forall l, wf (POr l) = true <-> forall x, In x l -> wf x = true.
Proof. intros l. rewrite <- forallb_forall. cbn [wf]. now rewrite fix_forallb. Qed.

Lemma wf_ands : forall p, wf p = true -> forall x, In x (ands p) -> wf x = true.
Proof.
  induction p; intros W x Hx; cbn [ands] in Hx; try (destruct Hx as [<-|[]]; exact W).
  cbn [wf] in W. apply andb_prop in W. destruct W. apply set_union_incl in Hx. destruct Hx; auto.
Qed.
Lemma wf_ors : forall p, wf p = true -> forall x, In x (ors p) -> wf x = true.
Proof.
  intros p W x Hx. destruct p; cbn [ors] in Hx; try (destruct Hx as [<-|[]]; exact W).
  apply set_of_list_incl in Hx. rewrite wf_or in W. auto.
Qed.

Lemma wf_PAnd : forall a b, wf (PAnd a b) = wf a && wf b.
Proof. reflexivity. Qed.
Lemma wf_pand : forall a b, wf a = true -> wf b = true -> wf (pand a b) = true.
Proof. apply pand_closed. reflexivity. Qed.

Definition kids (p : pred) : list pred := match p with PAnd l r => [l; r] | POr l => l | _ => [] end.
(* the set that the (And, And) and (Or, Or) arms hand to reduce_preds *)
Definition flat (p : pred) : list pred := match p with PAnd _ _ => ands p | POr _ => ors p | _ => [] end.

(* is_super_pred_of(lhs, rhs) calls itself on no other pairs than these: one side and an operand of the other,
   or two members of the sets [flat] of the two sides (reduce_preds compares the members of one set with each
   other, the last step what is left of one set with what is left of the other) *)
Inductive calls (lhs rhs : pred) : pred -> pred -> Prop :=
| call_right y : In y (kids rhs) -> calls lhs rhs lhs y
| call_left x : In x (kids lhs) -> calls lhs rhs x rhs
| call_flat x y : In x (flat lhs ++ flat rhs) -> In y (flat lhs ++ flat rhs) -> calls lhs rhs x y.

Lemma wf_kids : forall p x, wf p = true -> In x (kids p) -> wf x = true.
Proof.
  intros [] x W H; cbn [kids] in H; try contradiction.
  - rewrite wf_or in W. auto.
  - cbn [wf] in W. apply andb_prop in W. destruct W. destruct H as [<-|[<-|[]]]; assumption.
Qed.
Lemma wf_flat : forall p x, wf p = true -> In x (flat p) -> wf x = true.
Proof. intros [] x W H; cbn [flat] in H; try contradiction; [exact (wf_ors _ W _ H)|exact (wf_ands _ W _ H)]. Qed.

Lemma calls_wf : forall lhs rhs x y, calls lhs rhs x y -> wf lhs = true -> wf rhs = true -> wf x = true /\ wf y = true.
Proof.
  assert (F : forall p q x, wf p = true -> wf q = true -> In x (flat p ++ flat q) -> wf x = true).
  { intros p q x Wp Wq H. apply in_app_or in H. destruct H as [H|H]; [exact (wf_flat p x Wp H)|exact (wf_flat q x Wq H)]. }
  intros lhs rhs x y [y' H|x' H|x' y' Hx Hy] Wl Wr; split; try assumption.
  - exact (wf_kids rhs y' Wr H).
  - exact (wf_kids lhs x' Wl H).
  - exact (F lhs rhs x' Wl Wr Hx).
  - exact (F lhs rhs y' Wl Wr Hy).
Qed.

(* A predicate is true exactly when all its conjuncts are, and false exactly when all its disjuncts are.  Read
   with a truth value [m] for "true" in the first and "false" in the second, whatever is proved about
   reduce_preds and the (And, And) arm in mode "and" holds of mode "or" and the (Or, Or) arm as well. *)
Definition flatm (m : bool) (p : pred) : list pred := if m then ands p else ors p.

Section Den.
  Variable v : nat -> Z -> bool.
  Variable tv : nat -> Z -> Z.
  Notation D := (den v tv).

  Lemma ands_den : forall p i, D p i = true <-> forall x, In x (ands p) -> D x i = true.
  Proof.
    induction p; intros i; cbn [ands]; try (split; [intros H x [<-|[]]; exact H|intros H; apply H; cbn; auto]).
    cbn [den]. rewrite andb_true_iff, IHp1, IHp2. split.
    - intros [H1 H2] x Hx. apply set_union_incl in Hx. destruct Hx; auto.
    - intros H. split; intros x Hx.
      + destruct (set_union_has (ands p2) (ands p1) x (or_introl Hx)) as (y & Hy & E).
        rewrite (pred_eqb_den v tv _ _ E i). auto.
      + destruct (set_union_has (ands p2) (ands p1) x (or_intror Hx)) as (y & Hy & E).
        rewrite (pred_eqb_den v tv _ _ E i). auto.
  Qed.

  Lemma ors_den : forall p i, D p i = false <-> forall x, In x (ors p) -> D x i = false.
  Proof.
    intros p i. destruct p; cbn [ors]; try (split; [intros H x [<-|[]]; exact H|intros H; apply H; cbn; auto]).
    rewrite den_or, <- (den_any_set_of_list v tv l i). apply den_any_false.
  Qed.

  Lemma flatm_den : forall m p i, D p i = m <-> forall x, In x (flatm m p) -> D x i = m.
  Proof. intros [] p i; [apply ands_den|apply ors_den]. Qed.
End Den.

Lemma wf_plain_eq : forall c, wf (PEq c) = true -> exists z, c = CV z.
Proof. intros [z|z|z] H; cbn in H; try discriminate; eauto. Qed.
Lemma wf_plain_ne : forall c, wf (PNe c) = true -> exists z, c = CV z.
Proof. exact wf_plain_eq. Qed.

Definition top_cst (p : pred) : option cst :=
  match p with PEq c | PNe c | PGe c | PLe c => Some c | _ => None end.

Section Run.
  (* [G]: the answers are claimed to mean something.  Where it fails only the outcomes are spoken of, and the
     hypotheses that soundness needs (current configuration, well-formedness, an oracle that loses no member) fall away. *)
  Variables G FP FF : Prop.
  Notation ret := (ret FP FF).
  (* the answer "true" means [P], as far as anything is claimed; "false" means nothing *)
  Definition ans (P : Prop) : bool -> Prop := tst (G -> P) True.

  Variable perm : list pred -> list pred.
  Hypothesis perm_sub : forall l x, In x (perm l) -> In x l.
  Hypothesis perm_all : G -> forall l x, In x l -> In x (perm l).
  Variable v : nat -> Z -> bool.
  Variable tv : nat -> Z -> Z.
  Notation D := (den v tv).

  (* [a] has the truth value [m] wherever [b] has it: [covers true lhs rhs] is what is_super_pred_of(lhs, rhs)
     answers, every integer that satisfies rhs satisfies lhs; at [false] it is the same with the sides exchanged *)
  Definition covers (m : bool) (a b : pred) : Prop := forall i, D b i = m -> D a i = m.

  Lemma covers_neg : forall m a b, covers m a b -> covers (negb m) b a.
  Proof.
    intros m a b H i Da. destruct (Bool.eqb (D b i) m) eqn:E.
    - apply eqb_prop in E. rewrite (H i E) in Da. destruct m; discriminate Da.
    - apply eqb_false_iff in E. destruct (D b i), m; cbn; congruence.
  Qed.

  Section Reduce.
    Variable sup : pred -> pred -> res bool.
    Variable U : pred -> Prop.
    Hypothesis sup_spec : forall a b, U a -> U b -> ret (sup a b) (ans (covers true a b)).

    Lemma sup_mode : forall (m : bool) a b, U a -> U b -> ret (if m then sup a b else sup b a) (ans (covers m a b)).
    Proof.
      intros [] a b Ua Ub; [exact (sup_spec a b Ua Ub)|].
      apply (ret_yes _ _ _ _ _ _ (sup_spec b a Ub Ua)). intros H g. exact (covers_neg true _ _ (H g)).
    Qed.

    (* what reduce_preds may drop: every member of [L] has the truth value [m] wherever all members of [R] have *)
    Definition keeps (m : bool) (R L : list pred) : Prop :=
      G -> forall i, (forall x, In x R -> D x i = m) -> forall x, In x L -> D x i = m.

    Lemma reduce_step_ret : forall m red p, U p -> (forall x, In x red -> U x) ->
      ret (reduce_step perm sup m red p) (fun red' => incl red' (p :: red) /\ keeps m red' (p :: red)).
    Proof.
      intros m red p Up Ured. unfold reduce_step.
      eapply ret_bind.
      { apply (findM_ret (fun e => G -> covers m e p) (fun _ => True)).
        intros e He. apply sup_mode; [apply Ured; now apply perm_sub|exact Up]. }
      intros old _ Hold. set (red1 := match old with Some o => set_remove o red | None => red end).
      assert (I1 : forall x, In x red1 -> In x red).
      { destruct old; subst red1; [intros x; apply set_remove_incl | auto]. }
      eapply ret_bind.
      { apply (allM_ret (fun _ => True) (fun e => G -> covers m p e)).
        intros e He. apply negM_ret, sup_mode; [exact Up|apply Ured, I1; now apply perm_sub]. }
      intros ins _ Hins. split.
      { intros x Hx. destruct ins; [apply set_add_incl in Hx; destruct Hx as [->|Hx]|]; cbn; auto. }
      intros g i Hall.
      (* the member that was dropped is made redundant by the new one *)
      assert (Hold' : D p i = m -> (forall x, In x red1 -> D x i = m) -> forall x, In x (p :: red) -> D x i = m).
      { intros Dp H1 x [<-|Hx]; [exact Dp|]. destruct old as [o|]; [|subst red1; auto]. destruct Hold as [_ Co].
        destruct (pred_eqb x o) eqn:E.
        - rewrite (pred_eqb_den v tv _ _ E i). exact (Co g i Dp).
        - apply H1. subst red1. now apply set_remove_other. }
      destruct ins.
      - assert (Dp : D p i = m).
        { destruct (set_add_has p red1) as (y & Hy & E). rewrite (pred_eqb_den v tv _ _ E i). auto. }
        apply Hold'; [exact Dp|]. intros x Hx. apply Hall. now apply set_add_keeps.
      - (* not inserted: a kept member makes the new one redundant *)
        destruct Hins as (o & Ho & Co). apply perm_sub in Ho. apply Hold'; [exact (Co g i (Hall o Ho))|exact Hall].
    Qed.

    Lemma reduce_loop_ret : forall m l red, (forall x, In x l -> U x) -> (forall x, In x red -> U x) ->
      ret (reduce_loop perm sup m red l) (fun R => incl R (l ++ red) /\ keeps m R (l ++ red)).
    Proof.
      induction l as [|p t IH]; intros red Ul Ured; cbn [reduce_loop].
      - split; [apply incl_refl|]. intros _ i Hall. exact Hall.
      - eapply ret_bind; [apply (reduce_step_ret m red p (Ul p (or_introl eq_refl)) Ured)|].
        intros r _ [Ir Kr].
        assert (Ur : forall y, In y r -> U y).
        { intros y Hy. destruct (Ir y Hy) as [<-|]; [apply Ul; cbn; auto|auto]. }
        apply (ret_mono _ _ _ _ _ _ (IH r (fun y Hy => Ul y (or_intror Hy)) Ur)). intros R [IR KR]. split.
        + intros x Hx. destruct (in_app_or _ _ _ (IR x Hx)) as [H|H]; [right; apply in_or_app; auto|].
          destruct (Ir x H) as [<-|H']; [now left|right; apply in_or_app; auto].
        + intros g i Hall x Hx.
          assert (Hr : forall y, In y r -> D y i = m). { intros y Hy. apply (KR g i Hall). apply in_or_app; auto. }
          destruct Hx as [<-|Hx]; [apply (Kr g i Hr); now left|]. apply in_app_or in Hx.
          destruct Hx as [Hx|Hx]; [apply (KR g i Hall); apply in_or_app; auto|apply (Kr g i Hr); now right].
    Qed.

    Lemma reduce_preds_ret : forall m L, (forall x, In x L -> U x) ->
      ret (reduce_preds perm sup m L) (fun R => incl R L /\ keeps m R L).
    Proof.
      intros m L UL. unfold reduce_preds.
      apply (ret_mono _ _ _ _ _ _ (reduce_loop_ret m (perm L) [] (fun x Hx => UL x (perm_sub _ _ Hx)) (fun x (F : In x []) => match F with end))).
      rewrite app_nil_r. intros R [IR KR]. split.
      - intros x Hx. exact (perm_sub _ _ (IR x Hx)).
      - intros g i Hall x Hx. apply (KR g i Hall). now apply perm_all.
    Qed.

    (* the last step of the (And, And) and (Or, Or) arms *)
    Lemma pairs_ret : forall (g : pred -> pred -> res bool) (T : pred -> pred -> Prop) LA LB,
      (forall a b, In a LA -> In b LB -> ret (g a b) (ans (T a b))) ->
      ret (allM (fun a => anyM (fun b => g a b) (perm LB)) (perm LA))
          (ans (forall a, In a LA -> exists b, In b LB /\ T a b)).
    Proof.
      intros g T LA LB H.
      eapply ret_yes.
      { apply (allM_ret (fun a => exists b, In b (perm LB) /\ (G -> T a b)) (fun _ => True)).
        intros a Ha. eapply ret_yes; [|intros E; exact E].
        apply (anyM_ret (fun b => G -> T a b) (fun _ => True)). intros b Hb. apply H; now apply perm_sub. }
      intros Hall g0 a Ha. destruct (Hall a (perm_all g0 _ _ Ha)) as (b & Hb & Tb).
      exists b. split; [now apply perm_sub|exact (Tb g0)].
    Qed.
  End Reduce.

  Section Arms.
    Variable sup : pred -> pred -> res bool.
    (* [sup] does on the pairs that is_super_pred_of(lhs, rhs) hands it what is to be shown of is_super_pred_of *)
    Definition spec_on (lhs rhs : pred) : Prop := forall x y, calls lhs rhs x y -> ret (sup x y) (ans (covers true x y)).

    Lemma arm_rhs_and : forall lhs r1 r2, spec_on lhs (PAnd r1 r2) ->
      ret (orM (sup lhs r1) (sup lhs r2)) (ans (covers true lhs (PAnd r1 r2))).
    Proof.
      intros lhs r1 r2 SS. eapply ret_yes; [apply orM_ret; apply SS, call_right; cbn; auto|].
      intros [H|H] g i Di; cbn [den] in Di; apply andb_prop in Di; destruct Di; apply (H g); auto.
    Qed.
    Lemma arm_rhs_or : forall lhs l, spec_on lhs (POr l) ->
      ret (allM (fun o => sup lhs o) (perm l)) (ans (covers true lhs (POr l))).
    Proof.
      intros lhs l SS. eapply ret_yes.
      { apply (allM_ret (fun o => G -> covers true lhs o) (fun _ => True)).
        intros o Ho. apply SS, call_right. now apply perm_sub. }
      intros H g i Di. rewrite den_or in Di. apply den_any_true in Di.
      destruct Di as (x & Hx & Dx). apply (H x); [now apply perm_all|exact g|exact Dx].
    Qed.
    Lemma arm_lhs_or : forall l rhs, spec_on (POr l) rhs ->
      ret (anyM (fun o => sup o rhs) (perm l)) (ans (covers true (POr l) rhs)).
    Proof.
      intros l rhs SS. eapply ret_yes.
      { apply (anyM_ret (fun o => G -> covers true o rhs) (fun _ => True)).
        intros o Ho. apply SS, call_left. now apply perm_sub. }
      intros (x & Hx & Cx) g i Di. rewrite den_or. apply den_any_true.
      exists x. split; [now apply perm_sub|exact (Cx g i Di)].
    Qed.
    Lemma arm_lhs_and : forall l1 l2 rhs, spec_on (PAnd l1 l2) rhs ->
      ret (andM (sup l1 rhs) (sup l2 rhs)) (ans (covers true (PAnd l1 l2) rhs)).
    Proof.
      intros l1 l2 rhs SS. eapply ret_yes; [apply andM_ret; apply SS, call_left; cbn; auto|].
      intros [H1 H2] g i Di. cbn [den]. now rewrite (H1 g i Di), (H2 g i Di).
    Qed.

    (* the (And, And) arm ([m] = true) and the (Or, Or) arm ([m] = false) first reduce both sets *)
    Lemma arm_reduce : forall m lhs rhs (k : list pred -> list pred -> res bool) Q, spec_on lhs rhs ->
      (forall L R, incl L (flat lhs) /\ keeps m L (flat lhs) -> incl R (flat rhs) /\ keeps m R (flat rhs) -> ret (k L R) Q) ->
      ret (do L <- reduce_preds perm sup m (flat lhs); do R <- reduce_preds perm sup m (flat rhs); k L R) Q.
    Proof.
      intros m lhs rhs k Q SS K.
      set (U := fun x => In x (flat lhs ++ flat rhs)).
      assert (SU : forall a b, U a -> U b -> ret (sup a b) (ans (covers true a b))).
      { intros a b Ha Hb. now apply SS, call_flat. }
      eapply ret_bind; [apply (reduce_preds_ret sup U SU m); intros x Hx; apply in_or_app; auto|]. intros L _ HL.
      eapply ret_bind; [apply (reduce_preds_ret sup U SU m); intros x Hx; apply in_or_app; auto|]. intros R _ HR.
      now apply K.
    Qed.

    (* and then look, for every member of one reduced set, for a member of the other that makes it redundant
       ([A], [B] are the two sides in either order: the Or/Or arm walks the right set outside, the And/And arm the left) *)
    Lemma arm_pairs : forall m lhs rhs A B LA LB, spec_on lhs rhs ->
      flat lhs = flatm m lhs -> flat rhs = flatm m rhs -> In A [lhs; rhs] -> In B [lhs; rhs] ->
      incl LA (flat A) /\ keeps m LA (flat A) -> incl LB (flat B) /\ keeps m LB (flat B) ->
      ret (allM (fun a => anyM (fun b => if m then sup a b else sup b a) (perm LB)) (perm LA)) (ans (covers m A B)).
    Proof.
      intros m lhs rhs A B LA LB SS El Er HA HB [IA KA] [IB _].
      assert (UU : forall P L x, In P [lhs; rhs] -> incl L (flat P) -> In x L -> In x (flat lhs ++ flat rhs)).
      { intros P L x HP HL Hx. apply HL in Hx. apply in_or_app. destruct HP as [<-|[<-|[]]]; auto. }
      assert (EA : flat A = flatm m A) by (destruct HA as [<-|[<-|[]]]; assumption).
      assert (EB : flat B = flatm m B) by (destruct HB as [<-|[<-|[]]]; assumption).
      eapply ret_yes.
      { apply (pairs_ret (fun a b => if m then sup a b else sup b a) (fun a b => covers m a b) LA LB).
        intros a b Ha Hb.
        apply (sup_mode sup (fun x => In x (flat lhs ++ flat rhs))); [intros x y Hx Hy; now apply SS, call_flat|eauto|eauto]. }
      intros H g i DB. apply (flatm_den v tv m A i). rewrite <- EA. apply (KA g i). intros a Ha.
      destruct (H g a Ha) as (b & Hb & Cab). apply (Cab i). apply (proj1 (flatm_den v tv m B i) DB). rewrite <- EB. auto.
    Qed.
  End Arms.

  Variable f : cfg.

  (** One call of is_super_pred_of, given what its recursive calls do.  The walk through the arms needs of a
      sub-run only [ret]: where the run faults, the fault is passed on, where it answers, the answer is used under
      [G].  So (G, FP, FF) = (True, True, True) is soundness, (False, True, False) says that the run ends in [Fuel]
      only if a call or a comparison does, (False, False, True) the same of [Panic]; induction on the fuel along
      [calls] (its pairs are well-formed, and smaller) then gives the three facts.  The second premise is the
      comparison of the two sides' own constants, the only place besides the calls where the run itself can fault. *)
  Lemma is_super_step : forall n lhs rhs,
    (G -> f = current /\ wf lhs = true /\ wf rhs = true) ->
    (forall a b, top_cst lhs = Some a -> top_cst rhs = Some b -> ret (try_cmp f a b) (fun _ => True)) ->
    spec_on (is_super f perm n) lhs rhs ->
    ret (is_super f perm (S n) lhs rhs) (ans (covers true lhs rhs)).
  Proof.
    intros n lhs rhs HG C SS. cbn [is_super]. destruct (pred_eqb lhs rhs) eqn:E.
    { intros _ i Di. now rewrite (pred_eqb_den v tv _ _ E i). }
    clear E.
    assert (CA : forall (t : comparison -> bool) a b, top_cst lhs = Some a -> top_cst rhs = Some b ->
              ret (do o <- try_cmp f a b; Ok (t o)) (ans (t (cval a ?= cval b) = true))).
    { intros t a b Ha Hb. eapply ret_bind; [exact (C a b Ha Hb)|]. intros o Eo _. cbn. destruct (t o) eqn:Et; cbn; [|exact I].
      intros g. destruct (HG g) as (-> & _). apply try_cmp_current in Eo. now subst o. }
    destruct lhs as [b1|c1|c1|c1|c1|l1|p1 p2|p1|n1|k1 t1 t2], rhs as [b2|c2|c2|c2|c2|l2|q1 q2|q1|n2|k2 u1 u2];
      try exact I;
      try (now apply arm_rhs_and); try (now apply arm_rhs_or); try (now apply arm_lhs_or); try (now apply arm_lhs_and);
      try (eapply ret_yes; [apply CA; reflexivity|]; intros H g i Di; specialize (H g); cbn [den] in *;
           destruct (Z.compare_spec (cval c1) (cval c2)); cbn in H; try discriminate H; lia).
    all: try (destruct b1; cbn; [intros _ i _; reflexivity|exact I]).
    all: try (destruct b2; cbn; [exact I|intros _ i Di; discriminate Di]).
    - destruct (cst_eqb c1 c2) eqn:E.
      + intros _ i Di. apply cst_eqb_eq in E. now subst.
      + eapply ret_yes; [apply CA; reflexivity|]. intros H g i Di. specialize (H g). cbn [den] in *.
        destruct (Z.compare_spec (cval c1) (cval c2)); cbn in H; try discriminate H. lia.
    - (* the constants are plain values, so `!=` on them is integer inequality *)
      cbn. destruct (cst_eqb c1 c2) eqn:E; cbn; [exact I|]. intros g. destruct (HG g) as (_ & Wl & Wr).
      destruct (wf_plain_ne _ Wl) as (x & ->). destruct (wf_plain_eq _ Wr) as (y & ->).
      cbn [cst_eqb] in E. intros i Di. cbn [den cval] in *. lia.
    - apply (arm_reduce _ false (POr l1) (POr l2)); [exact SS|]. intros L R HL HR.
      eapply ret_yes; [exact (arm_pairs _ false (POr l1) (POr l2) (POr l2) (POr l1) R L SS eq_refl eq_refl (or_intror (or_introl eq_refl)) (or_introl eq_refl) HR HL)|].
      intros H g. exact (covers_neg false _ _ (H g)).
    - apply (arm_reduce _ true (PAnd p1 p2) (PAnd q1 q2)); [exact SS|]. intros L R HL HR.
      destruct (fx_and f) eqn:FA.
      + exact (arm_pairs _ true (PAnd p1 p2) (PAnd q1 q2) _ _ L R SS eq_refl eq_refl (or_introl eq_refl) (or_intror (or_introl eq_refl)) HL HR).
      + (* the arm as it was before the repair: nothing is claimed of it *)
        eapply ret_yes.
        { apply (pairs_ret (fun r l => is_super f perm n l r) (fun _ _ => True) R L).
          intros r l Hr Hl. eapply ret_yes; [apply SS, call_flat; apply in_or_app; [left; exact (proj1 HL l Hl)|right; exact (proj1 HR r Hr)]|auto]. }
        intros _ g. destruct (HG g) as (-> & _). discriminate FA.
    - destruct (gk_eqb k1 k2) eqn:Ek; [|exact I]. cbn.
      destruct (term_eqb t1 u1 && term_eqb t2 u2) eqn:Et; cbn; [|exact I]. apply andb_prop in Et. destruct Et as [E1 E2].
      apply gk_eqb_eq in Ek. apply term_eqb_eq in E1. apply term_eqb_eq in E2. subst. intros _ i Di. exact Di.
  Qed.
End Run.

Lemma is_super_sound : forall perm : list pred -> list pred, (forall l x, In x (perm l) <-> In x l) ->
  forall v tv n lhs rhs, wf lhs = true -> wf rhs = true ->
  is_super current perm n lhs rhs = Ok true -> covers v tv true lhs rhs.
Proof.
  intros perm PI v tv. assert (R : forall n lhs rhs, wf lhs = true -> wf rhs = true ->
    ret True True (is_super current perm n lhs rhs) (ans True (covers v tv true lhs rhs))).
  { induction n as [|n IH]; intros lhs rhs Wl Wr; [exact I|].
    apply (is_super_step True True True perm (fun l x => proj1 (PI l x)) (fun _ l x => proj2 (PI l x))).
    - auto.
    - intros. apply ret_any.
    - intros x y Hc. destruct (calls_wf _ _ _ _ Hc Wl Wr). now apply IH. }
  intros n lhs rhs Wl Wr H. exact (ret_answer _ _ _ _ _ _ (R n lhs rhs Wl Wr) H I).
Qed.
