(** C03 — termination.  The pairs on which is_super_pred_of calls itself ([calls], ProofsSuper.v) are smaller, or
    the same predicate twice, which is answered at once ([calls_size]); read with nothing claimed and [Fuel]
    forbidden, [is_super_step] and [sub_refine_ret] then say that the fuel [fuel_of] is never used up. *)
From Coq Require Import ZArith List Bool Lia.
From ErgV Require Import Pred.Model Pred.Spec Pred.Proofs Pred.ProofsRet Pred.ProofsSuper Pred.ProofsRefine.
Import ListNotations.

Definition sizes (l : list pred) : nat := fold_right (fun x acc => (size x + acc)%nat) O l.
Lemma size_or : forall l, size (POr l) = S (sizes l).
Proof. intros l. reflexivity. Qed.
Lemma size_pos : forall p, (1 <= size p)%nat.
Proof. destruct p; cbn [size]; lia. Qed.
Lemma sizes_in : forall l x, In x l -> (size x <= sizes l)%nat.
Proof.
  induction l as [|a t IH]; intros x Hx; [destruct Hx|]. cbn [sizes fold_right]. fold (sizes t).
  destruct Hx as [<-|H]; [lia|]. specialize (IH x H). lia.
Qed.
Lemma sizes_pair : forall l x y, In x l -> In y l -> x = y \/ (size x + size y <= sizes l)%nat.
Proof.
  induction l as [|a t IH]; intros x y Hx Hy; [destruct Hx|]. cbn [sizes fold_right]. fold (sizes t).
  destruct Hx as [<-|Hx], Hy as [<-|Hy]; auto.
  - right. pose proof (sizes_in t y Hy). lia.
  - right. pose proof (sizes_in t x Hx). lia.
  - destruct (IH x y Hx Hy); [auto|right; lia].
Qed.
Lemma ands_size : forall p x, In x (ands p) -> (size x <= size p)%nat.
Proof.
  induction p; intros x Hx; cbn [ands] in Hx; try (destruct Hx as [<-|[]]; lia).
  apply set_union_incl in Hx. cbn [size]. destruct Hx as [H|H]; [specialize (IHp1 x H)|specialize (IHp2 x H)]; lia.
Qed.
Lemma ands_pair : forall p x y, In x (ands p) -> In y (ands p) -> x = y \/ (size x + size y < size p)%nat.
Proof.
  induction p; intros x y Hx Hy; cbn [ands] in Hx, Hy;
    try (destruct Hx as [<-|[]]; destruct Hy as [<-|[]]; left; reflexivity).
  apply set_union_incl in Hx. apply set_union_incl in Hy. cbn [size].
  destruct Hx as [Hx|Hx], Hy as [Hy|Hy].
  - destruct (IHp1 x y Hx Hy); [auto|right; lia].
  - right. pose proof (ands_size _ _ Hx). pose proof (ands_size _ _ Hy). lia.
  - right. pose proof (ands_size _ _ Hx). pose proof (ands_size _ _ Hy). lia.
  - destruct (IHp2 x y Hx Hy); [auto|right; lia].
Qed.

Lemma kids_size : forall p x, In x (kids p) -> (size x < size p)%nat.
Proof.
  intros [] x H; cbn [kids] in H; try contradiction.
  - apply sizes_in in H. rewrite size_or. lia.
  - destruct H as [<-|[<-|[]]]; cbn [size]; lia.
Qed.
Lemma flat_pair : forall p x y, In x (flat p) -> In y (flat p) -> x = y \/ (size x + size y < size p)%nat.
Proof.
  intros [] x y Hx Hy; cbn [flat] in Hx, Hy; try contradiction.
  - cbn [ors] in Hx, Hy. apply set_of_list_incl in Hx. apply set_of_list_incl in Hy. rewrite size_or.
    destruct (sizes_pair _ x y Hx Hy); [auto|right; lia].
  - now apply ands_pair.
Qed.
Lemma flat_size : forall p x, In x (flat p) -> (size x < size p)%nat.
Proof.
  intros [] x H; cbn [flat] in H; try contradiction.
  - cbn [ors] in H. apply set_of_list_incl in H. apply sizes_in in H. rewrite size_or. lia.
  - cbn [ands] in H. apply set_union_incl in H. cbn [size]. destruct H as [H|H]; apply ands_size in H; lia.
Qed.

Lemma calls_size : forall lhs rhs x y, calls lhs rhs x y -> x = y \/ (size x + size y < size lhs + size rhs)%nat.
Proof.
  intros lhs rhs x y [y' H|x' H|x' y' Hx Hy].
  - apply kids_size in H. right. lia.
  - apply kids_size in H. right. lia.
  - apply in_app_or in Hx. apply in_app_or in Hy. destruct Hx as [Hx|Hx], Hy as [Hy|Hy].
    + destruct (flat_pair _ _ _ Hx Hy); [auto|right; lia].
    + apply flat_size in Hx. apply flat_size in Hy. right. lia.
    + apply flat_size in Hx. apply flat_size in Hy. right. lia.
    + destruct (flat_pair _ _ _ Hx Hy); [auto|right; lia].
Qed.

Lemma ceval_nf : forall f c, ceval f c <> Fuel.
Proof.
  intros f [z|z|z]; cbn [ceval]; [discriminate| |].
  - destruct (z =? u64_max); discriminate.
  - destruct (z =? i32_min); [discriminate|]. destruct ((z =? 0) && negb (fx_pred0 f)); discriminate.
Qed.
Lemma try_cmp_nf : forall f a b, try_cmp f a b <> Fuel.
Proof.
  intros f a b. unfold try_cmp. destruct (cst_eqb a b); [discriminate|].
  pose proof (ceval_nf f a). pose proof (ceval_nf f b). destruct (ceval f a), (ceval f b); cbn; congruence.
Qed.

Section Fuel.
  Variable f : cfg.
  Variable perm : list pred -> list pred.
  Hypothesis perm_sub : forall l x, In x (perm l) -> In x l.

  Lemma is_super_fuel : forall n lhs rhs, (size lhs + size rhs < n)%nat -> is_super f perm n lhs rhs <> Fuel.
  Proof.
    intros n lhs rhs Hn. apply (ret_no_fuel _ _ (ans False (covers v0 tv0 true lhs rhs))). revert lhs rhs Hn.
    induction n as [|n IH]; intros lhs rhs Hn; [lia|].
    apply (is_super_step False True False perm perm_sub (fun g => match g with end)).
    - intros [].
    - intros a b _ _. apply ret_of_no_fuel, try_cmp_nf.
    - intros x y Hc. destruct (calls_size _ _ _ _ Hc) as [->|Hs]; [|apply IH; lia].
      (* the same member twice: is_super_pred_of answers at once *)
      pose proof (size_pos lhs). pose proof (size_pos rhs). destruct n as [|n']; [lia|].
      cbn [is_super]. rewrite pred_eqb_refl. intros [].
  Qed.

  Lemma sub_refine_fuel : forall bp p bq q, sub_refine f perm bp p bq q <> Fuel.
  Proof.
    intros bp p bq q. eapply ret_no_fuel. apply (sub_refine_ret True False f False perm v0 tv0); [intros []| |].
    - intros tp _. apply ret_of_no_fuel, ceval_nf.
    - intros q' _. eapply ret_mono; [apply ret_of_no_fuel, is_super_fuel; unfold fuel_of; lia|].
      intros []; cbn; auto. intros _ [].
  Qed.
End Fuel.
