(** C03 — what a run of the model may end in.  The modelled functions return [Ok] with an answer, [Panic] or [Fuel];
    [ret FP FF r Q] says of all three at once what is allowed, so that each function is specified and walked
    through once, and soundness, termination and the absence of overflow are instances of the one statement. *)
From Coq Require Import List Bool.
From ErgV Require Import Pred.Model.
Import ListNotations.

Section Ret.
  Variables FP FF : Prop.

  Definition ret {A} (r : res A) (Q : A -> Prop) : Prop :=
    match r with Ok a => Q a | Panic => FP | Fuel => FF end.

  Lemma ret_bind : forall A B (r : res A) (k : A -> res B) (Q' : A -> Prop) (Q : B -> Prop),
    ret r Q' -> (forall a, r = Ok a -> Q' a -> ret (k a) Q) -> ret (bind r k) Q.
  Proof. intros A B [a| |] k Q' Q H K; cbn in *; auto. Qed.
  Lemma ret_mono : forall A (r : res A) (Q Q' : A -> Prop), ret r Q -> (forall a, Q a -> Q' a) -> ret r Q'.
  Proof. intros A [a| |] Q Q' H K; cbn in *; auto. Qed.

  (* a test that answers [true] only if [T] and [false] only if [F] *)
  Definition tst (T F : Prop) (b : bool) : Prop := if b then T else F.

  Lemma ret_yes : forall (r : res bool) (T F T' : Prop), ret r (tst T F) -> (T -> T') -> ret r (tst T' True).
  Proof. intros r T F T' H K. apply (ret_mono _ _ _ _ H). intros []; cbn; auto. Qed.

  Lemma negM_ret : forall a T F, ret a (tst T F) -> ret (negM a) (tst F T).
  Proof. intros a T F H. apply (ret_bind _ _ _ _ _ _ H). intros [] _ Q; exact Q. Qed.
  Lemma orM_ret : forall a b T1 F1 T2 F2, ret a (tst T1 F1) -> ret b (tst T2 F2) ->
    ret (orM a b) (tst (T1 \/ T2) (F1 /\ F2)).
  Proof.
    intros a b T1 F1 T2 F2 Ha Hb. apply (ret_bind _ _ _ _ _ _ Ha). intros [] _ Q; [left; exact Q|].
    apply (ret_mono _ _ _ _ Hb). intros []; cbn; auto.
  Qed.
  Lemma andM_ret : forall a b T1 F1 T2 F2, ret a (tst T1 F1) -> ret b (tst T2 F2) ->
    ret (andM a b) (tst (T1 /\ T2) (F1 \/ F2)).
  Proof.
    intros a b T1 F1 T2 F2 Ha Hb. apply (ret_bind _ _ _ _ _ _ Ha). intros [] _ Q; [|left; exact Q].
    apply (ret_mono _ _ _ _ Hb). intros []; cbn; auto.
  Qed.

  Section Lists.
    Variable A : Type.
    Variable g : A -> res bool.
    Variables T F : A -> Prop.

    Lemma allM_ret : forall l, (forall x, In x l -> ret (g x) (tst (T x) (F x))) ->
      ret (allM g l) (tst (forall x, In x l -> T x) (exists x, In x l /\ F x)).
    Proof.
      induction l as [|a t IH]; intros H; cbn [allM]; [intros x []|].
      apply (ret_bind _ _ _ _ _ _ (H a (or_introl eq_refl))). intros [] _ Q; [|exists a; cbn; auto].
      apply (ret_mono _ _ _ _ (IH (fun x Hx => H x (or_intror Hx)))). intros []; cbn.
      - intros Ht x [<-|Hx]; auto.
      - intros (x & Hx & Fx). exists x. auto.
    Qed.
    Lemma anyM_ret : forall l, (forall x, In x l -> ret (g x) (tst (T x) (F x))) ->
      ret (anyM g l) (tst (exists x, In x l /\ T x) (forall x, In x l -> F x)).
    Proof.
      induction l as [|a t IH]; intros H; cbn [anyM]; [intros x []|].
      apply (ret_bind _ _ _ _ _ _ (H a (or_introl eq_refl))). intros [] _ Q; [exists a; cbn; auto|].
      apply (ret_mono _ _ _ _ (IH (fun x Hx => H x (or_intror Hx)))). intros []; cbn.
      - intros (x & Hx & Fx). exists x. auto.
      - intros Ht x [<-|Hx]; auto.
    Qed.
    Lemma findM_ret : forall l, (forall x, In x l -> ret (g x) (tst (T x) (F x))) ->
      ret (findM g l) (fun o => match o with Some x => In x l /\ T x | None => forall x, In x l -> F x end).
    Proof.
      induction l as [|a t IH]; intros H; cbn [findM]; [intros x []|].
      apply (ret_bind _ _ _ _ _ _ (H a (or_introl eq_refl))). intros [] _ Q; [cbn; auto|].
      apply (ret_mono _ _ _ _ (IH (fun x Hx => H x (or_intror Hx)))). intros [x|]; cbn.
      - intros [Hx Tx]. auto.
      - intros Ht x [<-|Hx]; auto.
    Qed.
  End Lists.
End Ret.

Arguments ret FP FF {A} r Q.
Arguments allM_ret {FP FF A g} T F l.
Arguments anyM_ret {FP FF A g} T F l.
Arguments findM_ret {FP FF A g} T F l.

Lemma ret_answer : forall FP FF A (r : res A) Q a, ret FP FF r Q -> r = Ok a -> Q a.
Proof. intros FP FF A r Q a H ->. exact H. Qed.
Lemma ret_no_fuel : forall A (r : res A) Q, ret True False r Q -> r <> Fuel.
Proof. intros A [a| |] Q H; [discriminate|discriminate|destruct H]. Qed.
Lemma ret_no_panic : forall A (r : res A) Q, ret False True r Q -> r <> Panic.
Proof. intros A [a| |] Q H; [discriminate|destruct H|discriminate]. Qed.
Lemma ret_any : forall A (r : res A), ret True True r (fun _ => True).
Proof. intros A [a| |]; exact I. Qed.
Lemma ret_of_no_fuel : forall A (r : res A), r <> Fuel -> ret True False r (fun _ => True).
Proof. intros A [a| |] H; cbn; auto. Qed.
Lemma ret_of_no_panic : forall A (r : res A), r <> Panic -> ret False True r (fun _ => True).
Proof. intros A [a| |] H; cbn; auto. Qed.
