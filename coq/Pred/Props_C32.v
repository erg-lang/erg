(** C32.  [den v tv p i]: integer [i] satisfies [p] when the opaque boolean atoms are valued by [v] and the opaque
    integer terms by [tv] (Spec.v).  [pand], [por], [invert], [pgt], [plt] are the transcriptions of
    Predicate::{and, or, invert, gt, lt} (Model.v).  All statements are for every predicate tree (any depth,
    including opaque atoms, general comparisons such as `3 <= I`, and enum values the constructors never
    build), every integer and every valuation. *)
From Coq Require Import ZArith List Bool.
From ErgV Require Import Pred.Model Pred.Spec Pred.Proofs.
Import ListNotations.
Open Scope Z_scope.

(** and = intersection *)
Theorem and_den : forall v tv p q i, den v tv (pand p q) i = den v tv p i && den v tv q i.
Proof. exact den_pand. Qed.
Example and_den_nonvacuous :
  pand (PAnd (PGe (CV 0)) (PLe (CV 9))) (PLe (CV 9)) = PAnd (PGe (CV 0)) (PLe (CV 9)) /\
  pand (PGe (CV 0)) (POther 1) = PAnd (PGe (CV 0)) (POther 1).
Proof. split; reflexivity. Qed.

(** or = union *)
Theorem or_den : forall v tv p q i, den v tv (por p q) i = den v tv p i || den v tv q i.
Proof. exact den_por. Qed.
Example or_den_nonvacuous :
  por (PEq (CV 1)) (PGe (CV 1)) = PGe (CV 1) /\
  por (POr [PEq (CV 1); PEq (CV 2)]) (POr [PEq (CV 2); PEq (CV 3)]) = POr [PEq (CV 1); PEq (CV 2); PEq (CV 3)].
Proof. split; reflexivity. Qed.

(** invert = complement (tree as it is now: Model.current) *)
Theorem invert_den : forall v tv p i, den v tv (invert current p) i = negb (den v tv p i).
Proof. intros. apply den_invert. reflexivity. Qed.
Example invert_den_nonvacuous :
  invert current (PGe (CV 3)) = PAnd (PLe (CV 3)) (PNe (CV 3)) /\
  invert current (PAnd (PGe (CV 0)) (PLe (CV 9))) = PNot (PAnd (PGe (CV 0)) (PLe (CV 9))) /\
  invert current (PGen GLe (TVal 3) TSubj) = PAnd (PGen GGe (TVal 3) TSubj) (PGen GNe (TVal 3) TSubj).
Proof. repeat split; reflexivity. Qed.

(** before the repair (Model.before_inv) invert turned `3 <= I` into `3 >= I`: both hold for I = 3 *)
Theorem invert_den_refuted :
  exists p i, forall v tv, den v tv (invert before_inv p) i <> negb (den v tv p i).
Proof. exists (PGen GLe (TVal 3) TSubj), 3. intros v tv. vm_compute. discriminate. Qed.

Theorem gt_den : forall v tv c i, den v tv (pgt c) i = (cval c <? i).
Proof. exact den_pgt. Qed.
Theorem lt_den : forall v tv c i, den v tv (plt c) i = (i <? cval c).
Proof. exact den_plt. Qed.
Example gt_lt_nonvacuous : pgt (CV 5) = PAnd (PGe (CV 5)) (PNe (CV 5)) /\ plt (CV 5) = PAnd (PLe (CV 5)) (PNe (CV 5)).
Proof. split; reflexivity. Qed.
