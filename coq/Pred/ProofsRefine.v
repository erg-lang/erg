(** C03 — from predicates to refinement types: change_subject_name, the possible_tps shortcut (constant folding
    that ignores comparisons), the (Refinement, Refinement) arm, Context::subtype_of; interval sugar; order
    oracles. *)
From Coq Require Import ZArith List Bool Arith Lia Btauto Permutation.
From ErgV Require Import Common.Lists Pred.Model Pred.Spec Pred.Proofs Pred.ProofsRet Pred.ProofsSuper.
Import ListNotations.
Open Scope Z_scope.

Lemma den_cs : forall v tv f p i, fx_inv f = true -> den v tv (cs f p) i = den v tv p i.
Proof.
  intros v tv f p i F. induction p as [b|c|c|c|c|l H|p1 p2 IH1 IH2|p IH|n|k a b] using pred_ind'; try reflexivity.
  - cbn [cs]. rewrite !den_or, den_any_set_of_list. unfold den_any.
    induction H as [|x t Hx _ IHt]; [reflexivity|]. cbn [existsb]. now rewrite Hx, IHt.
  - cbn [cs]. rewrite den_pand. cbn [den]. now rewrite IH1, IH2.
  - cbn [cs]. rewrite den_invert by assumption. cbn [den]. now rewrite IH.
Qed.

Definition kand (a b : option bool) : option bool :=
  match a, b with
  | Some false, _ | _, Some false => Some false
  | Some true, Some true => Some true
  | _, _ => None
  end.
Definition kor (a b : option bool) : option bool :=
  match a, b with
  | Some true, _ | _, Some true => Some true
  | Some false, Some false => Some false
  | _, _ => None
  end.
Definition kneg (a : option bool) : option bool := match a with Some b => Some (negb b) | None => None end.

(* what a predicate folds to when comparisons with the subject are treated as unknown *)
Fixpoint fold3 (p : pred) : option bool :=
  match p with
  | PVal b => Some b
  | POr l => (fix go (l : list pred) : option bool := match l with [] => Some false | x :: t => kor (fold3 x) (go t) end) l
  | PAnd l r => kand (fold3 l) (fold3 r)
  | PNot q => kneg (fold3 q)
  | PGen k (TVal x) (TVal y) => Some (gk_eval k x y)
  | _ => None
  end.
Definition fold3_any (l : list pred) : option bool := fold_right (fun x acc => kor (fold3 x) acc) (Some false) l.
Lemma fold3_or : forall l, fold3 (POr l) = fold3_any l.
Proof. reflexivity. Qed.

Lemma k3_ext : forall a b : option bool,
  (a = Some true <-> b = Some true) -> (a = Some false <-> b = Some false) -> a = b.
Proof. intros [[]|] [[]|]; intuition congruence. Qed.
Lemma kand_true : forall x y, kand x y = Some true <-> x = Some true /\ y = Some true.
Proof. intros [[]|] [[]|]; cbn; intuition congruence. Qed.
Lemma kand_false : forall x y, kand x y = Some false <-> x = Some false \/ y = Some false.
Proof. intros [[]|] [[]|]; cbn; intuition congruence. Qed.
Lemma kor_true : forall x y, kor x y = Some true <-> x = Some true \/ y = Some true.
Proof. intros [[]|] [[]|]; cbn; intuition congruence. Qed.
Lemma kor_false : forall x y, kor x y = Some false <-> x = Some false /\ y = Some false.
Proof. intros [[]|] [[]|]; cbn; intuition congruence. Qed.

Lemma fold3_any_true : forall l, fold3_any l = Some true <-> exists x, In x l /\ fold3 x = Some true.
Proof.
  induction l as [|a t IH]; cbn [fold3_any fold_right].
  - split; [discriminate|intros (x & [] & _)].
  - fold (fold3_any t). rewrite kor_true, IH. split.
    + intros [H|(x & Hx & H)]; [exists a|exists x]; cbn; auto.
    + intros (x & [<-|Hx] & H); [left|right; exists x]; auto.
Qed.
Lemma fold3_any_false : forall l, fold3_any l = Some false <-> forall x, In x l -> fold3 x = Some false.
Proof.
  induction l as [|a t IH]; cbn [fold3_any fold_right].
  - split; [intros _ x []|reflexivity].
  - fold (fold3_any t). rewrite kor_false, IH. split.
    + intros [Ha Ht] x [<-|Hx]; auto.
    + intros H. split; [apply H; cbn; auto|intros x Hx; apply H; cbn; auto].
Qed.
Lemma fold3_any_ext : forall k m, (forall x, In x k -> exists y, In y m /\ fold3 x = fold3 y) ->
  (forall y, In y m -> exists x, In x k /\ fold3 x = fold3 y) -> fold3_any k = fold3_any m.
Proof.
  intros k m Hk Hm. apply k3_ext.
  - rewrite !fold3_any_true. split.
    + intros (x & Hx & F). destruct (Hk x Hx) as (y & Hy & E). exists y. split; congruence.
    + intros (y & Hy & F). destruct (Hm y Hy) as (x & Hx & E). exists x. split; congruence.
  - rewrite !fold3_any_false. split.
    + intros H y Hy. destruct (Hm y Hy) as (x & Hx & E). rewrite <- E. auto.
    + intros H x Hx. destruct (Hk x Hx) as (y & Hy & E). rewrite E. auto.
Qed.

Lemma fold3_sound : forall v tv p b, fold3 p = Some b -> forall i, den v tv p i = b.
Proof.
  intros v tv p. induction p as [b0|c|c|c|c|l H|p1 p2 IH1 IH2|p IH|n|k a b0] using pred_ind'; intros b F i; try discriminate F.
  - now injection F as <-.
  - rewrite fold3_or in F. rewrite den_or. rewrite Forall_forall in H. destruct b.
    + apply fold3_any_true in F. destruct F as (x & Hx & F). apply den_any_true. exists x. split; [assumption|].
      exact (H x Hx true F i).
    + apply den_any_false. intros x Hx. apply (H x Hx false). exact (proj1 (fold3_any_false l) F x Hx).
  - cbn [fold3] in F. cbn [den]. destruct b.
    + apply kand_true in F. destruct F as [F1 F2]. now rewrite (IH1 true F1 i), (IH2 true F2 i).
    + apply kand_false in F. destruct F as [F|F]; [now rewrite (IH1 false F i)|rewrite (IH2 false F i); apply andb_false_r].
  - cbn [fold3] in F. cbn [den]. destruct (fold3 p) as [b1|]; [|discriminate]. injection F as <-. now rewrite (IH b1 eq_refl i).
  - cbn [fold3] in F. destruct a, b0; try discriminate F. injection F as <-. reflexivity.
Qed.

Lemma fold3_eqb : forall p q, pred_eqb p q = true -> fold3 p = fold3 q.
Proof.
  apply (eqb_reading _ fold3); [|intros; cbn [fold3]; congruence ..].
  intros k m. rewrite !fold3_or. apply fold3_any_ext.
Qed.

Lemma fold3_any_set_of_list : forall l, fold3_any (set_of_list l) = fold3_any l.
Proof.
  intros l. apply fold3_any_ext.
  - intros x Hx. apply set_of_list_incl in Hx. eauto.
  - intros y Hy. destruct (set_of_list_has l y Hy) as (x & Hx & E). exists x. split; [assumption|]. symmetry. now apply fold3_eqb.
Qed.

Lemma fold3_PAnd : forall a b, fold3 (PAnd a b) = kand (fold3 a) (fold3 b).
Proof. reflexivity. Qed.
Lemma fold3_PVal : forall b, fold3 (PVal b) = Some b.
Proof. reflexivity. Qed.
Lemma fold3_PNot : forall p, fold3 (PNot p) = kneg (fold3 p).
Proof. reflexivity. Qed.

Lemma kand_some : forall a b, kand (Some a) (Some b) = Some (a && b).
Proof. intros [] []; reflexivity. Qed.
Lemma kand_comm : forall x y, kand x y = kand y x.
Proof. intros [[]|] [[]|]; reflexivity. Qed.
Lemma kand_assoc : forall x y z, kand x (kand y z) = kand (kand x y) z.
Proof. intros [[]|] [[]|] [[]|]; reflexivity. Qed.
Lemma kand_idem : forall x, kand x x = x.
Proof. intros [[]|]; reflexivity. Qed.

Lemma fold3_pand : forall a b, fold3 (pand a b) = kand (fold3 a) (fold3 b).
Proof.
  apply (hom_pand _ fold3 kand kand_comm kand_assoc kand_idem fold3_eqb); try reflexivity.
  intros [[]|]; reflexivity.
Qed.

Lemma fold3_invert : forall f p, fx_inv f = true -> fold3 (invert f p) = kneg (fold3 p).
Proof.
  intros f p F. destruct p; cbn [invert]; rewrite ?F; unfold pgt, plt; rewrite ?fold3_pand; try reflexivity.
  - cbn [fold3]. destruct (fold3 p) as [[]|]; reflexivity.
  - (* a comparison of two values: its strict opposite is the negation *)
    destruct k, a, b; rewrite ?fold3_pand; try reflexivity; cbn [fold3 kneg]; rewrite ?kand_some; f_equal.
    + symmetry. apply negb_involutive.
    + apply gk_eval_neg.
    + apply gk_eval_neg.
Qed.

Lemma fold3_substitute : forall f tp p, fx_inv f = true -> fold3 (substitute f p tp) = fold3 p.
Proof.
  intros f tp p F. induction p as [b0|c|c|c|c|l H|p1 p2 IH1 IH2|p IH|n|k a b0] using pred_ind'; try reflexivity.
  - cbn [substitute]. rewrite !fold3_or, fold3_any_set_of_list.
    induction H as [|x t Hx _ IHt]; [reflexivity|]. cbn [fold3_any fold_right].
    fold (fold3_any t). rewrite <- IHt, Hx. reflexivity.
  - cbn [substitute]. rewrite fold3_pand, IH1, IH2. reflexivity.
  - cbn [substitute]. rewrite fold3_invert by assumption. now rewrite IH.
Qed.

(* every comparison constant is [tp]: what Predicate::substitute leaves, so that evaluating the result faults
   only where succ / pred of that one constant does *)
Fixpoint onlyc (tp : cst) (p : pred) : bool :=
  match p with
  | PEq c | PNe c | PGe c | PLe c => cst_eqb c tp
  | POr l => (fix all (l : list pred) : bool := match l with [] => true | x :: t => onlyc tp x && all t end) l
  | PAnd l r => onlyc tp l && onlyc tp r
  | PNot q => onlyc tp q
  | _ => true
  end.
Lemma onlyc_or : forall tp l, onlyc tp (POr l) = true <-> forall x, In x l -> onlyc tp x = true.
Proof. intros tp l. rewrite <- forallb_forall. cbn [onlyc]. now rewrite fix_forallb. Qed.
Lemma onlyc_pand : forall tp a b, onlyc tp a = true -> onlyc tp b = true -> onlyc tp (pand a b) = true.
Proof. intros tp. apply pand_closed. reflexivity. Qed.
Lemma onlyc_invert : forall f tp p, onlyc tp p = true -> onlyc tp (invert f p) = true.
Proof.
  intros f tp p H. destruct p as [b|c|c|c|c|l|a b|q|n|k a b]; cbn [invert]; try exact H;
    try (unfold plt, pgt; apply onlyc_pand; exact H).
  destruct k; try reflexivity; destruct (fx_inv f); try reflexivity; apply onlyc_pand; reflexivity.
Qed.
Lemma onlyc_substitute : forall f tp p, onlyc tp (substitute f p tp) = true.
Proof.
  intros f tp p. induction p as [b0|c|c|c|c|l H|p1 p2 IH1 IH2|p IH|n|k a b0] using pred_ind'; try reflexivity;
    try apply cst_eqb_refl.
  - rewrite substitute_or. apply onlyc_or. intros y Hy. apply set_of_list_incl, in_map_iff in Hy.
    destruct Hy as (x & <- & Hx). rewrite Forall_forall in H. exact (H x Hx).
  - cbn [substitute]. now apply onlyc_pand.
  - cbn [substitute]. now apply onlyc_invert.
Qed.

Section Refine.
  Variables FP FF : Prop.
  Notation ret := (ret FP FF).
  Variable f : cfg.

  (* eval_pred evaluates the constants and leaves the three-valued folding alone; the possible_tps shortcut
     (substitute, evaluate, compare with True) therefore fires only when the supertype predicate folds to True
     without looking at the comparisons, and then it is true of every integer *)
  Lemma eval_pred_ret : forall tp p, ret (ceval f tp) (fun _ => True) -> onlyc tp p = true ->
    ret (eval_pred f p) (fun e => fx_inv f = true -> fold3 e = fold3 p).
  Proof.
    intros tp p C. assert (Cc : forall c (k : Z -> pred), (forall z, fold3 (k z) = None) -> cst_eqb c tp = true ->
      ret (do z <- ceval f c; Ok (k z)) (fun e => fx_inv f = true -> fold3 e = None)).
    { intros c k Hk E. apply cst_eqb_eq in E. subst c. eapply ret_bind; [exact C|]. intros z _ _ _. apply Hk. }
    induction p as [b0|c|c|c|c|l H|p1 p2 IH1 IH2|p IH|n|k a b0] using pred_ind'; intros P; cbn [eval_pred];
      try (intros _; reflexivity); try (now apply Cc).
    - eapply ret_bind with (Q' := fun l' => fx_inv f = true -> fold3_any l' = fold3_any l).
      + induction H as [|x t Hx _ IHt]; [intros _; reflexivity|].
        cbn [onlyc] in P. apply andb_prop in P. destruct P as [Px Pt].
        eapply ret_bind; [exact (Hx Px)|]. intros a _ Ea. eapply ret_bind; [exact (IHt Pt)|]. intros t' _ Et F.
        cbn [fold3_any fold_right]. fold (fold3_any t') (fold3_any t). now rewrite (Ea F), (Et F).
      + intros l' _ El F. rewrite !fold3_or, fold3_any_set_of_list. exact (El F).
    - cbn [onlyc] in P. apply andb_prop in P. destruct P as [P1 P2].
      eapply ret_bind; [exact (IH1 P1)|]. intros a _ Ea. eapply ret_bind; [exact (IH2 P2)|]. intros b _ Eb F.
      rewrite fold3_pand, (Ea F), (Eb F). reflexivity.
    - eapply ret_bind; [exact (IH P)|]. intros a _ Ea F. rewrite (fold3_invert f a F), (Ea F). reflexivity.
    - destruct a, b0; intros _; reflexivity.
  Qed.

  Variable G : Prop.
  Variable perm : list pred -> list pred.
  Variable v : nat -> Z -> bool.
  Variable tv : nat -> Z -> Z.
  Notation D := (den v tv).

  Lemma shortcut_ret : forall q p, (forall tp, In tp (possible_tps p) -> ret (ceval f tp) (fun _ => True)) ->
    ret (shortcut f q p) (tst (fx_inv f = true -> forall i, D q i = true) True).
  Proof.
    intros q p C. unfold shortcut. eapply ret_yes.
    { apply (anyM_ret (fun _ => fx_inv f = true -> forall i, D q i = true) (fun _ => True)). intros tp Htp.
      eapply ret_bind; [exact (eval_pred_ret tp _ (C tp Htp) (onlyc_substitute f tp q))|]. intros e _ Ee.
      destruct e as [[]| | | | | | | | |]; cbn; auto. intros F.
      apply (fold3_sound v tv q true). rewrite <- (fold3_substitute f tp q F). symmetry. exact (Ee F). }
    intros (tp & _ & H). exact H.
  Qed.

  (** Context::subtype_of on two refinement types, given what is_super_pred_of does on the predicates; [G] as in
      ProofsSuper.v: with it the answer "true" means inclusion of the types, without it only the outcomes are
      spoken of, for every configuration. *)
  Lemma sub_refine_ret : forall bp p bq q,
    (G -> Known_C03 perm bp p bq q = false /\ f = current) ->
    (forall tp, In tp (possible_tps p) -> ret (ceval f tp) (fun _ => True)) ->
    (forall q', In q' [q; pand (PGe (CV 0)) q] ->
       ret (is_super f perm (fuel_of q' p) q' p) (ans G (covers v tv true q' p))) ->
    ret (sub_refine f perm bp p bq q)
        (ans G (forall i, in_base bp i && D p i = true -> in_base bq i && D q i = true)).
  Proof.
    intros bp p bq q HG C S. unfold sub_refine. destruct (base_eqb bq bp && pred_eqb q (cs f p)) eqn:E.
    { intros g i M. apply andb_prop in E. destruct E as [Eb Ep]. destruct (HG g) as (_ & ->).
      assert (bq = bp) by (destruct bq, bp; cbn in Eb; congruence). subst bq.
      rewrite (pred_eqb_den v tv _ _ Ep i), den_cs by reflexivity. exact M. }
    assert (R : forall q', In q' [q; pand (PGe (CV 0)) q] -> ret (refine_arm f perm q' p) (ans G (covers v tv true q' p))).
    { intros q' Hq. unfold refine_arm. eapply ret_bind; [exact (shortcut_ret q' p C)|]. intros [] _ Sc; [|exact (S q' Hq)].
      intros g i _. destruct (HG g) as (_ & ->). exact (Sc eq_refl i). }
    eapply ret_bind with (Q' := ans G (forall i, in_base bp i && D p i = true -> in_base bq i && D q i = true)).
    - unfold struct_arm. destruct (class_sup bq bp) eqn:CS.
      + eapply ret_yes; [exact (R q (or_introl eq_refl))|]. intros H g i M.
        apply andb_prop in M. destruct M as [Bi Di]. rewrite (H g i Di), andb_true_r.
        destruct bq, bp; cbn in *; auto; discriminate.
      + (* where Nat is required of an Int-based type, I >= 0 has become part of the required predicate *)
        destruct bq, bp; try discriminate CS. destruct (fx_nat f) eqn:FN.
        * eapply ret_yes; [exact (R _ (or_intror (or_introl eq_refl)))|]. intros H g i M.
          apply andb_prop in M. destruct M as [_ Di]. pose proof (H g i Di) as Q. rewrite den_pand in Q. exact Q.
        * eapply ret_yes; [exact (R q (or_introl eq_refl))|]. intros _ g. destruct (HG g) as (_ & ->). discriminate FN.
    - intros [] Es Hs; [exact Hs|].
      (* struct_arm has refused, only the nominal path can accept: that is the known class *)
      destruct (nominal_arm bq q bp) eqn:N; cbn; [|exact I]. intros g. destruct (HG g) as (K & ->).
      unfold Known_C03 in K. rewrite N, E, Es in K. discriminate K.
  Qed.
End Refine.

(** C03: acceptance by the checker (outside the known class) implies inclusion of the two refinement types,
    whatever the opaque atoms and terms stand for *)
Lemma accept_sound_v : forall perm : list pred -> list pred, (forall l x, In x (perm l) <-> In x l) ->
  forall v tv bp p bq q, wf p = true -> wf q = true ->
  Known_C03 perm bp p bq q = false ->
  sub_refine current perm bp p bq q = Ok true ->
  forall i, in_base bp i && den v tv p i = true -> in_base bq i && den v tv q i = true.
Proof.
  intros perm PI v tv bp p bq q Wp Wq K H.
  refine (ret_answer True True _ _ _ _ (sub_refine_ret True True current True perm v tv bp p bq q _ _ _) H I).
  - auto.
  - intros. apply ret_any.
  - intros q' Hq. assert (Wq' : wf q' = true) by (destruct Hq as [<-|[<-|[]]]; auto using wf_pand).
    pose proof (is_super_sound perm PI v tv (fuel_of q' p) q' p Wq' Wp) as S.
    destruct (is_super current perm (fuel_of q' p) q' p) as [[]| |]; cbn; auto.
Qed.

Lemma interval_den_l : forall v tv op a b i,
  den v tv (interval op a b) i =
  match op with
  | IClosed => (a <=? i) && (i <=? b)
  | ILeftOpen => (a <? i) && (i <=? b)
  | IRightOpen => (a <=? i) && (i <? b)
  | IOpen => (a <? i) && (i <? b)
  end.
Proof. intros v tv [] a b i; unfold interval; rewrite den_pand; cbn [den cval]; lia. Qed.

Lemma perm_in_of_permutation : forall perm : list pred -> list pred,
  (forall l, Permutation (perm l) l) -> forall l x, In x (perm l) <-> In x l.
Proof.
  intros perm H l x. split; intros Hx.
  - exact (Permutation_in x (H l) Hx).
  - exact (Permutation_in x (Permutation_sym (H l)) Hx).
Qed.

Lemma rotl_perm : forall A k (l : list A), Permutation (rotl k l) l.
Proof.
  induction k as [|k IH]; intros l; [destruct l; apply Permutation_refl|].
  destruct l as [|x t]; [apply Permutation_refl|]. cbn [rotl].
  eapply Permutation_trans; [apply IH|]. apply Permutation_sym, Permutation_cons_append.
Qed.
Definition idp (l : list pred) : list pred := l.
Lemma idp_perm : forall l, Permutation (idp l) l.
Proof. intros; apply Permutation_refl. Qed.
