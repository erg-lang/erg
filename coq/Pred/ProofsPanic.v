(** C03 — within the machine range of the constants ([wf]) the model never reaches a [Panic] outcome (the u64 / i32
    overflow in succ / pred of an open-interval bound): [is_super_step] and [sub_refine_ret] read with nothing claimed
    and [Panic] forbidden; the pairs of [calls] are well-formed, and the constants that the possible_tps shortcut
    substitutes are plain values. *)
From Coq Require Import ZArith List Bool Lia.
From ErgV Require Import Pred.Model Pred.Spec Pred.Proofs Pred.ProofsRet Pred.ProofsSuper Pred.ProofsRefine.
Import ListNotations.
Open Scope Z_scope.

Definition cst_ok (c : cst) : bool := match c with CV _ => true | CSucc z | CPred z => z_ok z end.
Lemma wf_top_cst : forall p c, wf p = true -> top_cst p = Some c -> cst_ok c = true.
Proof.
  intros p c W H. destruct p; try discriminate H; injection H as <-;
    destruct c0 as [z|z|z]; cbn in W |- *; auto; discriminate W.
Qed.
Lemma ceval_np : forall f c, cst_ok c = true -> ceval f c <> Panic.
Proof.
  intros f [z|z|z] H; cbn in *; [discriminate| |]; unfold z_ok in H; apply andb_prop in H; destruct H as [H1 H2].
  - unfold u64_max. destruct (Z.eqb_spec z 18446744073709551615); [lia|discriminate].
  - unfold i32_min. destruct (Z.eqb_spec z (-2147483648)); [lia|]. destruct ((z =? 0) && negb (fx_pred0 f)); discriminate.
Qed.
Lemma try_cmp_np : forall f a b, cst_ok a = true -> cst_ok b = true -> try_cmp f a b <> Panic.
Proof.
  intros f a b Ha Hb. unfold try_cmp. destruct (cst_eqb a b); [discriminate|].
  pose proof (ceval_np f a Ha). pose proof (ceval_np f b Hb). destruct (ceval f a), (ceval f b); cbn; congruence.
Qed.

Lemma possible_tps_plain : forall p, wf p = true -> forall tp, In tp (possible_tps p) -> exists z, tp = CV z.
Proof.
  induction p as [b0|c|c|c|c|l H|p1 p2 IH1 IH2|p IH|n|k a b0] using pred_ind'; intros W tp Hin;
    try (now destruct Hin).
  - destruct Hin as [<-|[]]. exact (wf_plain_eq _ W).
  - rewrite wf_or in W. rewrite Forall_forall in H. rewrite possible_tps_or in Hin. apply in_flat_map in Hin.
    destruct Hin as (x & Hx & Hin). exact (H x Hx (W x Hx) tp Hin).
Qed.

Section NoPanic.
  Variable f : cfg.
  Variable perm : list pred -> list pred.
  Hypothesis perm_sub : forall l x, In x (perm l) -> In x l.

  Lemma is_super_np : forall n lhs rhs, wf lhs = true -> wf rhs = true -> is_super f perm n lhs rhs <> Panic.
  Proof.
    intros n lhs rhs Wl Wr. apply (ret_no_panic _ _ (ans False (covers v0 tv0 true lhs rhs))). revert lhs rhs Wl Wr.
    induction n as [|n IH]; intros lhs rhs Wl Wr; [exact I|].
    apply (is_super_step False False True perm perm_sub (fun g => match g with end)).
    - intros [].
    - intros a b Ha Hb. apply ret_of_no_panic, try_cmp_np; [exact (wf_top_cst _ _ Wl Ha)|exact (wf_top_cst _ _ Wr Hb)].
    - intros x y Hc. destruct (calls_wf _ _ _ _ Hc Wl Wr). now apply IH.
  Qed.

  Lemma sub_refine_np : forall bp p bq q, wf p = true -> wf q = true -> sub_refine f perm bp p bq q <> Panic.
  Proof.
    intros bp p bq q Wp Wq. eapply ret_no_panic. apply (sub_refine_ret False True f False perm v0 tv0); [intros []| |].
    - intros tp Htp. destruct (possible_tps_plain p Wp tp Htp) as (z & ->). exact I.
    - intros q' Hq. eapply ret_mono; [apply ret_of_no_panic, is_super_np; [|exact Wp]; destruct Hq as [<-|[<-|[]]]; auto using wf_pand|].
      intros []; cbn; auto. intros _ [].
  Qed.
End NoPanic.
