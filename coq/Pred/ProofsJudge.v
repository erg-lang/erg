(** C03 — the executable judge [implies_dec] decides implication over all integers: in the integer fragment the
    truth of a predicate depends only on how the integer compares with the constants ([den_same]), and every
    integer compares with them like one of the points c-1, c, c+1 ([pts_repr]). *)
From Coq Require Import ZArith List Bool Lia.
From ErgV Require Import Pred.Model Pred.Spec Pred.Proofs.
Import ListNotations.
Open Scope Z_scope.

Definition same (i j c : Z) : Prop := (i ?= c) = (j ?= c).
Lemma same_iff : forall i j c, same i j c <-> ((i < c <-> j < c) /\ (i = c <-> j = c)).
Proof.
  intros i j c. unfold same. destruct (Z.compare_spec i c), (Z.compare_spec j c); split; intros HH; try discriminate HH;
    try reflexivity; try lia.
Qed.

Lemma deni_or : forall l i, deni (POr l) i = existsb (fun q => deni q i) l.
Proof. intros. unfold deni. rewrite den_or. reflexivity. Qed.

Lemma den_same : forall p i j, pure p = true -> Forall (same i j) (consts p) -> deni p i = deni p j.
Proof.
  induction p as [b0|c|c|c|c|l H|p1 p2 IH1 IH2|p IH|n|k a b0] using pred_ind'; intros i j P S; try discriminate P;
    try reflexivity;
    try (apply Forall_inv, same_iff in S; unfold deni; cbn [den]; lia).
  - rewrite !deni_or. revert P S. induction H as [|x t Hx _ IHt]; intros P S; [reflexivity|].
    cbn [pure] in P. apply andb_prop in P. destruct P as [Px Pt]. cbn [consts] in S. apply Forall_app in S. destruct S as [Sx St].
    cbn [existsb]. f_equal; auto.
  - cbn [pure] in P. apply andb_prop in P. destruct P as [P1 P2]. cbn [consts] in S. apply Forall_app in S. destruct S as [S1 S2].
    unfold deni in *. cbn [den]. f_equal; auto.
  - cbn [pure] in P. unfold deni in *. cbn [den]. f_equal. apply IH; assumption.
Qed.

Lemma same_between : forall i j j' c, i <= j <= j' \/ j' <= j <= i -> same i j' c -> same i j c.
Proof. intros i j j' c B S. apply same_iff in S. apply same_iff. lia. Qed.

(* one more constant [a]: a representative [j'] for the others is kept if it lies on the side of [a] where [i]
   lies; otherwise [i] is separated from it by [a], and the neighbour of [a] on the side of [i] lies between *)
Lemma pts_step : forall a i j', exists j, In j [a - 1; a; a + 1; j'] /\ same i j a /\ forall c, same i j' c -> same i j c.
Proof.
  intros a i j'. destruct (Z.compare_spec i a) as [E|L|G].
  - exists a. subst i. cbn [In]. split; [auto|]. split; [reflexivity|]. intros c _. reflexivity.
  - destruct (Z_lt_le_dec j' a).
    + exists j'. cbn [In]. split; [auto|]. split; [apply same_iff; lia|auto].
    + exists (a - 1). cbn [In]. split; [auto|]. split; [apply same_iff; lia|]. intros c. apply same_between. lia.
  - destruct (Z_lt_le_dec a j').
    + exists j'. cbn [In]. split; [auto|]. split; [apply same_iff; lia|auto].
    + exists (a + 1). cbn [In]. split; [auto|]. split; [apply same_iff; lia|]. intros c. apply same_between. lia.
Qed.

Lemma pts_repr : forall l a i, exists j, In j (pts (a :: l)) /\ Forall (same i j) (a :: l).
Proof.
  induction l as [|b t IH]; intros a i.
  - destruct (pts_step a i a) as (j & Hj & Sa & _). exists j. split; [|auto].
    cbn [pts]. destruct Hj as [<-|[<-|[<-|[<-|[]]]]]; cbn; auto.
  - destruct (IH b i) as (j' & Hj' & S'). destruct (pts_step a i j') as (j & Hj & Sa & St). exists j. split.
    + change (In j ((a - 1) :: a :: (a + 1) :: pts (b :: t))). destruct Hj as [<-|[<-|[<-|[<-|[]]]]]; cbn [In]; auto.
    + constructor; [exact Sa|]. exact (Forall_impl _ St S').
Qed.

Lemma mem_same : forall b p i j, pure p = true -> same i j 0 -> Forall (same i j) (consts p) -> mem b p i = mem b p j.
Proof.
  intros b p i j P S0 S. unfold mem. rewrite (den_same p i j P S). f_equal.
  destruct b; cbn [in_base]; [reflexivity|]. apply same_iff in S0. lia.
Qed.

Lemma window_complete_l : forall bp p bq q, pure p = true -> pure q = true ->
  (implies_dec bp p bq q = true <-> forall i, mem bp p i = true -> mem bq q i = true).
Proof.
  intros bp p bq q Pp Pq. unfold implies_dec. rewrite forallb_forall. split.
  - intros H i Mi. unfold window in H.
    destruct (pts_repr (consts p ++ consts q) 0 i) as (j & Hj & S).
    specialize (H j Hj). inversion S as [|? ? S0 S']. apply Forall_app in S'. destruct S' as [Sp Sq].
    rewrite (mem_same bp p i j Pp S0 Sp) in Mi. rewrite (mem_same bq q i j Pq S0 Sq).
    rewrite Mi in H. exact H.
  - intros H i _. destruct (mem bp p i) eqn:M; [|reflexivity]. cbn. auto.
Qed.
