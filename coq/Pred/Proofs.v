(** C32 / C03 — basic lemmas: induction principle for [pred], equality (and what cannot tell equal predicates apart:
    [eqb_reading]), sets, [pand] as a meet ([hom_pand], [pand_closed]), and the denotation of the constructors (the C32
    laws). *)
From Coq Require Import ZArith List Bool Arith Lia Btauto.
From ErgV Require Import Common.Lists Pred.Model Pred.Spec.
Import ListNotations.
Open Scope Z_scope.

Section PredInd.
  Variable P : pred -> Prop.
  Hypothesis HVal : forall b, P (PVal b).
  Hypothesis HEq : forall c, P (PEq c).
  Hypothesis HNe : forall c, P (PNe c).
  Hypothesis HGe : forall c, P (PGe c).
  Hypothesis HLe : forall c, P (PLe c).
  Hypothesis HOr : forall l, Forall P l -> P (POr l).
  Hypothesis HAnd : forall l r, P l -> P r -> P (PAnd l r).
  Hypothesis HNot : forall p, P p -> P (PNot p).
  Hypothesis HOther : forall n, P (POther n).
  Hypothesis HGen : forall k a b, P (PGen k a b).
  Fixpoint pred_ind' (p : pred) : P p :=
    match p with
    | PVal b => HVal b | PEq c => HEq c | PNe c => HNe c | PGe c => HGe c | PLe c => HLe c
    | POr l => HOr l (Forall_all pred_ind' l)
    | PAnd l r => HAnd l r (pred_ind' l) (pred_ind' r)
    | PNot q => HNot q (pred_ind' q)
    | POther n => HOther n
    | PGen k a b => HGen k a b
    end.
End PredInd.

Lemma possible_tps_or : forall l, possible_tps (POr l) = flat_map possible_tps l.
Proof. reflexivity. Qed.
Lemma substitute_or : forall f l tp,
  substitute f (POr l) tp = POr (set_of_list (map (fun x => substitute f x tp) l)).
Proof. reflexivity. Qed.

Lemma cst_eqb_eq : forall a b, cst_eqb a b = true -> a = b.
Proof. intros [x|x|x] [y|y|y]; cbn; intros H; try discriminate; apply Z.eqb_eq in H; now subst. Qed.
Lemma cst_eqb_refl : forall a, cst_eqb a a = true.
Proof. intros [x|x|x]; cbn; apply Z.eqb_refl. Qed.
Lemma term_eqb_eq : forall a b, term_eqb a b = true -> a = b.
Proof.
  intros [|x|n] [|y|m]; cbn; intros H; try discriminate; auto.
  - apply Z.eqb_eq in H; now subst.
  - apply Nat.eqb_eq in H; now subst.
Qed.
Lemma term_eqb_refl : forall a, term_eqb a a = true.
Proof. intros [|x|n]; cbn; auto using Z.eqb_refl, Nat.eqb_refl. Qed.
Lemma gk_eqb_eq : forall a b, gk_eqb a b = true -> a = b.
Proof. intros [] []; cbn; intros; try discriminate; auto. Qed.
Lemma gk_eqb_refl : forall a, gk_eqb a a = true.
Proof. intros []; reflexivity. Qed.

Lemma pred_eqb_or : forall l1 l2,
  pred_eqb (POr l1) (POr l2) =
  Nat.eqb (length l1) (length l2) &&
  forallb (fun x => existsb (fun y => pred_eqb x y) l2) l1 &&
  forallb (fun y => existsb (fun x => pred_eqb x y) l1) l2.
Proof. reflexivity. Qed.

Lemma pred_eqb_or_members : forall l1 l2, pred_eqb (POr l1) (POr l2) = true ->
  (forall x, In x l1 -> exists y, In y l2 /\ pred_eqb x y = true) /\
  (forall y, In y l2 -> exists x, In x l1 /\ pred_eqb x y = true).
Proof.
  intros l1 l2 E. rewrite pred_eqb_or in E. apply andb_prop in E. destruct E as [E E2]. apply andb_prop in E.
  destruct E as [_ E1]. rewrite forallb_forall in E1, E2.
  split; [intros x Hx; apply existsb_exists, E1, Hx|intros y Hy; apply existsb_exists, E2, Hy].
Qed.

Lemma pred_eqb_refl : forall p, pred_eqb p p = true.
Proof.
  induction p as [b|c|c|c|c|l H|p1 p2 IH1 IH2|p IH|n|k a b] using pred_ind'; try (cbn; apply cst_eqb_refl).
  - cbn. apply eqb_reflx.
  - rewrite pred_eqb_or, Nat.eqb_refl. cbn [andb]. rewrite Forall_forall in H.
    apply andb_true_intro; split; apply forallb_forall; intros x Hx; apply existsb_exists; exists x; auto.
  - cbn. now rewrite IH1, IH2.
  - cbn. exact IH.
  - cbn. apply Nat.eqb_refl.
  - cbn. now rewrite gk_eqb_refl, !term_eqb_refl.
Qed.

(* Derived equality identifies two Or sets with the same members, in whatever order.  A reading of predicates
   that is determined on an Or by the readings of its members, and on And / Not by those of the operands,
   therefore cannot tell equal predicates apart. *)
Section EqbReading.
  Variable T : Type.
  Variable I : pred -> T.
  Hypothesis I_or : forall k m, (forall x, In x k -> exists y, In y m /\ I x = I y) ->
    (forall y, In y m -> exists x, In x k /\ I x = I y) -> I (POr k) = I (POr m).
  Hypothesis I_and : forall a b a' b', I a = I a' -> I b = I b' -> I (PAnd a b) = I (PAnd a' b').
  Hypothesis I_not : forall a a', I a = I a' -> I (PNot a) = I (PNot a').

  Lemma eqb_reading : forall p q, pred_eqb p q = true -> I p = I q.
  Proof.
    induction p as [b|c|c|c|c|l H|p1 p2 IH1 IH2|p IH|n|k a b] using pred_ind'; intros q E; destruct q; try discriminate E;
      try (cbn in E; apply cst_eqb_eq in E; now subst).
    - cbn in E. apply eqb_prop in E. now subst.
    - destruct (pred_eqb_or_members _ _ E) as [E1 E2]. rewrite Forall_forall in H. apply I_or.
      + intros x Hx. destruct (E1 x Hx) as (y & Hy & Exy). eauto.
      + intros y Hy. destruct (E2 y Hy) as (x & Hx & Exy). eauto.
    - cbn in E. apply andb_prop in E. destruct E as [E1 E2]. auto.
    - cbn in E. auto.
    - cbn in E. apply Nat.eqb_eq in E. now subst.
    - cbn in E. apply andb_prop in E. destruct E as [E E3]. apply andb_prop in E. destruct E as [E1 E2].
      apply gk_eqb_eq in E1. apply term_eqb_eq in E2. apply term_eqb_eq in E3. now subst.
  Qed.
End EqbReading.

Lemma mem_pred_true : forall x l, mem_pred x l = true <-> exists y, In y l /\ pred_eqb x y = true.
Proof. intros. unfold mem_pred. apply existsb_exists. Qed.

Lemma set_add_incl : forall x l y, In y (set_add x l) -> y = x \/ In y l.
Proof. exact (In_adjoin_inv mem_pred). Qed.
Lemma set_add_keeps : forall x l y, In y l -> In y (set_add x l).
Proof. exact (In_adjoin_keeps mem_pred). Qed.
Lemma set_add_has : forall x l, exists y, In y (set_add x l) /\ pred_eqb x y = true.
Proof.
  intros x l. unfold set_add. destruct (mem_pred x l) eqn:M.
  - apply mem_pred_true in M. exact M.
  - exists x. split; [apply in_or_app; cbn; auto|apply pred_eqb_refl].
Qed.

Lemma set_union_incl : forall r l y, In y (set_union l r) -> In y l \/ In y r.
Proof. exact (In_adjoin_all_inv mem_pred). Qed.
Lemma set_union_keeps : forall r l y, In y l -> In y (set_union l r).
Proof. exact (In_adjoin_all_keeps mem_pred). Qed.
Lemma set_union_has : forall r l x, In x l \/ In x r -> exists y, In y (set_union l r) /\ pred_eqb x y = true.
Proof.
  unfold set_union. induction r as [|a t IH]; intros l x H; cbn.
  - destruct H as [H|[]]. exists x. auto using pred_eqb_refl.
  - destruct H as [H|[H|H]].
    + apply IH. left. now apply set_add_keeps.
    + subst a. destruct (set_add_has x l) as (y & Hy & E). exists y. split; [|assumption].
      now apply (set_union_keeps t).
    + apply IH. now right.
Qed.
Lemma set_of_list_incl : forall l y, In y (set_of_list l) -> In y l.
Proof. intros l y H. apply set_union_incl in H. destruct H as [[]|H]. exact H. Qed.
Lemma set_of_list_has : forall l x, In x l -> exists y, In y (set_of_list l) /\ pred_eqb x y = true.
Proof. intros l x H. apply set_union_has. now right. Qed.
Lemma set_remove_incl : forall x l y, In y (set_remove x l) -> In y l.
Proof. intros x l y H. unfold set_remove in H. apply filter_In in H. tauto. Qed.
Lemma set_remove_other : forall x l y, In y l -> pred_eqb y x = false -> In y (set_remove x l).
Proof. intros x l y H E. unfold set_remove. apply filter_In. now rewrite E. Qed.

(* [pand] forms the conjunction and drops an operand that is already there.  Any reading of predicates in a
   semilattice that respects equality and reads And as the meet, True as its unit and False as its zero
   therefore reads [pand] as the meet: the denotation at an integer is one (Booleans), the three-valued folding
   of ProofsRefine.v another. *)
Section PandHom.
  Variable T : Type.
  Variable I : pred -> T.
  Variable meet : T -> T -> T.
  Hypothesis meet_comm : forall x y, meet x y = meet y x.
  Hypothesis meet_assoc : forall x y z, meet x (meet y z) = meet (meet x y) z.
  Hypothesis meet_idem : forall x, meet x x = x.
  Hypothesis I_eqb : forall p q, pred_eqb p q = true -> I p = I q.
  Hypothesis I_and : forall l r, I (PAnd l r) = meet (I l) (I r).
  Hypothesis I_true : forall x, meet (I (PVal true)) x = x.
  Hypothesis I_false : forall x, meet (I (PVal false)) x = I (PVal false).

  Lemma hom_same : forall x o, I (if pred_eqb x o then x else PAnd x o) = meet (I x) (I o).
  Proof.
    intros x o. destruct (pred_eqb x o) eqn:E; [|apply I_and]. now rewrite <- (I_eqb _ _ E), meet_idem.
  Qed.
  (* [pl], [pr]: what the calls on the operands return *)
  Lemma hom_and : forall l r o pl pr, I pr = meet (I r) (I o) -> I pl = meet (I l) (I o) ->
    I (if pred_eqb l o then pr else if pred_eqb r o then pl else PAnd (PAnd l r) o) = meet (I (PAnd l r)) (I o).
  Proof.
    intros l r o pl pr Hr Hl. rewrite I_and. destruct (pred_eqb l o) eqn:El.
    - rewrite Hr, (I_eqb _ _ El), (meet_comm (I o)), <- meet_assoc, meet_idem. reflexivity.
    - destruct (pred_eqb r o) eqn:Er.
      + rewrite Hl, (I_eqb _ _ Er), <- meet_assoc, meet_idem. reflexivity.
      + now rewrite !I_and.
  Qed.

  Lemma hom_and1 : forall x o, I (and1 x o) = meet (I x) (I o).
  Proof.
    induction x as [[]| | | | | | | | | ]; intros o; cbn [and1]; try apply hom_same.
    - symmetry. apply I_true.
    - symmetry. apply I_false.
    - now apply hom_and.
  Qed.

  Lemma hom_pand : forall a b, I (pand a b) = meet (I a) (I b).
  Proof.
    assert (R : forall a l r, I (if pred_eqb l a then and1 r a else if pred_eqb r a then and1 l a else PAnd (PAnd l r) a)
                              = meet (I a) (I (PAnd l r))).
    { intros a l r. rewrite meet_comm. apply hom_and; apply hom_and1. }
    assert (Tr : forall a, I a = meet (I a) (I (PVal true))). { intros a. now rewrite meet_comm, I_true. }
    assert (Fa : forall a, I (PVal false) = meet (I a) (I (PVal false))). { intros a. now rewrite meet_comm, I_false. }
    induction a as [[]| | | | | | | | | ]; intros q; destruct q as [[]| | | | | | | | | ]; cbn [pand];
      try apply hom_same; try apply R; try (now apply hom_and);
      try (symmetry; apply I_true); try (symmetry; apply I_false); try apply Tr; try apply Fa.
  Qed.
End PandHom.

Section PandClosed.
  Variable X : pred -> bool.
  Hypothesis X_and : forall l r, X (PAnd l r) = X l && X r.

  Lemma closed_same : forall x o, X x = true -> X o = true -> X (if pred_eqb x o then x else PAnd x o) = true.
  Proof. intros x o Hx Ho. destruct (pred_eqb x o); [assumption|]. now rewrite X_and, Hx, Ho. Qed.
  Lemma closed_and : forall l r o pl pr, X (PAnd l r) = true -> X o = true ->
    (X r = true -> X pr = true) -> (X l = true -> X pl = true) ->
    X (if pred_eqb l o then pr else if pred_eqb r o then pl else PAnd (PAnd l r) o) = true.
  Proof.
    intros l r o pl pr H Ho Hr Hl. pose proof H as H'. rewrite X_and in H'. apply andb_prop in H'. destruct H'.
    destruct (pred_eqb l o); [auto|]. destruct (pred_eqb r o); [auto|]. now rewrite X_and, H, Ho.
  Qed.

  Lemma and1_closed : forall x o, X x = true -> X o = true -> X (and1 x o) = true.
  Proof.
    induction x as [[]| | | | | | | | | ]; intros o Hx Ho; cbn [and1]; try (now apply closed_same); try assumption.
    apply closed_and; auto.
  Qed.
  Lemma pand_closed : forall a b, X a = true -> X b = true -> X (pand a b) = true.
  Proof.
    induction a as [[]| | | | | | | | | ]; intros q Ha Hq; destruct q as [[]| | | | | | | | | ]; cbn [pand];
      try (now apply closed_same); try assumption; try (apply closed_and; auto using and1_closed).
  Qed.
End PandClosed.

Section Den.
  Variable v : nat -> Z -> bool.
  Variable tv : nat -> Z -> Z.
  Notation D := (den v tv).

  Definition den_any (l : list pred) (i : Z) : bool := existsb (fun q => D q i) l.

  Lemma den_or : forall l i, D (POr l) i = den_any l i.
  Proof. intros l i. exact (fix_existsb (fun q => D q i) l). Qed.

  Lemma den_any_true : forall l i, den_any l i = true <-> exists x, In x l /\ D x i = true.
  Proof. intros. unfold den_any. apply existsb_exists. Qed.

  Lemma den_any_false : forall l i, den_any l i = false <-> forall x, In x l -> D x i = false.
  Proof.
    intros l i. unfold den_any. induction l as [|a t IH]; cbn [existsb In].
    - split; [intros _ x []|reflexivity].
    - rewrite orb_false_iff, IH. split; [intros [Ha Ht] x [<-|Hx]; auto|auto].
  Qed.

  Lemma pred_eqb_den : forall p q, pred_eqb p q = true -> forall i, D p i = D q i.
  Proof.
    intros p q E i. apply (eqb_reading bool (fun p => D p i)); [|intros; cbn [den]; congruence ..|exact E].
    intros k m Hk Hm. rewrite !den_or. apply eq_true_iff_eq. rewrite !den_any_true. split.
    - intros (x & Hx & Dx). destruct (Hk x Hx) as (y & Hy & Exy). exists y. split; congruence.
    - intros (y & Hy & Dy). destruct (Hm y Hy) as (x & Hx & Exy). exists x. split; congruence.
  Qed.

  Lemma den_any_set_add : forall x l i, den_any (set_add x l) i = D x i || den_any l i.
  Proof.
    intros x l i. unfold set_add. destruct (mem_pred x l) eqn:M.
    - apply mem_pred_true in M. destruct M as (y & Hy & E).
      destruct (D x i) eqn:Dx; [|reflexivity]. cbn. apply den_any_true. exists y. split; [assumption|].
      now rewrite <- (pred_eqb_den x y E i).
    - unfold den_any. rewrite existsb_app. cbn. rewrite orb_false_r. apply orb_comm.
  Qed.
  Lemma den_any_set_union : forall r l i, den_any (set_union l r) i = den_any l i || den_any r i.
  Proof.
    unfold set_union. induction r as [|x t IH]; intros l i; cbn [fold_left].
    - unfold den_any at 3. cbn. now rewrite orb_false_r.
    - rewrite IH, den_any_set_add. unfold den_any at 4. cbn [existsb]. fold (den_any t i).
      destruct (D x i), (den_any l i), (den_any t i); reflexivity.
  Qed.
  Lemma den_any_set_of_list : forall l i, den_any (set_of_list l) i = den_any l i.
  Proof. intros. unfold set_of_list. rewrite den_any_set_union. reflexivity. Qed.

  Lemma den_pand : forall a b i, D (pand a b) i = D a i && D b i.
  Proof.
    intros a b i. apply (hom_pand bool (fun p => D p i) andb andb_comm andb_assoc andb_diag); auto.
    intros p q E. now apply pred_eqb_den.
  Qed.

  Lemma den_por_same : forall a b i, D (if pred_eqb a b then a else POr [a; b]) i = D a i || D b i.
  Proof.
    intros a b i. destruct (pred_eqb a b) eqn:E.
    - now rewrite <- (pred_eqb_den _ _ E i), orb_diag.
    - cbn [den]. now rewrite orb_false_r.
  Qed.
  Lemma den_por : forall a b i, D (por a b) i = D a i || D b i.
  Proof.
    intros a q i. destruct a as [[]| | | | | | | | | ], q as [[]| | | | | | | | | ]; cbn [por];
      try apply den_por_same;
      rewrite ?den_or, ?den_any_set_union, ?den_any_set_add; auto using orb_true_r, orb_false_r, orb_comm.
    (* I == c or I >= c  =>  I >= c *)
    destruct (cst_eqb c c0) eqn:E; [|apply (den_por_same (PEq c) (PGe c0))].
    apply cst_eqb_eq in E. subst. cbn [den]. destruct (Z.eqb_spec i (cval c0)); [subst; now rewrite Z.leb_refl|reflexivity].
  Qed.

  Lemma den_pgt : forall c i, D (pgt c) i = (cval c <? i).
  Proof. intros. unfold pgt. rewrite den_pand. cbn [den]. lia. Qed.
  Lemma den_plt : forall c i, D (plt c) i = (i <? cval c).
  Proof. intros. unfold plt. rewrite den_pand. cbn [den]. lia. Qed.

  Lemma gk_eval_neg : forall x y,
    gk_eval GGe x y && gk_eval GNe x y = negb (gk_eval GLe x y) /\
    gk_eval GLe x y && gk_eval GNe x y = negb (gk_eval GGe x y).
  Proof. intros. cbn [gk_eval]. split; lia. Qed.

  (** invert is complement once the general comparisons are inverted strictly *)
  Lemma den_invert : forall f p i, fx_inv f = true -> D (invert f p) i = negb (D p i).
  Proof.
    intros f p i F. destruct p; cbn [invert]; rewrite ?F, ?den_pgt, ?den_plt; cbn [den]; try reflexivity; try lia.
    - now rewrite negb_involutive.
    - destruct k; rewrite ?den_pand; cbn [den gk_eval]; lia.
  Qed.
End Den.
