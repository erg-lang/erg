(** C03.  Model.v: [sub_refine f perm bp p bq q] is the transcription of
    Context::subtype_of({I: bp | p}, {I: bq | q}) for Int/Nat bases (cheap_supertype_of, the
    (Refinement, Refinement) arm of structural_supertype_of with the possible_tps shortcut, is_super_pred_of with
    reduce_preds and try_cmp, and the nominal path); [f] chooses the code before/after each repair ([current] =
    the tree as it is now), [perm] is the iteration order of the hash sets (any permutation).
    Spec.v: [mem b p i] = integer i belongs to {I: b | p}; [wf] = predicates as the front end builds them
    (machine-range constants, succ/pred only where the open-interval sugar puts them); [Known_C03] = the class of
    the one defect that is not repaired (known/C03.json). *)
From Coq Require Import ZArith List Bool Permutation.
From ErgV Require Import Pred.Model Pred.Spec Pred.Proofs Pred.ProofsSuper Pred.ProofsRefine Pred.ProofsJudge Pred.ProofsFuel Pred.ProofsPanic.
Import ListNotations.
Open Scope Z_scope.

(** Whenever the checker accepts {I: bp | p} where {I: bq | q} is required, every integer of the first type is
    an integer of the second — for all predicates of the integer fragment (any size, any constants in machine
    range, ==, !=, <=, >=, <, >, and, or, not, interval forms), both base types, every iteration order of the
    hash sets; outside the known class. *)
Theorem accept_sound : forall perm : list pred -> list pred, (forall l, Permutation (perm l) l) ->
  forall bp p bq q, wf p = true -> wf q = true ->
  Known_C03 perm bp p bq q = false ->
  sub_refine current perm bp p bq q = Ok true ->
  forall i, mem bp p i = true -> mem bq q i = true.
Proof. intros perm H. exact (accept_sound_v perm (perm_in_of_permutation perm H) v0 tv0). Qed.
Example accept_sound_nonvacuous :
  let p := interval IClosed 2 3 in let q := PAnd (PGe (CSucc 1)) (PLe (CV 10)) in
  wf p = true /\ wf q = true /\ Known_C03 idp BNat p BNat q = false /\ sub_refine current idp BNat p BNat q = Ok true.
Proof. vm_compute. repeat split. Qed.

(** consequence for `g(x: {I: bp | p}): {I: bq | q} = x`: if the definition is accepted, no argument of the
    declared parameter type makes g return an integer outside the declared return type *)
Corollary return_sound : forall perm : list pred -> list pred, (forall l, Permutation (perm l) l) ->
  forall bp p bq q, wf p = true -> wf q = true -> Known_C03 perm bp p bq q = false ->
  sub_refine current perm bp p bq q = Ok true ->
  ~ exists i, mem bp p i = true /\ mem bq q i = false.
Proof.
  intros perm H bp p bq q Wp Wq K A (i & M1 & M2).
  rewrite (accept_sound perm H bp p bq q Wp Wq K A i M1) in M2. discriminate.
Qed.

(** the same statement is false of the code as it was before each repair (witness = the replay) *)
(* compare.rs is_super_pred_of (And, And): g(x: {I: Int | I >= 5 and I >= 6}): {I: Int | I >= 0 and I <= 10} = x; g(100) *)
Theorem accept_sound_refuted :
  let p := PAnd (PGe (CV 5)) (PGe (CV 6)) in let q := PAnd (PGe (CV 0)) (PLe (CV 10)) in
  wf p = true /\ wf q = true /\ sub_refine before_and idp BInt p BInt q = Ok true /\
  mem BInt p 100 = true /\ mem BInt q 100 = false.
Proof. vm_compute. repeat split. Qed.
(* compare.rs (Refinement, Refinement): g(x: {I: Int | I <= 1}): {I: Nat | I <= 1} = x; g(-5) *)
Theorem nat_base_refuted :
  let p := PLe (CV 1) in let q := PLe (CV 1) in
  wf p = true /\ wf q = true /\ sub_refine before_nat idp BInt p BNat q = Ok true /\
  mem BInt p (-5) = true /\ mem BNat q (-5) = false.
Proof. vm_compute. repeat split. Qed.
(* const_func.rs pred_func: g(x: {0}): -3..<0 = x *)
Theorem pred_zero_refuted :
  let p := PEq (CV 0) in let q := interval IRightOpen (-3) 0 in
  wf p = true /\ wf q = true /\ sub_refine before_pred0 idp BInt p BInt q = Ok true /\
  mem BInt p 0 = true /\ mem BInt q 0 = false.
Proof. vm_compute. repeat split. Qed.
(* value.rs ValueObj::try_cmp through f64: g(x: {I: Int | I == 2^53}): {I: Int | I == 2^53 + 1} = x *)
Theorem big_const_refuted :
  let p := PEq (CV 9007199254740992) in let q := PEq (CV 9007199254740993) in
  wf p = true /\ wf q = true /\ sub_refine before_cmp idp BInt p BInt q = Ok true /\
  mem BInt p 9007199254740992 = true /\ mem BInt q 9007199254740992 = false.
Proof. vm_compute. repeat split. Qed.
(** and it is false inside the known class on the current tree: g(x: 1..3): {I: Int | ~(I >= 0 and I <= 5)} = x *)
Theorem known_class_refuted :
  let p := interval IClosed 1 3 in let q := PNot (PAnd (PGe (CV 0)) (PLe (CV 5))) in
  wf p = true /\ wf q = true /\ Known_C03 idp BNat p BInt q = true /\
  sub_refine current idp BNat p BInt q = Ok true /\
  mem BNat p 2 = true /\ mem BInt q 2 = false.
Proof. vm_compute. repeat split. Qed.

(** the model never runs out of fuel: the recursion of is_super_pred_of / reduce_preds terminates, for every
    configuration and order oracle *)
Theorem fuel_enough : forall f (perm : list pred -> list pred), (forall l x, In x (perm l) <-> In x l) ->
  forall bp p bq q, sub_refine f perm bp p bq q <> Fuel.
Proof. intros f perm H. apply sub_refine_fuel. intros l x. apply H. Qed.

(** and within the machine range of the constants ([wf]) it reaches no [Panic] outcome: the only arithmetic on
    the modelled path, succ / pred of an open-interval bound (u64 + 1, i32 - 1), cannot overflow *)
Theorem no_panic : forall f (perm : list pred -> list pred), (forall l x, In x (perm l) <-> In x l) ->
  forall bp p bq q, wf p = true -> wf q = true -> sub_refine f perm bp p bq q <> Panic.
Proof. intros f perm H. apply sub_refine_np. intros l x. apply H. Qed.

(** the oracles the correspondence check runs the model with are permutations *)
Theorem oracle_family_ok : forall k l, Permutation (perm_k k l) l.
Proof.
  intros [|[|k]] l; cbn [perm_k]; [apply Permutation_refl|apply Permutation_sym, Permutation_rev|apply rotl_perm].
Qed.

(** the judge: testing c-1, c, c+1 for every constant c (and for 0) decides the implication over all integers *)
Theorem window_complete : forall bp p bq q, pure p = true -> pure q = true ->
  (implies_dec bp p bq q = true <-> forall i, mem bp p i = true -> mem bq q i = true).
Proof. exact window_complete_l. Qed.
Theorem counterexample_sound : forall bp p bq q i, counterexample bp p bq q = Some i ->
  mem bp p i = true /\ mem bq q i = false.
Proof.
  intros bp p bq q i H. unfold counterexample in H. apply find_some in H. destruct H as [_ H].
  destruct (mem bp p i), (mem bq q i); cbn in H; try discriminate; auto.
Qed.
Example window_nonvacuous :
  implies_dec BInt (PAnd (PGe (CV 5)) (PGe (CV 6))) BInt (PAnd (PGe (CV 0)) (PLe (CV 10))) = false /\
  counterexample BInt (PAnd (PGe (CV 5)) (PGe (CV 6))) BInt (PAnd (PGe (CV 0)) (PLe (CV 10))) = Some 11 /\
  implies_dec BNat (interval IClosed 2 3) BNat (interval ILeftOpen 1 10) = true.
Proof. vm_compute. repeat split. Qed.

(** interval sugar a..b, a<..b, a..<b, a<..<b denotes the interval *)
Theorem interval_den : forall op a b i,
  deni (interval op a b) i =
  match op with
  | IClosed => (a <=? i) && (i <=? b)
  | ILeftOpen => (a <? i) && (i <=? b)
  | IRightOpen => (a <=? i) && (i <? b)
  | IOpen => (a <? i) && (i <? b)
  end.
Proof. exact (interval_den_l v0 tv0). Qed.
