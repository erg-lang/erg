(** List facts that several themes need and the standard library (8.16) does not state.
    The file declares no notation, scope, coercion, instance, hint or implicit-argument change, and requires only
    libraries that every theme loads already. *)
From Coq Require Import List Bool Arith ZArith.
Import ListNotations.

Lemma forallb_map {A B} (p : B -> bool) (g : A -> B) l : forallb p (map g l) = forallb (fun x => p (g x)) l.
Proof. induction l; simpl; congruence. Qed.

Lemma forallb_flat_map {A B} (p : B -> bool) (g : A -> list B) l :
  forallb p (flat_map g l) = forallb (fun x => forallb p (g x)) l.
Proof. induction l as [|a t IH]; simpl; [reflexivity|]. rewrite forallb_app, IH. reflexivity. Qed.

Lemma forallb_ext {A} (p q : A -> bool) l : (forall x, p x = q x) -> forallb p l = forallb q l.
Proof. intros H. induction l; simpl; [reflexivity|]. rewrite H, IHl. reflexivity. Qed.

Lemma forallb_andb {A} (p q : A -> bool) l : forallb (fun x => p x && q x) l = forallb p l && forallb q l.
Proof.
  induction l as [|a t IH]; simpl; [reflexivity|]. rewrite IH.
  destruct (p a), (q a), (forallb p t), (forallb q t); reflexivity.
Qed.

Lemma Forall_forallb_impl {A} (b : A -> bool) (P Q : A -> Prop) l :
  (forall x, b x = true -> P x -> Q x) -> forallb b l = true -> Forall P l -> Forall Q l.
Proof. rewrite forallb_forall, !Forall_forall. auto. Qed.

(** [Forall P l] from a proof for every element, computing by recursion on [l] with [f] outside the fixpoint: in the
    induction principle of a type nested in lists the guard checker sees through it to the calls on the elements. *)
Section Forall_all.
  Context {A : Type} {P : A -> Prop} (f : forall x, P x).
  Fixpoint Forall_all (l : list A) : Forall P l :=
    match l with [] => Forall_nil P | x :: r => Forall_cons x (f x) (Forall_all r) end.
End Forall_all.

Lemma forallb_impl {A} (p q : A -> bool) l :
  (forall x, p x = true -> q x = true) -> forallb p l = true -> forallb q l = true.
Proof. rewrite !forallb_forall. auto. Qed.

Lemma forallb_incl {A} (p : A -> bool) l m : incl m l -> forallb p l = true -> forallb p m = true.
Proof. rewrite !forallb_forall. auto. Qed.

Lemma forallb_false_ex {A} (p : A -> bool) l : forallb p l = false -> exists x, In x l /\ p x = false.
Proof.
  induction l as [|h t IH]; [discriminate|]. cbn [forallb]. destruct (p h) eqn:Hp.
  - intros H. destruct (IH H) as [x [Hx Hpx]]. exists x. split; [right|]; assumption.
  - exists h. split; [left; reflexivity | exact Hp].
Qed.

Lemma forallb_false_in {A} (p : A -> bool) l x : In x l -> p x = false -> forallb p l = false.
Proof.
  intros Hx Hpx. destruct (forallb p l) eqn:E; [|reflexivity].
  rewrite (proj1 (forallb_forall p l) E x Hx) in Hpx. discriminate.
Qed.

(** Models write their sweeps as nested [fix]es where a structural recursion needs them; these are the bodies of
    [forallb] and [existsb]. *)
Lemma fix_forallb {A} (f : A -> bool) l :
  (fix all (l : list A) : bool := match l with [] => true | x :: r => f x && all r end) l = forallb f l.
Proof. reflexivity. Qed.

Lemma fix_existsb {A} (f : A -> bool) l :
  (fix any (l : list A) : bool := match l with [] => false | x :: r => f x || any r end) l = existsb f l.
Proof. reflexivity. Qed.

Section Mem.
  Context {A : Type} (eqb : A -> A -> bool).
  Hypothesis eqb_eq : forall x y, eqb x y = true <-> x = y.

  Lemma existsb_eqb_In a l : existsb (eqb a) l = true <-> In a l.
  Proof.
    rewrite existsb_exists. split.
    - intros [y [Hin Heq]]. apply eqb_eq in Heq. subst y. exact Hin.
    - intros Hin. exists a. split; [exact Hin | apply eqb_eq; reflexivity].
  Qed.

  Lemma existsb_eqb_notIn a l : existsb (eqb a) l = false <-> ~ In a l.
  Proof. rewrite <- existsb_eqb_In. destruct (existsb (eqb a) l); split; congruence. Qed.
End Mem.

(** Lists used as sets: [adjoin] appends an element unless the membership test finds it. Models define it at
    their own element types with their own tests (which need not reflect equality); their definitions unfold to
    [adjoin mem]. *)
Section Adjoin.
  Context {A : Type} (mem : A -> list A -> bool).

  Definition adjoin (x : A) (l : list A) : list A := if mem x l then l else l ++ [x].
  Definition adjoin_all (l r : list A) : list A := fold_left (fun acc x => adjoin x acc) r l.

  Lemma In_adjoin_inv x l y : In y (adjoin x l) -> y = x \/ In y l.
  Proof.
    unfold adjoin. destruct (mem x l); [auto|]. rewrite in_app_iff. cbn [In]. intuition.
  Qed.

  Lemma In_adjoin_keeps x l y : In y l -> In y (adjoin x l).
  Proof. unfold adjoin. destruct (mem x l); [auto|]. rewrite in_app_iff. auto. Qed.

  Lemma In_adjoin_all_inv r : forall l y, In y (adjoin_all l r) -> In y l \/ In y r.
  Proof.
    unfold adjoin_all. induction r as [|h t IH]; intros l y H; cbn [fold_left] in H; [auto|].
    destruct (IH _ _ H) as [H1|H1]; [|cbn [In]; auto].
    destruct (In_adjoin_inv _ _ _ H1) as [->|]; cbn [In]; auto.
  Qed.

  Lemma In_adjoin_all_keeps r : forall l y, In y l -> In y (adjoin_all l r).
  Proof.
    unfold adjoin_all. induction r as [|h t IH]; intros l y H; cbn [fold_left]; [exact H|].
    apply IH, In_adjoin_keeps, H.
  Qed.

  Hypothesis mem_In : forall x l, mem x l = true <-> In x l.

  Lemma In_adjoin x l y : In y (adjoin x l) <-> y = x \/ In y l.
  Proof.
    split; [apply In_adjoin_inv|]. intros [->|H]; [|apply In_adjoin_keeps, H].
    unfold adjoin. destruct (mem x l) eqn:E; [apply mem_In, E|]. rewrite in_app_iff. cbn [In]. auto.
  Qed.

  Lemma In_adjoin_all r : forall l y, In y (adjoin_all l r) <-> In y l \/ In y r.
  Proof.
    unfold adjoin_all. induction r as [|h t IH]; intros l y; cbn [fold_left In]; [tauto|].
    rewrite IH, In_adjoin. intuition.
  Qed.
End Adjoin.

(** Equality of lists of integers (strings are lists of code points). Every model that needs it defines this
    function again, under the names [zs_eqb], [str_eqb], [list_eqb], ...; the copies are convertible with this one,
    so these lemmas apply to them as they stand. *)
Fixpoint zs_eqb (a b : list Z) : bool :=
  match a, b with
  | [], [] => true
  | x :: a', y :: b' => Z.eqb x y && zs_eqb a' b'
  | _, _ => false
  end.

Lemma zs_eqb_eq a : forall b, zs_eqb a b = true <-> a = b.
Proof.
  induction a as [|x a IH]; intros [|y b]; cbn [zs_eqb]; try (split; congruence).
  rewrite andb_true_iff, Z.eqb_eq, IH. split; [intros [-> ->]; reflexivity | intros [= -> ->]; auto].
Qed.

Lemma zs_eqb_refl a : zs_eqb a a = true.
Proof. apply zs_eqb_eq. reflexivity. Qed.

Lemma zs_eqb_neq a b : zs_eqb a b = false <-> a <> b.
Proof. rewrite <- zs_eqb_eq. destruct (zs_eqb a b); split; congruence. Qed.

Lemma zs_eqb_sym a b : zs_eqb a b = zs_eqb b a.
Proof.
  destruct (zs_eqb b a) eqn:E; [apply zs_eqb_eq; symmetry; apply zs_eqb_eq, E|].
  apply zs_eqb_neq. apply zs_eqb_neq in E. congruence.
Qed.

Lemma firstn_app_exact {A} (a b : list A) n : length a = n -> firstn n (a ++ b) = a.
Proof. intros <-. rewrite firstn_app, Nat.sub_diag, firstn_all. apply app_nil_r. Qed.

Lemma skipn_app_exact {A} (a b : list A) n : length a = n -> skipn n (a ++ b) = b.
Proof. intros <-. rewrite skipn_app, Nat.sub_diag, skipn_all. reflexivity. Qed.

Lemma firstn_add {A} (a b : nat) : forall l : list A, firstn a l ++ firstn b (skipn a l) = firstn (a + b) l.
Proof.
  induction a as [|a IH]; intros l; [reflexivity|].
  destruct l as [|x l]; cbn [Nat.add firstn skipn app]; [now rewrite firstn_nil | now rewrite IH].
Qed.

Lemma skipn_add {A} (a b : nat) : forall l : list A, skipn b (skipn a l) = skipn (a + b) l.
Proof.
  induction a as [|a IH]; intros l; [reflexivity|]. destruct l as [|x l]; [now rewrite skipn_nil | apply IH].
Qed.

Lemma skipn_S_tl {A} n : forall l : list A, skipn (S n) l = tl (skipn n l).
Proof. induction n as [|n IH]; intros [|x l]; try reflexivity. exact (IH l). Qed.

Lemma nth_error_app_plus {A} (l1 l2 : list A) j : nth_error (l1 ++ l2) (length l1 + j) = nth_error l2 j.
Proof. rewrite nth_error_app2 by apply Nat.le_add_r. f_equal. rewrite Nat.add_comm. apply Nat.add_sub. Qed.

Lemma NoDup_snoc {A} (l : list A) x : NoDup l -> ~ In x l -> NoDup (l ++ [x]).
Proof.
  intros H Hx. apply NoDup_rev in H. rewrite <- (rev_involutive (l ++ [x])), rev_unit. apply NoDup_rev.
  constructor; [rewrite <- in_rev|]; assumption.
Qed.

Lemma NoDup_map_inj {A B} (f : A -> B) l a b : NoDup (map f l) -> In a l -> In b l -> f a = f b -> a = b.
Proof.
  induction l as [|x l IH]; intros Hnd Ha Hb Hf; [destruct Ha|].
  cbn [map] in Hnd. inversion Hnd as [|? ? Hx Hnd']; subst.
  destruct Ha as [->|Ha]; destruct Hb as [->|Hb].
  - reflexivity.
  - exfalso. apply Hx. rewrite Hf. apply in_map. exact Hb.
  - exfalso. apply Hx. rewrite <- Hf. apply in_map. exact Ha.
  - apply IH; assumption.
Qed.

Lemma NoDup_fst_fun {A B} (l : list (A * B)) a x x' : NoDup (map fst l) -> In (a, x) l -> In (a, x') l -> x = x'.
Proof. intros H H1 H2. now injection (NoDup_map_inj fst l _ _ H H1 H2 eq_refl). Qed.

Lemma map_repeat {A B} (f : A -> B) x n : map f (repeat x n) = repeat (f x) n.
Proof. induction n; simpl; congruence. Qed.

Lemma rev_repeat {A} (x : A) n : rev (repeat x n) = repeat x n.
Proof.
  induction n as [|n IH]; [reflexivity|]. cbn [repeat rev]. rewrite IH.
  change [x] with (repeat x 1). rewrite <- repeat_app, Nat.add_comm. reflexivity.
Qed.

Lemma Forall2_length {A B} (R : A -> B -> Prop) l1 l2 : Forall2 R l1 l2 -> length l1 = length l2.
Proof. induction 1; simpl; congruence. Qed.

Lemma Forall2_diag {A} (P : A -> A -> Prop) l : Forall (fun x => P x x) l -> Forall2 P l l.
Proof. induction 1; constructor; assumption. Qed.
