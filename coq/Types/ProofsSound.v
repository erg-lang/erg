(** C06 — soundness of the subtype judgement for the set-theoretic reading, on the fragment [frag] *)
From Coq Require Import ZArith List Bool Lia.
From ErgV Require Import Common.Lists gen.Classes Types.Model Types.Spec Types.ProofsBasic Types.ProofsLaws Types.ProofsPred Types.ProofsReach Types.ProofsDen Types.ProofsInv.
Import ListNotations.
Open Scope Z_scope.

Lemma frag_or l : frag (TOr l) = forallb frag l.
Proof. exact (fix_forallb frag l). Qed.
Lemma frag_and l : frag (TAnd l) = forallb frag l.
Proof. exact (fix_forallb frag l). Qed.

Lemma frag_in_or l x : frag (TOr l) = true -> In x l -> frag x = true.
Proof. rewrite frag_or, forallb_forall. auto. Qed.
Lemma frag_in_and l x : frag (TAnd l) = true -> In x l -> frag x = true.
Proof. rewrite frag_and, forallb_forall. auto. Qed.

Lemma frag_ref_inv b p : frag (TRef b p) = true -> exists c, b = TMono c /\ In c value_classes /\ wf_ref c p = true.
Proof.
  destruct b; try discriminate. cbn [frag]. intros H. apply andb_prop in H. destruct H as [H Hw].
  apply andb_prop in H. destruct H as [Hc _]. exists c. split; [reflexivity|]. split; [|exact Hw].
  exact (zmem_In c _ Hc).
Qed.

Lemma frag_vc c : In c value_classes -> frag (TMono c) = true.
Proof. exact (vc_registered c). Qed.

(* what the judgement meets on the right: a type of the fragment or, out of a super-type list, a super type with
   arguments *)
Definition fragr (t : ty) : bool := match t with TPoly _ => true | _ => frag t end.

Lemma frag_fragr t : frag t = true -> fragr t = true.
Proof. destruct t; auto. Qed.

Lemma sups_fragr r s : In r classes -> In s (sups_of r) -> fragr (ty_of_sup s) = true.
Proof. exact (sups_forall (fun s => fragr (ty_of_sup s)) ltac:(vm_compute; reflexivity) r s). Qed.

Lemma den_sup_node t n r s v :
  node_of t = Some n -> lookup (fst n) = Some r -> In s (sups_of r) -> den t v = true -> den (ty_of_sup s) v = true.
Proof.
  intros Hn Hr Hs Hd. pose proof (sup_not_never r s (proj1 (lookup_in _ r Hr)) Hs) as Hnv.
  pose proof (sups_in_succs n r s Hr Hs) as Hsucc.
  assert (Hd' : den_nom t v = true) by (destruct t; try discriminate Hn; exact Hd).
  unfold ty_of_sup, ty_of_id. destruct s as [i p]. cbn [fst snd] in *. destruct p.
  - exact (den_nom_step t (TPoly i) n (i, true) v Hn eq_refl Hsucc Hd').
  - destruct (i =? id_Obj); [reflexivity|]. rewrite andb_true_r in Hnv. rewrite Hnv.
    exact (den_nom_step t (TMono i) n (i, false) v Hn eq_refl Hsucc Hd').
Qed.

Lemma or_row_obj r s : lookup id_Or = Some r -> In s (sups_of r) -> ty_of_sup s = TObj.
Proof.
  assert (H : forallb (fun s => match ty_of_sup s with TObj => true | _ => false end)
                      (match lookup id_Or with Some r => sups_of r | None => [] end) = true) by (vm_compute; reflexivity).
  intros Hr Hs. rewrite Hr, forallb_forall in H. specialize (H s Hs). destruct (ty_of_sup s); try discriminate H. reflexivity.
Qed.
Lemma obj_row_empty r : lookup id_Obj = Some r -> sups_of r = [].
Proof.
  assert (H : match lookup id_Obj with Some r => sups_of r | None => [] end = []) by (vm_compute; reflexivity).
  intros Hr. now rewrite Hr in H.
Qed.

Lemma sups_above S r s v :
  fragr S = true -> ctx_of S = Some r -> In s (sups_of r) -> den S v = true -> den (ty_of_sup s) v = true.
Proof.
  intros HS Hctx Hs Hd. destruct S as [| |c|h|b p|l|l|x|e len]; try discriminate HS; try discriminate Hd; cbn [ctx_of] in Hctx.
  - rewrite (obj_row_empty r Hctx) in Hs. contradiction.
  - exact (den_sup_node (TMono c) (c, false) r s v eq_refl Hctx Hs Hd).
  - exact (den_sup_node (TPoly h) (h, true) r s v eq_refl Hctx Hs Hd).
  - destruct (frag_ref_inv _ _ HS) as [c [-> _]]. cbn [den] in Hd. apply andb_prop in Hd.
    exact (den_sup_node (TMono c) (c, false) r s v eq_refl Hctx Hs (proj1 Hd)).
  - now rewrite (or_row_obj r s Hctx Hs).
  - discriminate Hctx.
Qed.

(* Type::eq, read from right to left: the fragment has no negation, so no type stands in a contravariant position *)
Lemma rpred_eqb_sub p q v : rpred_eqb p q = true -> den_pred q v = true -> den_pred p v = true.
Proof.
  destruct p, q; cbn [rpred_eqb]; try discriminate; auto.
  - intros H. apply bound_eqb_eq in H. now subst.
  - intros H. apply andb_prop in H. destruct H as [_ H]. rewrite forallb_forall in H. cbn [den_pred]. rewrite !existsb_exists.
    intros [k [Hk Hm]]. specialize (H k Hk). apply existsb_exists in H. destruct H as [k' [Hk' E]]. apply lit_eqb_eq in E. subst k'. eauto.
  - intros H. apply andb_prop in H. destruct H as [H1 H2]. apply bound_eqb_eq in H1. apply bound_eqb_eq in H2. now subst.
Qed.

Lemma none_ref_den b p v : frag (TRef b p) = true -> is_none_enum p = true -> den (TRef b p) v = den (TMono id_NoneType) v.
Proof.
  intros Hf Hn. destruct (frag_ref_inv _ _ Hf) as [c [-> [Hc Hw]]]. rewrite (none_enum_inv p Hn) in *.
  assert (c = id_NoneType) as -> by (symmetry; exact (wf_ref_enum_class c [LNone] LNone Hw (or_introl eq_refl))).
  cbn [den den_pred existsb]. change (den_nom (TMono id_NoneType) v) with (den (TMono id_NoneType) v).
  rewrite (den_vc _ v in_vc_None). destruct v; reflexivity.
Qed.

Lemma den_ref_intro b p v : den b v = true -> den_pred p v = true -> den (TRef b p) v = true.
Proof. intros H1 H2. cbn [den]. fold (den b v). now rewrite H1, H2. Qed.

Lemma den_ref_base b p v : den (TRef b p) v = true -> den b v = true.
Proof. cbn [den]. intros H. apply andb_prop in H. tauto. Qed.

Lemma ty_eqb_sub : forall a b, frag a = true -> fragr b = true -> ty_eqb a b = true -> forall v, den b v = true -> den a v = true.
Proof.
  induction a using ty_ind'; intros b Ha Hb He v; destruct b; try discriminate; auto.
  - cbn in He. apply Z.eqb_eq in He. now subst.
  - cbn [ty_eqb] in He. apply andb_prop in He. destruct He as [He1 He2]. apply Z.eqb_eq in He1. subst c.
    now rewrite (none_ref_den b p v Hb He2).
  - cbn [ty_eqb] in He. apply andb_prop in He. destruct He as [He1 He2]. apply Z.eqb_eq in He1. subst c.
    now rewrite (none_ref_den a p v Ha He2).
  - cbn [ty_eqb] in He. apply andb_prop in He. destruct He as [He1 He2].
    destruct (frag_ref_inv _ _ Ha) as [c [-> [Hc _]]]. destruct (frag_ref_inv _ _ Hb) as [c' [-> [Hc' _]]].
    intros Hd. cbn [den] in Hd. apply andb_prop in Hd.
    exact (den_ref_intro _ _ v (IHa (TMono c') (frag_vc c Hc) (frag_vc c' Hc') He1 v (proj1 Hd)) (rpred_eqb_sub p p0 v He2 (proj2 Hd))).
  - (* the member of b that holds v equals a member of a *)
    rewrite ty_eqb_or in He. apply andb_prop in He. destruct He as [_ H2]. rewrite forallb_forall in H2. rewrite Forall_forall in H.
    intros Hd. apply den_or_in in Hd. destruct Hd as [y [Hy Hd]]. specialize (H2 y Hy). apply existsb_exists in H2.
    destruct H2 as [x [Hx E]].
    exact (den_or_intro l x v Hx (H x Hx y (frag_in_or l x Ha Hx) (frag_fragr y (frag_in_or l0 y Hb Hy)) E v Hd)).
  - (* every member of a equals a member of b *)
    rewrite ty_eqb_and in He. apply andb_prop in He. destruct He as [H1 _]. rewrite forallb_forall in H1. rewrite Forall_forall in H.
    intros Hd. apply den_and_intro. intros x Hx. specialize (H1 x Hx). apply existsb_exists in H1. destruct H1 as [y [Hy E]].
    exact (H x Hx y (frag_in_and l x Ha Hx) (frag_fragr y (frag_in_and l0 y Hb Hy)) E v (den_and_in l0 y v Hd Hy)).
Qed.

Lemma cheap_sound T S v :
  frag T = true -> fragr S = true -> cheap T S = Some true -> den S v = true -> den T v = true.
Proof.
  intros HT HS Hc Hd.
  assert (Hmono : forall x y, T = TMono x -> S = TMono y -> den T v = true).
  { intros x y -> ->. exact (reach_den y x v (cheap_mono_reach x y Hc) Hd). }
  unfold cheap in Hc. destruct (ty_eqb T S) eqn:E.
  { exact (ty_eqb_sub T S HT HS E v Hd). }
  destruct T; try discriminate; try reflexivity;
    destruct S; try discriminate;
      try exact (Hmono _ _ eq_refl eq_refl);
      cbn [is_mvc in_cs is_c andb orb] in Hc; rewrite ?andb_false_r in Hc; cbn [andb orb] in Hc; try discriminate.
  all: destruct (existsb (Z.eqb c) mono_value_classes); discriminate.
Qed.

Lemma into_refinement_mono c :
  exists c' q, into_refinement (TMono c) = (TMono c', q) /\ pred_ok q /\
               (frag (TMono c) = true -> frag (TMono c') = true) /\
               forall v, den (TRef (TMono c') q) v = den (TMono c) v.
Proof.
  unfold into_refinement. destruct (c =? id_Nat) eqn:E1; [|destruct (c =? id_Bool) eqn:E2].
  - apply Z.eqb_eq in E1. subst c. exists id_Int, pred_nat. split; [reflexivity|].
    split; [cbn; unfold bound_numeric; cbn; congruence|]. split; [intros _; exact (frag_vc _ in_vc_Int)|exact den_nat_ref].
  - apply Z.eqb_eq in E2. subst c. exists id_Int, pred_bool. split; [reflexivity|].
    split; [cbn; unfold bound_numeric; cbn; split; congruence|]. split; [intros _; exact (frag_vc _ in_vc_Int)|exact den_bool_ref].
  - exists c, PTrue. split; [reflexivity|]. split; [exact I|]. split; [auto|]. intros v. cbn [den den_pred]. apply andb_true_r.
Qed.

Lemma wf_ref_pred_ok c p : wf_ref c p = true -> pred_ok p.
Proof.
  destruct p as [|b|ls|lo hi]; cbn; try discriminate; auto.
  destruct (int_bound lo) as [a|] eqn:Ha; [|discriminate]. destruct (int_bound hi) as [b|] eqn:Hb; [|discriminate].
  intros _. unfold bound_numeric. rewrite (int_bound_num lo a Ha), (int_bound_num hi b Hb). split; congruence.
Qed.

(* One unfolding of supertype_of is sound if its recursive calls are: [rec] is the judgement with less fuel. *)
Section Step.
  Variable rec : ty -> ty -> option bool.
  Variable v : value.
  Hypothesis IH : forall T S, frag T = true -> fragr S = true -> rec T S = Some true -> den S v = true -> den T v = true.

  Lemma ref_ref_sound c lp rb rp :
    frag (TMono c) = true -> fragr rb = true -> pred_ok lp ->
    ref_ref rec (TMono c) lp rb rp = Some true ->
    den (TRef rb rp) v = true -> den (TRef (TMono c) lp) v = true.
  Proof.
    intros Hc Hrb Hok H Hd. unfold ref_ref in H. cbn [den] in Hd. apply andb_prop in Hd. destruct Hd as [Hdb Hdp].
    destruct (rec (TMono c) rb) as [[|]|] eqn:E; try discriminate.
    - injection H as Hp. exact (den_ref_intro _ _ v (IH _ _ Hc Hrb E Hdb) (is_super_pred_sound lp rp v Hok Hp Hdp)).
    - (* the class is read as a refinement of Int, both predicates are tested *)
      destruct (into_refinement_mono c) as [c' [q [Eir [Hq [Hf Hir]]]]]. rewrite Eir in H.
      apply andM_true_inv in H. destruct H as [H1 H2]. injection H2 as Hp. apply andb_prop in Hp. destruct Hp as [Hp1 Hp2].
      apply den_ref_intro; [|exact (is_super_pred_sound lp rp v Hok Hp2 Hdp)].
      rewrite <- Hir. exact (den_ref_intro _ _ v (IH _ _ (Hf Hc) Hrb H1 Hdb) (is_super_pred_sound q rp v Hq Hp1 Hdp)).
  Qed.

  Lemma any_l_sound ls S :
    frag (TOr ls) = true -> fragr S = true -> anyM (fun o => rec o S) ls = Some true -> den S v = true -> den (TOr ls) v = true.
  Proof.
    intros Hf HS H Hd. apply anyM_true_inv in H. destruct H as [o [Ho Hr]].
    exact (den_or_intro ls o v Ho (IH o S (frag_in_or ls o Hf Ho) HS Hr Hd)).
  Qed.
  Lemma all_l_sound ls S :
    frag (TAnd ls) = true -> fragr S = true -> allM (fun a => rec a S) ls = Some true -> den S v = true -> den (TAnd ls) v = true.
  Proof.
    intros Hf HS H Hd. apply den_and_intro. intros a Ha.
    exact (IH a S (frag_in_and ls a Hf Ha) HS (allM_true_inv _ _ H a Ha) Hd).
  Qed.
  Lemma any_r_sound T rs :
    frag T = true -> frag (TAnd rs) = true -> anyM (fun a => rec T a) rs = Some true -> den (TAnd rs) v = true -> den T v = true.
  Proof.
    intros HT Hf H Hd. apply anyM_true_inv in H. destruct H as [a [Ha Hr]].
    exact (IH T a HT (frag_fragr a (frag_in_and rs a Hf Ha)) Hr (den_and_in rs a v Hd Ha)).
  Qed.
  Lemma all_r_sound T rs :
    frag T = true -> frag (TOr rs) = true -> allM (fun o => rec T o) rs = Some true -> den (TOr rs) v = true -> den T v = true.
  Proof.
    intros HT Hf H Hd. apply den_or_in in Hd. destruct Hd as [o [Ho Hd]].
    exact (IH T o HT (frag_fragr o (frag_in_or rs o Hf Ho)) (allM_true_inv _ _ H o Ho) Hd).
  Qed.

  (* the (l, Refinement(r)) arm for l that is not Nat / Bool / a refinement: l is above NoneType if r is {None}, above
     the class that r refines otherwise; [last] is the derefine step, which asks that again or is skipped *)
  Lemma l_ref_sound T rb rp last :
    frag T = true -> frag (TRef rb rp) = true -> (last = Some true -> rec T rb = Some true) ->
    (if is_none_enum rp then rec T (TMono id_NoneType)
     else orM (rec T rb) (fun _ => andM (negM (rec rb T)) (fun _ => last))) = Some true ->
    den (TRef rb rp) v = true -> den T v = true.
  Proof.
    intros HT Hf Hlast H Hd. destruct (frag_ref_inv _ _ Hf) as [c [-> [Hc _]]].
    destruct (is_none_enum rp) eqn:Hn.
    - rewrite (none_ref_den _ _ v Hf Hn) in Hd. exact (IH T (TMono id_NoneType) HT (frag_vc _ in_vc_None) H Hd).
    - assert (Hr : rec T (TMono c) = Some true).
      { apply orM_true_inv in H. destruct H as [H|[_ H]]; [exact H|]. apply andM_true_inv in H. exact (Hlast (proj2 H)). }
      exact (IH T (TMono c) HT (frag_vc c Hc) Hr (den_ref_base _ rp v Hd)).
  Qed.

  Lemma structural_sound T S :
    frag T = true -> fragr S = true -> structural rec T S = Some true -> den S v = true -> den T v = true.
  Proof.
    intros HT HS H Hd. unfold structural in H.
    apply orM_true_inv in H. destruct H as [H|[_ H]].
    { destruct S; try discriminate. exact (any_r_sound T _ HT HS H Hd). }
    apply orM_true_inv in H. destruct H as [H|[_ H]].
    { destruct T; try discriminate. exact (any_l_sound _ S HT HS H Hd). }
    destruct T as [| |c|h|lb lp|ls|ls|x|e len]; try discriminate; try reflexivity.
    - destruct S as [| |c0|h0|rb rp|rs|rs|x|e len]; try discriminate.
      + exact (l_ref_sound TNever rb rp _ HT HS (fun E => E) H Hd).
      + exact (all_r_sound TNever rs HT HS H Hd).
      + exact (any_r_sound TNever rs HT HS H Hd).
    - destruct S as [| |c0|h0|rb rp|rs|rs|x|e len]; try discriminate.
      + destruct (is_natbool (TMono c)) eqn:Hnb; [|exact (l_ref_sound (TMono c) rb rp _ HT HS (fun E => E) H Hd)].
        (* (Nat | Bool, Refinement) *)
        destruct (into_refinement_mono c) as [c' [q [Eir [Hq [Hf Hir]]]]]. rewrite Eir in H. rewrite <- Hir.
        destruct (frag_ref_inv _ _ HS) as [cr [-> [Hcr _]]].
        exact (ref_ref_sound c' q (TMono cr) rp (Hf HT) (frag_vc cr Hcr) Hq H Hd).
      + exact (all_r_sound (TMono c) rs HT HS H Hd).
      + exact (any_r_sound (TMono c) rs HT HS H Hd).
    - (* a refinement: its predicate can be false, so only refinements and unions of them are below *)
      destruct (frag_ref_inv _ _ HT) as [c [-> [Hc Hw]]]. pose proof (wf_ref_pred_ok c lp Hw) as Hok.
      assert (Hcf : pred_can_be_false lp = true) by (destruct lp; try reflexivity; discriminate Hw).
      destruct S as [| |c0|h0|rb rp|rs|rs|x|e len]; try discriminate; try (rewrite Hcf in H; discriminate).
      + (* (Refinement, Nat | Bool) *)
        destruct (is_natbool (TMono c0)) eqn:Hnb; [|rewrite Hcf in H; discriminate].
        destruct (into_refinement_mono c0) as [c' [q [Eir [_ [Hf Hir]]]]]. rewrite Eir in H. rewrite <- Hir in Hd.
        exact (ref_ref_sound c lp (TMono c') q (frag_vc c Hc) (Hf HS) Hok H Hd).
      + destruct (frag_ref_inv _ _ HS) as [cr [-> [Hcr _]]].
        exact (ref_ref_sound c lp (TMono cr) rp (frag_vc c Hc) (frag_vc cr Hcr) Hok H Hd).
      + exact (all_r_sound (TRef (TMono c) lp) rs HT HS H Hd).
    - (* a union: some member is above S; above a union if every member of that is below some member *)
      destruct S as [| |c0|h0|rb rp|rs|rs|x|e len]; try discriminate; try exact (any_l_sound ls _ HT HS H Hd).
      + apply (l_ref_sound (TOr ls) rb rp (Some false) HT HS); [discriminate|exact H|exact Hd].
      + apply den_or_in in Hd. destruct Hd as [o [Ho Hd]].
        exact (any_l_sound ls o HT (frag_fragr o (frag_in_or rs o HS Ho)) (allM_true_inv _ _ H o Ho) Hd).
    - (* an intersection: every member is above S *)
      destruct S as [| |c0|h0|rb rp|rs|rs|x|e len]; try discriminate; try exact (all_l_sound ls _ HT HS H Hd).
      + exact (all_r_sound (TAnd ls) rs HT HS H Hd).
      + (* And / And: each member is above a member of S or above S *)
        apply den_and_intro. intros k Hk. pose proof (frag_in_and ls k HT Hk) as Hfk.
        apply orM_true_inv in H. destruct H as [H|[_ H]].
        { apply anyM_true_inv in H. destruct H as [a [Ha Hall]].
          exact (IH k a Hfk (frag_fragr a (frag_in_and rs a HS Ha)) (allM_true_inv _ _ Hall k Hk) (den_and_in rs a v Hd Ha)). }
        apply orM_true_inv in H. destruct H as [H|[_ H]].
        { destruct (Nat.eqb (length ls) (length rs)) eqn:El; [|discriminate]. apply Nat.eqb_eq in El.
          apply anyM_true_inv in H. destruct H as [r [_ Hz]].
          destruct (zipallM_true_inv rec ls (rotl r rs) Hz ltac:(rewrite length_rotl; lia) k Hk) as [y [Hy Hky]].
          apply In_rotl in Hy.
          exact (IH k y Hfk (frag_fragr y (frag_in_and rs y HS Hy)) Hky (den_and_in rs y v Hd Hy)). }
        exact (IH k (TAnd rs) Hfk HS (allM_true_inv _ _ H k Hk) Hd).
  Qed.
End Step.

Lemma ctx_of_in r row : ctx_of r = Some row -> In row classes.
Proof.
  assert (L : forall c, lookup c = Some row -> In row classes) by (intros c H; exact (proj1 (lookup_in c row H))).
  destruct r as [| |c|h|b p|l|l|x|e len]; try destruct b; cbn [ctx_of]; intros H; first [exact (L _ H)|discriminate H].
Qed.

Lemma sup_sound : forall n T S, frag T = true -> fragr S = true -> sup n T S = Some true ->
  forall v, den S v = true -> den T v = true.
Proof.
  induction n as [|n IHn]; intros T S HT HS H v Hd; [discriminate|]. cbn [sup] in H.
  pose proof (fun T S HT HS H => IHn T S HT HS H v) as IH.
  destruct (cheap T S) as [b|] eqn:Hc.
  - injection H as ->. exact (cheap_sound T S v HT HS Hc Hd).
  - apply orM_true_inv in H. destruct H as [Hst|[_ Hno]]; [exact (structural_sound (sup n) v IH T S HT HS Hst Hd)|].
    destruct (nominal_inv _ _ _ Hno) as [row [s [Hctx [Hs Hcs]]]].
    pose proof (sups_fragr row s (ctx_of_in S row Hctx) Hs) as Hfr. pose proof (sups_above S row s v HS Hctx Hs Hd) as Hds.
    destruct Hcs as [Hcs|[_ Hcs]].
    + exact (cheap_sound T (ty_of_sup s) v HT Hfr Hcs Hds).
    + exact (structural_sound (sup n) v IH T (ty_of_sup s) HT Hfr Hcs Hds).
Qed.

Lemma sub_sound_l S T : frag S = true -> frag T = true -> sub S T = true -> forall v, den S v = true -> den T v = true.
Proof.
  intros HS HT H. apply (sup_sound (fuel_of T S) T S HT (frag_fragr S HS)).
  unfold sub, sub_res in H. now destruct (sup (fuel_of T S) T S) as [[|]|].
Qed.
