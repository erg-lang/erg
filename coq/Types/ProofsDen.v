(** C06 — facts about the denotation: the closure behind den_nom, the value classes, refinements of Nat and Bool *)
From Coq Require Import ZArith List Bool Arith Lia.
From ErgV Require Import Common.Lists gen.Classes Types.Model Types.Spec Types.ProofsPred Types.ProofsReach.
Import ListNotations.
Open Scope Z_scope.

(* The closure is a variable [g] until the last step: a projection applied to a pair of [ups] would leave the kernel
   the choice of normalising the closure first.  For the same reason the conjunctions below are built by hand: [auto]
   tries to unify with the closure unfolded. *)
Lemma existsb_map_pair {A B} (g : A -> B) (p : A -> bool) (q : B -> bool) l :
  existsb (fun ku => p (fst ku) && q (snd ku)) (map (fun k => (k, g k)) l) = true <->
  exists k, In k l /\ p k = true /\ q (g k) = true.
Proof.
  rewrite existsb_exists. split.
  - intros [ku [Hku H]]. apply in_map_iff in Hku. destruct Hku as [k [<- Hk]]. cbn [fst snd] in H.
    apply andb_prop in H. exists k. tauto.
  - intros [k [Hk [Hp Hq]]]. exists (k, g k). split; [apply in_map_iff; eauto|]. cbn [fst snd]. now rewrite Hp.
Qed.
Lemma den_nom_iff t v :
  den_nom t v = true <->
  exists n k, node_of t = Some n /\ In k value_classes /\ prim k v = true /\ In n (up_iter 12 [(k, false)]).
Proof.
  unfold den_nom, ups. destruct (node_of t) as [n|].
  - etransitivity;
      [exact (existsb_map_pair (fun k => up_iter 12 [(k, false)]) (fun k => prim k v) (node_mem n) value_classes)|].
    split.
    + intros [k [Hk [Hp Hn]]]. apply node_mem_In in Hn. exists n, k. exact (conj eq_refl (conj Hk (conj Hp Hn))).
    + intros [n' [k [[= <-] [Hk [Hp Hn]]]]]. apply node_mem_In in Hn. exists k. exact (conj Hk (conj Hp Hn)).
  - split; [discriminate|]. intros [n [k [Hn _]]]. discriminate Hn.
Qed.

Lemma den_nom_step s t n m v :
  node_of s = Some n -> node_of t = Some m -> In m (succs n) -> den_nom s v = true -> den_nom t v = true.
Proof.
  intros Hs Ht Hm. rewrite !den_nom_iff. intros [n' [k [Hn' [Hk [Hp Hin]]]]]. rewrite Hs in Hn'. injection Hn' as <-.
  exists m, k. split; [exact Ht|]. split; [exact Hk|]. split; [exact Hp|].
  exact (up_closed k (vc_registered k Hk) n Hin m Hm).
Qed.

Lemma den_mono_iff c v :
  den (TMono c) v = true <-> exists k, In k value_classes /\ prim k v = true /\ reach k c = true.
Proof.
  cbn [den]. rewrite den_nom_iff. split.
  - intros [n [k [[= <-] [Hk [Hp Hin]]]]]. apply reach_In in Hin. exists k. exact (conj Hk (conj Hp Hin)).
  - intros [k [Hk [Hp Hr]]]. apply reach_In in Hr. exists (c, false), k. exact (conj eq_refl (conj Hk (conj Hp Hr))).
Qed.

Lemma reach_den a c v : reach a c = true -> den (TMono a) v = true -> den (TMono c) v = true.
Proof.
  intros Hr. rewrite !den_mono_iff. intros [k [Hk [Hp Hka]]]. exists k. split; [exact Hk|]. split; [exact Hp|].
  exact (reach_trans k a c (vc_registered k Hk) Hka Hr).
Qed.

(* a list that holds the successors of its members holds whatever [up_iter] collects from inside it *)
Definition closedb (l : list node) : bool := forallb (fun n => forallb (fun m => node_mem m l) (succs n)) l.
Lemma closedb_closed l : closedb l = true -> closed l.
Proof.
  unfold closedb. rewrite forallb_forall. intros H n Hn m Hm. specialize (H n Hn). rewrite forallb_forall in H.
  apply node_mem_In, H, Hm.
Qed.

Lemma vc_below k c :
  In k value_classes -> In c value_classes -> reach k c = true -> k = c \/ In (k, c) cheap_edges.
Proof.
  (* a few rounds close the value classes upwards (checked by [closedb]: two suffice for the present table); the
     further rounds of [reach] add nothing, and evaluating all twelve is what is dear for the kernel *)
  assert (H : forallb (fun k => let cl := up_iter 5 [(k, false)] in
                node_mem (k, false) cl && closedb cl &&
                forallb (fun c => implb (node_mem (c, false) cl)
                                    ((k =? c) || existsb (fun e => (fst e =? k) && (snd e =? c)) cheap_edges))
                        value_classes) value_classes = true)
    by (vm_compute; reflexivity).
  intros Hk Hc Hr. rewrite forallb_forall in H. specialize (H k Hk). cbv beta zeta in H.
  apply andb_prop in H as [H H2]. apply andb_prop in H as [H0 H1].
  rewrite forallb_forall in H2. specialize (H2 c Hc).
  apply reach_In, (up_iter_incl 12 _ _ (closedb_closed _ H1)), node_mem_In in Hr;
    [|intros x [<-|[]]; apply node_mem_In, H0].
  rewrite Hr in H2. cbn [implb] in H2. apply orb_prop in H2. destruct H2 as [H|H].
  - left. now apply Z.eqb_eq.
  - right. apply existsb_exists in H. destruct H as [[lo hi] [He H]]. cbn [fst snd] in H.
    apply andb_prop in H. destruct H as [H3 H4]. apply Z.eqb_eq in H3, H4. now subst.
Qed.
Lemma prim_edge lo hi v : In (lo, hi) cheap_edges -> prim lo v = true -> prim hi v = true.
Proof.
  intros H. cbv beta iota delta [cheap_edges pairs tower map app In] in H.
  repeat (destruct H as [[= <- <-]|H]; [destruct v as [[]|z| | | |]; try discriminate; try reflexivity|]);
    [|contradiction].
  change (((z =? 0) || (z =? 1)) = true -> (0 <=? z) = true). intros H. apply orb_prop in H.
  rewrite !Z.eqb_eq in H. apply Z.leb_le. lia.
Qed.

Lemma den_vc c v : In c value_classes -> den (TMono c) v = prim c v.
Proof.
  intros Hc. apply eq_true_iff_eq. rewrite den_mono_iff. split.
  - intros [k [Hk [Hp Hr]]]. destruct (vc_below k c Hk Hc Hr) as [<-|He]; [exact Hp|exact (prim_edge k c v He Hp)].
  - intros Hp. exists c. auto using reach_refl.
Qed.

Lemma den_or l v : den (TOr l) v = existsb (fun x => den x v) l.
Proof. exact (fix_existsb (fun x => den x v) l). Qed.
Lemma den_and l v : den (TAnd l) v = forallb (fun x => den x v) l.
Proof. exact (fix_forallb (fun x => den x v) l). Qed.

Lemma den_or_in l v : den (TOr l) v = true -> exists x, In x l /\ den x v = true.
Proof. rewrite den_or. apply existsb_exists. Qed.
Lemma den_or_intro l x v : In x l -> den x v = true -> den (TOr l) v = true.
Proof. intros Hx Hd. rewrite den_or. apply existsb_exists. eauto. Qed.
Lemma den_and_in l x v : den (TAnd l) v = true -> In x l -> den x v = true.
Proof. rewrite den_and, forallb_forall. auto. Qed.
Lemma den_and_intro l v : (forall x, In x l -> den x v = true) -> den (TAnd l) v = true.
Proof. rewrite den_and, forallb_forall. auto. Qed.

Lemma zmem_In c l : existsb (Z.eqb c) l = true -> In c l.
Proof. apply (existsb_eqb_In Z.eqb Z.eqb_eq). Qed.

Lemma in_vc_Int : In id_Int value_classes. Proof. cbn. auto. Qed.
Lemma in_vc_Nat : In id_Nat value_classes. Proof. cbn. auto. Qed.
Lemma in_vc_Bool : In id_Bool value_classes. Proof. cbn. auto. Qed.
Lemma in_vc_None : In id_NoneType value_classes. Proof. cbn. auto 10. Qed.
Lemma lit_class_vc l : In (lit_class l) value_classes.
Proof. destruct l; cbn; try destruct (0 <=? z); cbn; auto 10. Qed.

Lemma int_bound_num b a : int_bound b = Some a -> bound_num b = Some (10 * a).
Proof. destruct b as [[]|z|z]; cbn; try discriminate; intros H; now inversion H. Qed.

Lemma lit_matches_prim l v : (forall q, v <> VFloat q) -> lit_matches l v = true -> prim (lit_class l) v = true.
Proof.
  intros Hv Hm.
  destruct l as [n|s|b| |q], v as [b'|z|q'|s'| |vs]; try (exfalso; exact (Hv q' eq_refl));
    unfold lit_matches, lit_num, val_num in Hm; try discriminate Hm; try reflexivity.
  - apply Z.eqb_eq in Hm. destruct b'; [assert (n = 1) by lia|assert (n = 0) by lia]; subst n; reflexivity.
  - apply Z.eqb_eq in Hm. assert (n = z) by lia. subst z. cbn [lit_class]. destruct (0 <=? n) eqn:E; [exact E|reflexivity].
  - destruct b'; reflexivity.
  - apply Z.eqb_eq in Hm. destruct b; [assert (z = 1) by lia|assert (z = 0) by lia]; subst z; reflexivity.
Qed.

Lemma wf_ref_den c p v :
  In c value_classes -> wf_ref c p = true -> (forall q, v <> VFloat q) -> den_pred p v = true -> den (TMono c) v = true.
Proof.
  intros Hc Hwf Hv Hp. rewrite (den_vc c v Hc). destruct p as [|b|ls|lo hi]; try discriminate Hwf.
  - cbn [den_pred] in Hp. apply existsb_exists in Hp. destruct Hp as [l [Hl Hm]].
    rewrite <- (wf_ref_enum_class c ls l Hwf Hl). exact (lit_matches_prim l v Hv Hm).
  - (* the value is a number, hence an integer; the class is Int, or Nat with a lower bound >= 0 *)
    unfold wf_ref in Hwf. destruct (int_bound lo) as [a|] eqn:Ha; [|discriminate]. destruct (int_bound hi) as [b|] eqn:Hb; [|discriminate].
    cbn [den_pred] in Hp. rewrite (int_bound_num lo a Ha), (int_bound_num hi b Hb) in Hp.
    apply andb_prop in Hwf. destruct Hwf as [_ Hwf]. apply orb_prop in Hwf. destruct Hwf as [Hw|Hw].
    + apply Z.eqb_eq in Hw. subst c.
      destruct v as [b'|z|q|s| |vs]; try discriminate Hp; try reflexivity. exfalso. exact (Hv q eq_refl).
    + apply andb_prop in Hw. destruct Hw as [Hw Ha0]. apply Z.eqb_eq in Hw. subst c. apply Z.leb_le in Ha0.
      destruct v as [[|]|z|q|s| |vs]; try discriminate Hp; try reflexivity; [|exfalso; exact (Hv q eq_refl)].
      cbn [val_num] in Hp. apply andb_prop in Hp. destruct Hp as [Hp _]. apply Z.leb_le in Hp.
      change ((0 <=? z) = true). apply Z.leb_le. lia.
Qed.

Lemma bool_ref_ok p v :
  wf_ref id_Bool p = true -> den (TMono id_Int) v = true -> den_pred p v = true -> den (TMono id_Bool) v = true.
Proof.
  intros Hwf Hi. apply (wf_ref_den id_Bool p v in_vc_Bool Hwf). intros q ->.
  rewrite (den_vc _ _ in_vc_Int) in Hi. discriminate Hi.
Qed.

Lemma den_nat_ref v : den (TRef (TMono id_Int) pred_nat) v = den (TMono id_Nat) v.
Proof.
  change (den (TMono id_Int) v && den_pred pred_nat v = den (TMono id_Nat) v).
  rewrite (den_vc _ v in_vc_Int), (den_vc _ v in_vc_Nat).
  destruct v as [b|z|q|s| |l]; try reflexivity; [destruct b; reflexivity|].
  change (true && (10 * 0 <=? 10 * z) = (0 <=? z)). cbn [andb]. apply eq_true_iff_eq. rewrite !Z.leb_le. lia.
Qed.
Lemma den_bool_ref v : den (TRef (TMono id_Int) pred_bool) v = den (TMono id_Bool) v.
Proof.
  change (den (TMono id_Int) v && den_pred pred_bool v = den (TMono id_Bool) v).
  rewrite (den_vc _ v in_vc_Int), (den_vc _ v in_vc_Bool).
  destruct v as [b|z|q|s| |l]; try reflexivity; [destruct b; reflexivity|].
  change (true && ((0 <=? 10 * z) && (10 * z <=? 10)) = (z =? 0) || (z =? 1)). cbn [andb]. apply eq_true_iff_eq.
  rewrite andb_true_iff, orb_true_iff, !Z.leb_le, !Z.eqb_eq. lia.
Qed.
