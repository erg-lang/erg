(** C33 — an accepted match covers the scrutinee type; the run-time arm test decides the pattern type *)
From Coq Require Import ZArith List Bool Arith Lia.
From ErgV Require Import Common.Lists gen.Classes Types.Model Types.Spec Types.Match Types.ProofsBasic Types.ProofsLaws Types.ProofsPred
  Types.ProofsDen Types.ProofsInv Types.ProofsSound.
Import ListNotations.
Open Scope Z_scope.

Lemma in_set_add x y l : In x (set_add y l) -> In x l \/ x = y.
Proof. intros H. apply or_comm. exact (In_adjoin_inv mem_ty _ _ _ H). Qed.
Lemma in_fold_set_add r l x : In x (fold_left (fun acc y => set_add y acc) r l) -> In x l \/ In x r.
Proof. exact (In_adjoin_all_inv mem_ty r l x). Qed.

Lemma den_set_add x l v : den (TOr (set_add x l)) v = true -> den (TOr l) v = true \/ den x v = true.
Proof.
  intros H. apply den_or_in in H. destruct H as [y [Hy Hd]]. apply in_set_add in Hy. destruct Hy as [Hy| ->]; [left|now right].
  exact (den_or_intro l y v Hy Hd).
Qed.
Lemma den_fold_set_add r l v :
  den (TOr (fold_left (fun acc y => set_add y acc) r l)) v = true -> den (TOr l) v = true \/ den (TOr r) v = true.
Proof.
  intros H. apply den_or_in in H. destruct H as [y [Hy Hd]]. apply in_fold_set_add in Hy.
  destruct Hy as [Hy|Hy]; [left|right]; exact (den_or_intro _ y v Hy Hd).
Qed.

(* Type::bitor answers one of its arguments, Obj when one of them is Obj, or a union of members of the two *)
Lemma den_or_ty a b v : den (or_ty a b) v = true -> den a v = true \/ den b v = true.
Proof.
  destruct a, b; cbn [or_ty]; intros H;
    first [ now left | now right
          | apply den_fold_set_add in H; exact H
          | apply den_set_add in H; tauto
          | destruct (ty_eqb _ _); [now left|]; cbn [den] in H; apply orb_prop in H; rewrite orb_false_r in H; exact H ].
Qed.

Lemma simple_union_den a b v : den (simple_union a b) v = true -> den a v = true \/ den b v = true.
Proof. unfold simple_union. destruct (sub b a); [auto|]. destruct (sub a b); [auto|]. apply den_or_ty. Qed.

Lemma union_add_den l e v : den (union_add l e) v = true -> den (TOr l) v = true \/ den e v = true.
Proof. unfold union_add. destruct (existsb _ l); [auto|]. apply den_or_ty. Qed.

Lemma union_pred_den p q r v : union_pred p q = Some r -> den_pred r v = true -> den_pred p v = true \/ den_pred q v = true.
Proof.
  unfold union_pred. destruct (is_super_pred p q); [intros H; injection H as <-; auto|].
  destruct (is_super_pred q p); [intros H; injection H as <-; auto|].
  destruct p, q; try discriminate. intros H. injection H as <-. cbn [den_pred]. rewrite existsb_app. intros H.
  apply orb_prop in H. destruct H as [H|H]; [auto|]. right. apply existsb_exists in H. destruct H as [x [Hx Hm]].
  apply filter_In in Hx. apply existsb_exists. exists x. tauto.
Qed.

Lemma union_ty_den a b u v : union_ty a b = Some u -> den u v = true -> den a v = true \/ den b v = true.
Proof.
  unfold union_ty. destruct (ty_eqb a b); [intros H; injection H as <-; auto|].
  destruct a, b; intros H Hd;
    repeat match type of H with
           | Some _ = Some _ => injection H as <-
           | None = Some _ => discriminate H
           | (if ?c then _ else _) = Some _ => destruct c eqn:?
           | match ?x with _ => _ end = Some _ => destruct x eqn:?
           end;
    try (now auto);
    try (apply simple_union_den in Hd; tauto);
    try (apply union_add_den in Hd; tauto).
  (* refinement / refinement on the same class *)
  cbn [den] in Hd |- *. apply andb_prop in Hd. destruct Hd as [Hb Hp].
  match goal with E : union_pred _ _ = Some _ |- _ => destruct (union_pred_den _ _ _ v E Hp) as [Hq|Hq] end.
  - left. now rewrite Hb, Hq.
  - right.
    match goal with E : ty_eqb ?x ?y && is_plain ?x && is_plain ?y = true |- _ =>
      apply andb_prop in E; destruct E as [E P2]; apply andb_prop in E; destruct E as [E P1];
      assert (Heq : x = y) by (destruct x; try discriminate P1; destruct y; cbn in E; try discriminate P2; try discriminate E;
                               auto; apply Z.eqb_eq in E; now subst);
      rewrite <- Heq
    end.
    now rewrite Hb, Hq.
Qed.

Lemma union_arms_from_den acc arms u v :
  union_arms_from acc arms = Some u -> den u v = true ->
  den acc v = true \/ exists a, In a arms /\ den (arm_ty a) v = true.
Proof.
  revert acc. induction arms as [|a r IH]; intros acc H Hd; cbn in H.
  - injection H as <-. auto.
  - destruct (union_ty acc (arm_ty a)) as [w|] eqn:E; [|discriminate].
    destruct (IH w H Hd) as [Hw|[a' [Ha' Hd']]].
    + destruct (union_ty_den _ _ _ v E Hw) as [Hacc|Harm]; [auto|]. right. exists a. cbn. auto.
    + right. exists a'. cbn. auto.
Qed.

Lemma union_arms_den arms u v :
  union_arms arms = Some u -> den u v = true -> exists a, In a arms /\ den (arm_ty a) v = true.
Proof. intros Hu Hd. destruct (union_arms_from_den TNever arms u v Hu Hd) as [H|H]; [discriminate H|exact H]. Qed.

(* the Int / Str / Bool fragment of C33 *)
Definition c33_classes : list Z := [id_Bool; id_Nat; id_Int; id_Str; id_NoneType].
Fixpoint c33_ty (t : ty) : bool :=
  match t with
  | TObj => true
  | TMono c => existsb (Z.eqb c) c33_classes
  | TRef (TMono c) p => existsb (Z.eqb c) c33_classes && wf_ref c p
  | TOr l => (fix all (l : list ty) : bool := match l with [] => true | x :: r => c33_ty x && all r end) l
  | _ => false
  end.
Definition c33_val (v : value) : bool := match v with VFloat _ | VList _ => false | _ => true end.
Definition c33_lit (l : lit) : bool := match l with LFloat _ => false | l => lit_ok l end.

(* the known class: a type that mentions Bool, at the integers 0 and 1 *)
Definition bool_int (t : ty) (v : value) : bool :=
  match v with VInt z => ((z =? 0) || (z =? 1)) && mentions_bool t | _ => false end.

Lemma c33_or l : c33_ty (TOr l) = forallb c33_ty l.
Proof. exact (fix_forallb c33_ty l). Qed.
Lemma rt_in_or l v : rt_in (TOr l) v = existsb (fun x => rt_in x v) l.
Proof. exact (fix_existsb (fun x => rt_in x v) l). Qed.
Lemma mentions_bool_or l : mentions_bool (TOr l) = existsb mentions_bool l.
Proof. exact (fix_existsb mentions_bool l). Qed.

Lemma in_c33_vc c : In c c33_classes -> In c value_classes.
Proof. cbn. intuition. Qed.

Lemma c33_val_nofloat v : c33_val v = true -> forall q, v <> VFloat q.
Proof. intros Hv q ->. discriminate Hv. Qed.

Lemma rt_class_prim c v : In c c33_classes -> c33_val v = true -> bool_int (TMono c) v = false -> rt_class c v = prim c v.
Proof.
  intros Hc Hv Hk. cbn in Hc.
  repeat (destruct Hc as [<-|Hc]; [destruct v as [b|z|q|s| |l]; try discriminate Hv; try reflexivity; try (destruct b; reflexivity)|]);
    try contradiction.
  (* Bool at an integer *)
  unfold bool_int in Hk. change (mentions_bool (TMono id_Bool)) with true in Hk. rewrite andb_true_r in Hk.
  change (rt_class id_Bool (VInt z)) with false. change (prim id_Bool (VInt z)) with ((z =? 0) || (z =? 1)). now rewrite Hk.
Qed.

(* `v in set` and `lo <= v <= hi` do not test the class: a value that passes is a value of the class *)
Lemma ref_rt_den c p v :
  In c c33_classes -> wf_ref c p = true -> c33_val v = true -> den_pred p v = den (TRef (TMono c) p) v.
Proof.
  intros Hc Hw Hv. cbn [den]. destruct (den_pred p v) eqn:E; [|now rewrite andb_false_r].
  rewrite andb_true_r. symmetry. exact (wf_ref_den c p v (in_c33_vc c Hc) Hw (c33_val_nofloat v Hv) E).
Qed.

Lemma rt_in_den : forall t v, c33_ty t = true -> c33_val v = true -> bool_int t v = false -> rt_in t v = den t v.
Proof.
  induction t using ty_ind'; intros v Ht Hv Hk; try discriminate Ht.
  - reflexivity.
  - cbn [c33_ty] in Ht. apply zmem_In in Ht.
    cbn [rt_in]. rewrite (den_vc _ v (in_c33_vc c Ht)). now apply rt_class_prim.
  - destruct t; try discriminate Ht. cbn [c33_ty] in Ht. apply andb_prop in Ht. destruct Ht as [Hk1 Hw].
    apply zmem_In in Hk1. destruct p as [| |ls|lo hi]; try discriminate Hw.
    + exact (ref_rt_den c (PEnum ls) v Hk1 Hw Hv).
    + exact (ref_rt_den c (PIval lo hi) v Hk1 Hw Hv).
  - rewrite c33_or in Ht. rewrite forallb_forall in Ht. rewrite Forall_forall in H. rewrite rt_in_or, den_or.
    assert (Hk' : forall x, In x l -> bool_int x v = false).
    { intros x Hx. unfold bool_int in *. destruct v; auto. rewrite mentions_bool_or in Hk.
      destruct ((z =? 0) || (z =? 1)); [|reflexivity]. cbn [andb] in *.
      destruct (mentions_bool x) eqn:E; [|reflexivity]. assert (existsb mentions_bool l = true) by (apply existsb_exists; eauto).
      congruence. }
    clear Hk. induction l as [|x r IHr]; [reflexivity|]. cbn [existsb].
    rewrite (H x (or_introl eq_refl) v (Ht x (or_introl eq_refl)) Hv (Hk' x (or_introl eq_refl))). f_equal.
    apply IHr; intros; [apply H|apply Ht|apply Hk']; cbn; auto.
Qed.

Definition c33_arm (a : arm) : bool :=
  match a with ALit l => c33_lit l | ATy t => c33_ty t | AWild => true end.
Definition arm_bool_int (a : arm) (v : value) : bool := match a with ATy t => bool_int t v | _ => false end.

(* a literal pattern `l -> ...` tests `%p == l` *)
Lemma rt_lit_den l v : c33_val v = true -> lit_matches l v = den (enum_ty [l]) v.
Proof.
  intros Hv. unfold enum_ty. rewrite lit_class_mono. cbn [den den_pred existsb]. rewrite orb_false_r.
  destruct (lit_matches l v) eqn:E; [|now rewrite andb_false_r]. rewrite andb_true_r. symmetry.
  change (den_nom (TMono (lit_class l)) v) with (den (TMono (lit_class l)) v). rewrite (den_vc _ v (lit_class_vc l)).
  exact (lit_matches_prim l v (c33_val_nofloat v Hv) E).
Qed.
