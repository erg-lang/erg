(** C06 — when the option-bool combinators of the model, and [scan] and [nominal] over them, answer true: introduction and
    inversion *)
From Coq Require Import ZArith List Bool Arith Lia.
From ErgV Require Import gen.Classes Types.Model Types.ProofsBasic Types.ProofsReach.
Import ListNotations.
Open Scope Z_scope.

Lemma orM_true_inv a b : orM a b = Some true -> a = Some true \/ (a = Some false /\ b tt = Some true).
Proof. destruct a as [[|]|]; cbn; auto; discriminate. Qed.
Lemma andM_true_inv a b : andM a b = Some true -> a = Some true /\ b tt = Some true.
Proof. destruct a as [[|]|]; cbn; auto; discriminate. Qed.
Lemma negM_true_inv a : negM a = Some true -> a = Some false.
Proof. destruct a as [[|]|]; cbn; auto; discriminate. Qed.
Lemma anyM_true_inv {A} (g : A -> option bool) l : anyM g l = Some true -> exists x, In x l /\ g x = Some true.
Proof.
  induction l as [|x t IH]; cbn; [discriminate|]. intros H. apply orM_true_inv in H. destruct H as [H|[_ H]].
  - exists x. auto.
  - destruct (IH H) as [y [Hy Hg]]. exists y. auto.
Qed.
Lemma allM_true_inv {A} (g : A -> option bool) l : allM g l = Some true -> forall x, In x l -> g x = Some true.
Proof.
  induction l as [|x t IH]; cbn; [tauto|]. intros H. apply andM_true_inv in H. destruct H as [H1 H2].
  intros y [<-|Hy]; auto.
Qed.
Lemma zipallM_true_inv {A} (g : A -> A -> option bool) l r :
  zipallM g l r = Some true -> (length l <= length r)%nat -> forall x, In x l -> exists y, In y r /\ g x y = Some true.
Proof.
  revert r. induction l as [|x t IH]; intros r H Hlen y Hy; [contradiction|].
  destruct r as [|z r]; [cbn in Hlen; lia|]. cbn in H. apply andM_true_inv in H. destruct H as [H1 H2].
  destruct Hy as [<-|Hy].
  - exists z. cbn. auto.
  - destruct (IH r H2 ltac:(cbn in Hlen; lia) y Hy) as [w [Hw Hg]]. exists w. cbn. auto.
Qed.
Lemma length_rotl {A} k (l : list A) : length (rotl k l) = length l.
Proof.
  revert l. induction k as [|k IH]; intros l; [destruct l; reflexivity|]. destruct l as [|x t]; [reflexivity|].
  cbn [rotl]. rewrite IH, app_length. cbn. lia.
Qed.

Lemma recb_intro l r : supb l r = true -> recb l r = Some true.
Proof. unfold recb. now intros ->. Qed.
Lemma recb_some l r : recb l r <> None.
Proof. discriminate. Qed.

Lemma orM_true_r a b : a <> None -> b tt = Some true -> orM a b = Some true.
Proof. destruct a as [[|]|]; cbn; congruence. Qed.
Lemma anyM_true_intro {A} (g : A -> option bool) l x :
  In x l -> g x = Some true -> (forall y, g y <> None) -> anyM g l = Some true.
Proof.
  intros Hin Hx Hn. induction l as [|y t IH]; [contradiction|]. cbn [anyM].
  destruct Hin as [->|Hin]; [now rewrite Hx|]. apply orM_true_r; auto.
Qed.
Lemma allM_true_intro {A} (g : A -> option bool) l : (forall x, In x l -> g x = Some true) -> allM g l = Some true.
Proof. induction l as [|x t IH]; cbn; [auto|]. intros H. rewrite (H x) by auto. cbn. apply IH. auto. Qed.

(* _nominal_supertype_of on one entry of a super-type list: cheap, and structural when cheap says Maybe *)
Definition entry_true (rec : ty -> ty -> option bool) (l : ty) (s : Z * bool) : Prop :=
  cheap l (ty_of_sup s) = Some true \/ (cheap l (ty_of_sup s) = None /\ structural rec l (ty_of_sup s) = Some true).

Lemma scan_inv rec l sups all :
  incl sups all -> scan rec l sups = Some true -> exists s, In s all /\ entry_true rec l s.
Proof.
  unfold scan. intros Hall H. apply anyM_true_inv in H. destruct H as [s [Hs H]]. exists s. split; [exact (Hall s Hs)|].
  unfold entry_true. destruct (cheap l (ty_of_sup s)) as [b|]; [left; exact H|right; auto].
Qed.

Lemma nominal_inv rec l r :
  nominal rec l r = Some true -> exists row s, ctx_of r = Some row /\ In s (sups_of row) /\ entry_true rec l s.
Proof.
  unfold nominal. destruct (ctx_of r) as [row|]; [|discriminate]. intros H.
  assert (Hs : exists s, In s (sups_of row) /\ entry_true rec l s).
  { apply orM_true_inv in H. destruct H as [H|[_ H]].
    - destruct (is_class l && is_class r); [|discriminate]. exact (scan_inv rec l _ _ (incl_appl _ (incl_refl _)) H).
    - destruct (is_trait l); [|discriminate]. apply orM_true_inv in H. destruct H as [H|[_ H]].
      + exact (scan_inv rec l _ _ (incl_appr _ (incl_refl _)) H).
      + exact (scan_inv rec l _ _ (incl_appl _ (incl_refl _)) H). }
  destruct Hs as [s Hs]. exists row, s. auto.
Qed.
