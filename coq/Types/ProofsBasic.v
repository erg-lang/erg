(** C06 — the induction principle of the nested type, Type::eq, sizes, and the fuel: supertype_of as a total function
    [supb] with its one-step unfolding [supb_unfold] *)
From Coq Require Import ZArith List Bool Lia.
From ErgV Require Import gen.Classes Types.Model Types.Spec Types.ProofsPred.
Import ListNotations.
Open Scope Z_scope.

Section TyInd.
  Variable P : ty -> Prop.
  Hypothesis HNever : P TNever.
  Hypothesis HObj : P TObj.
  Hypothesis HMono : forall c, P (TMono c).
  Hypothesis HPoly : forall c, P (TPoly c).
  Hypothesis HRef : forall b p, P b -> P (TRef b p).
  Hypothesis HOr : forall l, Forall P l -> P (TOr l).
  Hypothesis HAnd : forall l, Forall P l -> P (TAnd l).
  Hypothesis HNot : forall t, P t -> P (TNot t).
  Hypothesis HList : forall e n, P e -> P (TList e n).
  Fixpoint ty_ind' (t : ty) : P t :=
    match t with
    | TNever => HNever
    | TObj => HObj
    | TMono c => HMono c
    | TPoly c => HPoly c
    | TRef b p => HRef b p (ty_ind' b)
    | TOr l => HOr l (Common.Lists.Forall_all ty_ind' l)
    | TAnd l => HAnd l (Common.Lists.Forall_all ty_ind' l)
    | TNot x => HNot x (ty_ind' x)
    | TList e n => HList e n (ty_ind' e)
    end.
End TyInd.

(* the nested fixpoints of Type::eq on two sets, as list functions; [e] is ty_eqb or its flip *)
Lemma all_ex_fix {A} (e : A -> A -> bool) l1 l2 :
  (fix all (l : list A) : bool :=
     match l with
     | [] => true
     | x :: t => (fix ex (m : list A) : bool := match m with [] => false | y :: m' => e x y || ex m' end) l2 && all t
     end) l1 = forallb (fun x => existsb (e x) l2) l1.
Proof. reflexivity. Qed.

Lemma ty_eqb_or l1 l2 :
  ty_eqb (TOr l1) (TOr l2) = forallb (fun x => existsb (ty_eqb x) l2) l1 && forallb (fun y => existsb (fun x => ty_eqb x y) l1) l2.
Proof. exact (f_equal2 andb (all_ex_fix ty_eqb l1 l2) (all_ex_fix (fun y x => ty_eqb x y) l2 l1)). Qed.
Lemma ty_eqb_and l1 l2 :
  ty_eqb (TAnd l1) (TAnd l2) = forallb (fun x => existsb (ty_eqb x) l2) l1 && forallb (fun y => existsb (fun x => ty_eqb x y) l1) l2.
Proof. exact (f_equal2 andb (all_ex_fix ty_eqb l1 l2) (all_ex_fix (fun y x => ty_eqb x y) l2 l1)). Qed.

Lemma lit_eqb_refl l : lit_eqb l l = true.
Proof. destruct l; cbn; auto using Z.eqb_refl, zs_eqb_refl', Bool.eqb_reflx. Qed.
Lemma bound_eqb_refl b : bound_eqb b b = true.
Proof. destruct b; cbn; auto using Z.eqb_refl, lit_eqb_refl. Qed.
Lemma forallb_existsb_refl {A} (eqb : A -> A -> bool) l :
  (forall x, In x l -> eqb x x = true) -> forallb (fun k => existsb (eqb k) l) l = true.
Proof.
  intros H. apply forallb_forall. intros x Hx. apply existsb_exists. exists x. split; auto.
Qed.
Lemma rpred_eqb_refl p : rpred_eqb p p = true.
Proof.
  destruct p; cbn; auto using bound_eqb_refl.
  - rewrite Nat.eqb_refl. cbn. rewrite forallb_existsb_refl; auto using lit_eqb_refl.
  - now rewrite !bound_eqb_refl.
Qed.
Lemma oz_eqb_refl n : oz_eqb n n = true.
Proof. destruct n; cbn; auto using Z.eqb_refl. Qed.

Lemma ty_eqb_refl : forall t, ty_eqb t t = true.
Proof.
  induction t using ty_ind'; try reflexivity.
  - cbn. apply Z.eqb_refl.
  - cbn. apply Z.eqb_refl.
  - cbn [ty_eqb]. now rewrite IHt, rpred_eqb_refl.
  - rewrite ty_eqb_or. rewrite Forall_forall in H. apply andb_true_intro.
    split; [exact (forallb_existsb_refl ty_eqb l H)|exact (forallb_existsb_refl (fun y x => ty_eqb x y) l H)].
  - rewrite ty_eqb_and. rewrite Forall_forall in H. apply andb_true_intro.
    split; [exact (forallb_existsb_refl ty_eqb l H)|exact (forallb_existsb_refl (fun y x => ty_eqb x y) l H)].
  - cbn. exact IHt.
  - cbn [ty_eqb]. now rewrite IHt, oz_eqb_refl.
Qed.

Lemma size_pos t : (1 <= size t)%nat.
Proof. destruct t; cbn; lia. Qed.

Lemma size_sum_in x l :
  In x l -> (size x <= (fix sum (l : list ty) : nat := match l with [] => O | x :: r => (size x + sum r)%nat end) l)%nat.
Proof. induction l as [|y r IH]; cbn; [tauto|]. intros [->|H]; [lia|]. specialize (IH H). lia. Qed.
Lemma size_in_or x l : In x l -> (size x < size (TOr l))%nat.
Proof. intros H. apply size_sum_in in H. cbn [size]. lia. Qed.
Lemma size_in_and x l : In x l -> (size x < size (TAnd l))%nat.
Proof. intros H. apply size_sum_in in H. cbn [size]. lia. Qed.

Lemma size_sum_map (f : ty -> ty) l :
  Forall (fun x => (size (f x) <= size x)%nat) l ->
  ((fix sum (l : list ty) : nat := match l with [] => O | x :: r => (size x + sum r)%nat end) (map f l)
   <= (fix sum (l : list ty) : nat := match l with [] => O | x :: r => (size x + sum r)%nat end) l)%nat.
Proof. induction 1; cbn; lia. Qed.

Lemma size_derefine : forall t, (size (derefine t) <= size t)%nat.
Proof.
  induction t using ty_ind'; cbn [derefine size]; try lia; apply size_sum_map in H; lia.
Qed.

Lemma size_into_refinement t : (size (fst (into_refinement t)) <= size t)%nat.
Proof.
  destruct t; cbn; try lia.
  destruct (c =? id_Nat); [cbn; lia|]. destruct (c =? id_Bool); cbn; lia.
Qed.

Lemma size_ty_of_sup s : size (ty_of_sup s) = 1%nat.
Proof. unfold ty_of_sup, ty_of_id. destruct (snd s); [reflexivity|]. destruct (_ =? _); [reflexivity|]. now destruct (_ =? _). Qed.

Lemma In_rotl {A} k (l : list A) y : In y (rotl k l) -> In y l.
Proof.
  revert l. induction k as [|k IH]; intros l; [destruct l; auto|]. destruct l as [|x t]; [auto|]. cbn [rotl].
  intros H. apply IH in H. apply in_app_or in H. cbn in *. tauto.
Qed.

(* collects the size facts about the types in sight and calls lia *)
Ltac sz :=
  repeat match goal with
         | H : In _ (rotl _ _) |- _ => apply In_rotl in H
         end;
  repeat match goal with
         | t : ty |- _ => lazymatch goal with | _ : (1 <= size t)%nat |- _ => fail | _ => pose proof (size_pos t) end
         end;
  repeat match goal with
         | H : In ?x ?l |- _ => pose proof (size_in_or x l H); pose proof (size_in_and x l H); clear H
         end;
  repeat match goal with
         | |- context [size (derefine ?t)] => lazymatch goal with | _ : (size (derefine t) <= size t)%nat |- _ => fail | _ => pose proof (size_derefine t) end
         end;
  cbn [size] in *; try lia.

(* Two runs agree: both answer, and the same.  One unfolding of supertype_of consults the recursive calls on pairs of
   smaller total size only, so two runs whose recursive calls agree on those pairs agree: with enough fuel the
   judgement answers, and the answer does not depend on the fuel. *)
Definition agree (a a' : option bool) : Prop := exists b, a = Some b /\ a' = Some b.

Lemma agree_some b : agree (Some b) (Some b).
Proof. exists b. auto. Qed.
Lemma agree_eq a a' : agree a a' -> a = a'.
Proof. intros (b & -> & ->). reflexivity. Qed.

Lemma orM_agree a a' b b' : agree a a' -> (forall u, agree (b u) (b' u)) -> agree (orM a b) (orM a' b').
Proof. intros ([|] & -> & ->) Hb; [apply agree_some|apply Hb]. Qed.
Lemma andM_agree a a' b b' : agree a a' -> (forall u, agree (b u) (b' u)) -> agree (andM a b) (andM a' b').
Proof. intros ([|] & -> & ->) Hb; [apply Hb|apply agree_some]. Qed.
Lemma negM_agree a a' : agree a a' -> agree (negM a) (negM a').
Proof. intros (b & -> & ->). apply agree_some. Qed.

Lemma anyM_agree {A} (g g' : A -> option bool) l : (forall x, In x l -> agree (g x) (g' x)) -> agree (anyM g l) (anyM g' l).
Proof.
  induction l as [|x t IH]; cbn [anyM]; [intros _; apply agree_some|]. intros H. apply orM_agree; [apply H; now left|]. intros _. apply IH.
  intros y Hy. apply H. now right.
Qed.
Lemma allM_agree {A} (g g' : A -> option bool) l : (forall x, In x l -> agree (g x) (g' x)) -> agree (allM g l) (allM g' l).
Proof.
  induction l as [|x t IH]; cbn [allM]; [intros _; apply agree_some|]. intros H. apply andM_agree; [apply H; now left|]. intros _. apply IH.
  intros y Hy. apply H. now right.
Qed.
Lemma zipallM_agree {A} (g g' : A -> A -> option bool) l r :
  (forall x y, In x l -> In y r -> agree (g x y) (g' x y)) -> agree (zipallM g l r) (zipallM g' l r).
Proof.
  revert r. induction l as [|x t IH]; intros [|y r] H; cbn [zipallM]; try apply agree_some.
  apply andM_agree; [apply H; now left|]. intros _. apply IH. intros; apply H; now right.
Qed.

Section Rec.
  Variables rec rec' : ty -> ty -> option bool.

  Lemma ref_ref_agree lb lp rb rp :
    (forall l' r', (size l' + size r' <= size lb + size rb)%nat -> agree (rec l' r') (rec' l' r')) ->
    agree (ref_ref rec lb lp rb rp) (ref_ref rec' lb lp rb rp).
  Proof.
    intros H. unfold ref_ref. pose proof (size_into_refinement lb) as Hs. destruct (into_refinement lb) as [b q]. cbn [fst] in Hs.
    destruct (H lb rb (le_n _)) as ([|] & -> & ->); [apply agree_some|]. apply andM_agree; [apply H; lia|intros _; apply agree_some].
  Qed.

  Lemma structural_agree l r :
    (forall l' r', (size l' + size r' < size l + size r)%nat -> agree (rec l' r') (rec' l' r')) ->
    agree (structural rec l r) (structural rec' l r).
  Proof.
    intros H. unfold structural.
    apply orM_agree.
    { destruct r; try apply agree_some. apply anyM_agree. intros x Hx. apply H. sz. }
    intros _. apply orM_agree.
    { destruct l; try apply agree_some. apply anyM_agree. intros x Hx. apply H. sz. }
    intros _.
    pose proof (size_pos l) as Hl. pose proof (size_pos r) as Hr.
    destruct l, r; try apply agree_some;
      repeat match goal with
             | |- agree (if ?c then _ else _) (if ?c then _ else _) => destruct c
             | |- agree (let (_, _) := into_refinement ?t in _) _ =>
               let Hir := fresh "Hir" in
               pose proof (size_into_refinement t) as Hir; destruct (into_refinement t); cbn [fst] in Hir
             | |- agree (ref_ref _ _ _ _ _) (ref_ref _ _ _ _ _) => apply ref_ref_agree; intros; apply H; sz
             | |- agree (Some _) (Some _) => apply agree_some
             | |- agree (rec _ _) (rec' _ _) => apply H; sz
             | |- agree (negM _) (negM _) => apply negM_agree
             | |- agree (orM _ _) (orM _ _) => apply orM_agree; intros
             | |- agree (andM _ _) (andM _ _) => apply andM_agree; intros
             | |- agree (anyM _ _) (anyM _ _) => apply anyM_agree; intros ? ?
             | |- agree (allM _ _) (allM _ _) => apply allM_agree; intros ? ?
             | |- agree (zipallM _ _ _) (zipallM _ _ _) => apply zipallM_agree; intros ? ? ? ?
             end.
  Qed.

  Lemma scan_agree l sups :
    (forall l' r', (size l' + size r' < size l + 1)%nat -> agree (rec l' r') (rec' l' r')) ->
    agree (scan rec l sups) (scan rec' l sups).
  Proof.
    intros H. unfold scan. apply anyM_agree. intros s _. destruct (cheap l (ty_of_sup s)); [apply agree_some|].
    apply structural_agree. rewrite size_ty_of_sup. exact H.
  Qed.

  Lemma nominal_agree l r :
    (forall l' r', (size l' + size r' < size l + size r)%nat -> agree (rec l' r') (rec' l' r')) ->
    agree (nominal rec l r) (nominal rec' l r).
  Proof.
    intros H. unfold nominal. pose proof (size_pos r).
    assert (H1 : forall l' r', (size l' + size r' < size l + 1)%nat -> agree (rec l' r') (rec' l' r')) by (intros; apply H; lia).
    destruct (ctx_of r); [|apply agree_some].
    apply orM_agree; [destruct (_ && _); [now apply scan_agree|apply agree_some]|]. intros _.
    destruct (is_trait l); [|apply agree_some]. apply orM_agree; [now apply scan_agree|]. intros _. now apply scan_agree.
  Qed.
End Rec.

Lemma sup_agree : forall n m l r, (size l + size r < n)%nat -> (size l + size r < m)%nat -> agree (sup n l r) (sup m l r).
Proof.
  induction n as [|n IH]; intros m l r Hn Hm; [lia|]. destruct m as [|m]; [lia|]. cbn [sup].
  destruct (cheap l r); [apply agree_some|].
  apply orM_agree; [apply structural_agree|intros _; apply nominal_agree]; intros; apply IH; lia.
Qed.

Lemma sup_some n l r : (size l + size r < n)%nat -> sup n l r <> None.
Proof. intros H. destruct (sup_agree n n l r H H) as (b & -> & _). discriminate. Qed.

Lemma sup_fuel n m l r : (size l + size r < n)%nat -> (size l + size r < m)%nat -> sup n l r = sup m l r.
Proof. intros Hn Hm. exact (agree_eq _ _ (sup_agree n m l r Hn Hm)). Qed.

Lemma anyM_some {A} (g : A -> option bool) l : (forall x, In x l -> g x <> None) -> anyM g l <> None.
Proof.
  intros H. destruct (anyM_agree g g l) as (b & -> & _); [|discriminate].
  intros x Hx. specialize (H x Hx). destruct (g x) as [b|]; [apply agree_some|contradiction].
Qed.

Lemma sub_res_some s t : sub_res s t <> None.
Proof. unfold sub_res, fuel_of. apply sup_some. lia. Qed.

Lemma sub_res_sub s t : sub_res s t = Some (sub s t).
Proof. unfold sub. pose proof (sub_res_some s t). now destruct (sub_res s t). Qed.

(* supertype_of's argument order: [supb l r] is l :> r; the laws are stated on it, the property theorems on [sub] *)
Definition supb (l r : ty) : bool := sub r l.

Lemma sup_supb n l r : (size l + size r < n)%nat -> sup n l r = Some (supb l r).
Proof.
  intros H. unfold supb. rewrite <- sub_res_sub. unfold sub_res, fuel_of. apply sup_fuel; lia.
Qed.

Definition recb (l r : ty) : option bool := Some (supb l r).

Lemma supb_unfold l r :
  Some (supb l r) = match cheap l r with
                    | Some b => Some b
                    | None => orM (structural recb l r) (fun _ => nominal recb l r)
                    end.
Proof.
  rewrite <- (sup_supb (S (size l + size r))) by lia. cbn [sup]. destruct (cheap l r); [reflexivity|].
  apply agree_eq, orM_agree; [apply structural_agree|intros _; apply nominal_agree];
    intros; rewrite sup_supb by lia; apply agree_some.
Qed.
