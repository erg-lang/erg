(** C06 — property theorems (the lemmas they are derived from are in Proofs*.v).
    [sub s t] is the model of Context::subtype_of(s, t) (Types/Model.v), [den] the set-theoretic reading of a type
    (Types/Spec.v), [wf] the types the constructors build. *)
From Coq Require Import ZArith List Bool.
From ErgV Require Import gen.Classes Types.Model Types.Spec Types.ProofsBasic Types.ProofsLaws Types.ProofsSound
  Types.ProofsComplete Types.ProofsTrans Types.ProofsRefute.
Import ListNotations.
Open Scope Z_scope.

(** 0. the judgement terminates: the fuel Model.fuel_of (size of the two types) is enough for every pair of types *)
Theorem sub_total : forall s t, sub_res s t <> None.
Proof. exact sub_res_some. Qed.

(** 1. reflexivity, for every type of the fragment *)
Theorem sub_refl : forall t, sub t t = true.
Proof. exact supb_refl. Qed.

(** 2. Never is below, Obj above every type *)
Theorem never_bot : forall t, sub TNever t = true.
Proof. exact supb_never. Qed.
Theorem obj_top : forall t, sub t TObj = true.
Proof. exact supb_obj. Qed.

(** 3. the numeric tower Bool <: Nat <: Int <: Ratio <: Float <: Complex, all 15 pairs *)
Theorem tower : forall a b, In (a, b) (tower_pairs Spec.tower) -> sub a b = true.
Proof.
  assert (H : forallb (fun ab => sub (fst ab) (snd ab)) (tower_pairs Spec.tower) = true) by (vm_compute; reflexivity).
  intros a b Hin. rewrite forallb_forall in H. exact (H (a, b) Hin).
Qed.
Example tower_nonvacuous : In (TMono id_Bool, TMono id_Complex) (tower_pairs Spec.tower).
Proof. cbn. auto 20. Qed.

(** 4. T <: (T or U) and U <: (T or U), for all types T and U *)
Theorem sub_or_intro : forall t u, sub t (TOr [t; u]) = true.
Proof. intros t u. apply (supb_or_l [t; u] t t); [now left|apply supb_refl]. Qed.
Theorem sub_or_intro_r : forall t u, sub u (TOr [t; u]) = true.
Proof. intros t u. apply (supb_or_l [t; u] u u); [now right; left|apply supb_refl]. Qed.

(** 5. (T and U) <: T and (T and U) <: U, for all types T and U *)
Theorem and_elim : forall t u, sub (TAnd [t; u]) t = true.
Proof. intros t u. apply (supb_and_r t [t; u] t); [now left|apply supb_refl]. Qed.
Theorem and_elim_r : forall t u, sub (TAnd [t; u]) u = true.
Proof. intros t u. apply (supb_and_r u [t; u] u); [now right; left|apply supb_refl]. Qed.

(** 6. an enum of literals is below the class of those literals *)
Theorem singleton_below_class : forall ls,
  wf (enum_ty ls) = true -> sub (fst (q_singleton ls)) (snd (q_singleton ls)) = true.
Proof.
  intros ls Hwf. destruct (wf_enum_inv ls Hwf) as [l0 [r [-> Hall]]].
  unfold q_singleton, enum_ty. cbn [fst snd]. rewrite lit_class_mono. exact (enum_below_class _ _ Hall).
Qed.
Example singleton_nonvacuous : wf (enum_ty [LInt 1; LInt 2]) = true /\ snd (q_singleton [LInt 1; LInt 2]) = TMono id_Nat.
Proof. split; reflexivity. Qed.

(** 7. soundness for the set-theoretic reading [den] (Types/Spec.v): if S <: T is judged, every value of S is a value of T.
    On the fragment [frag]: Never, Obj, every builtin class and trait, literal enum and interval refinements, unions and
    intersections of them at any depth.  (Negation and List are outside: see 9.)
    This is also what C33 uses: an accepted match covers the values of the scrutinee type. *)
Theorem sub_sound : forall S T, frag S = true -> frag T = true -> sub S T = true ->
  forall v, den S v = true -> den T v = true.
Proof. exact sub_sound_l. Qed.
Example sub_sound_nonvacuous :
  let S := interval_ty (TMono id_Nat) IClosed 1 10 in let T := TOr [TMono id_Str; TMono id_Nat] in
  frag S = true /\ frag T = true /\ sub S T = true /\ den S (VInt 3) = true.
Proof. vm_compute. repeat split; reflexivity. Qed.

(** 8. transitivity.
    (a) On the fragment where the judgement is also complete for [den] (Never, Obj, the classes Bool Nat Int Float Str
        NoneType and unions of them) it follows from set inclusion. *)
Theorem sub_complete : forall S T, cfrag S = true -> cfrag T = true ->
  (forall v, den S v = true -> den T v = true) -> sub S T = true.
Proof. exact sub_complete_l. Qed.
Theorem sub_trans : forall S T U, cfrag S = true -> cfrag T = true -> cfrag U = true ->
  sub S T = true -> sub T U = true -> sub S U = true.
Proof.
  intros S T U HS HT. exact (sub_trans_mid S T U HS (cfrag_frag T HT)).
Qed.
Example sub_trans_nonvacuous :
  let S := TMono id_Bool in let T := TOr [TMono id_Nat; TMono id_Str] in let U := TOr [TMono id_NoneType; TMono id_Float; TMono id_Str] in
  cfrag S = true /\ cfrag T = true /\ cfrag U = true /\ sub S T = true /\ sub T U = true.
Proof. vm_compute. repeat split; reflexivity. Qed.

(** (b) On ALL builtin classes and traits (whatever coq/gen/Classes.v contains), outside the class [mono_gap]: c is declared
        above a through a chain of super-type lists, but the judgement - which scans the direct lists only - denies a <: c. *)
Theorem sub_trans_nominal : forall a b c,
  registered_mono a = true -> registered_mono b = true -> registered_mono c = true -> mono_gap a c = false ->
  sub (TMono a) (TMono b) = true -> sub (TMono b) (TMono c) = true -> sub (TMono a) (TMono c) = true.
Proof. exact sub_trans_nominal_l. Qed.
Example sub_trans_nominal_nonvacuous :
  registered_mono id_Bool = true /\ mono_gap id_Bool id_Named = false /\ sub (TMono id_Bool) (TMono id_Int) = true.
Proof. vm_compute. repeat split; reflexivity. Qed.

(** 9. where transitivity is FALSE of the faithful model (known findings, known/C06.json; each triple is replayed on the
    real Context::subtype_of by checks/c06.py).  [refutes s m t k]: s <: m, m <: t, not s <: t, and the triple is in the
    known class k of Spec.known_trans. *)
(* the super-type lists are not transitively closed: the first such triple of the current table ([True] of a table that has
   none) *)
Theorem sub_trans_refuted_nominal_gap :
  match gap_witnesses with
  | (a, b, c) :: _ => refutes (TMono a) (TMono b) (TMono c) 4
  | [] => True
  end.
Proof. destruct gap_witnesses as [|[[a b] c] l] eqn:E; [exact I|]. apply gap_witnesses_refute. rewrite E. now left. Qed.
(* List(Nat, 2) <: List(Nat, _) <: List(Nat, 3): an erased length compares as Any *)
Theorem sub_trans_refuted_list_length :
  refutes (TList (TMono id_Nat) (Some 2)) (TList (TMono id_Nat) None) (TList (TMono id_Nat) (Some 3)) 2.
Proof. vm_compute. repeat split; reflexivity. Qed.
(* List(Never, _) <: ClassType <: Named: a list of types is a type *)
Theorem sub_trans_refuted_list_metatype :
  refutes (TList TNever None) (TMono id_ClassType) (TMono id_Named) 3.
Proof. vm_compute. repeat split; reflexivity. Qed.
(* Ratio <: Complex <: (not Float) *)
Theorem sub_trans_refuted_negation :
  refutes (TMono id_Ratio) (TMono id_Complex) (TNot (TMono id_Float)) 1.
Proof. vm_compute. repeat split; reflexivity. Qed.
