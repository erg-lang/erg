(** C06 — refinement predicates: is_super_pred is sound for the set-theoretic reading; the class of an enum's literals
    ([wf_ref_enum_class]) *)
From Coq Require Import ZArith List Bool Arith Lia.
From ErgV Require Import Common.Lists gen.Classes Types.Model Types.Spec.
Import ListNotations.
Open Scope Z_scope.

Lemma zs_eqb_eq a b : zs_eqb a b = true -> a = b.
Proof. apply Common.Lists.zs_eqb_eq. Qed.
Lemma zs_eqb_refl' a : zs_eqb a a = true.
Proof. exact (Common.Lists.zs_eqb_refl a). Qed.
Lemma zs_cmp_eq a b : zs_cmp a b = Eq -> a = b.
Proof.
  revert b. induction a as [|x a IH]; intros [|y b]; cbn; try discriminate; auto.
  destruct (x ?= y) eqn:E; try discriminate. apply Z.compare_eq in E. intros H. f_equal; auto.
Qed.

Lemma lit_eqb_eq a b : lit_eqb a b = true -> a = b.
Proof.
  destruct a, b; cbn; try discriminate; intros H; try reflexivity; f_equal.
  - now apply Z.eqb_eq.
  - now apply zs_eqb_eq.
  - now apply eqb_prop.
  - now apply Z.eqb_eq.
Qed.

Lemma lit_cmp_num a b x y :
  lit_num a = Some x -> lit_num b = Some y -> lit_cmp a b = Some (x ?= y).
Proof.
  intros Ha Hb. unfold lit_cmp. destruct (lit_eqb a b) eqn:E.
  - apply lit_eqb_eq in E. subst. rewrite Ha in Hb. inversion Hb. now rewrite Z.compare_refl.
  - now rewrite Ha, Hb.
Qed.

Lemma lit_cmp_nonnum a b : lit_num a <> None -> lit_num b = None -> lit_cmp a b = None.
Proof.
  intros Ha Hb. unfold lit_cmp. destruct (lit_eqb a b) eqn:E.
  - apply lit_eqb_eq in E. subst. contradiction.
  - rewrite Hb. destruct a; cbn in *; try congruence; reflexivity.
Qed.

Lemma lit_cmp_eq_matches k l v : lit_cmp k l = Some Eq -> lit_matches l v = lit_matches k v.
Proof.
  unfold lit_cmp. destruct (lit_eqb k l) eqn:E; [apply lit_eqb_eq in E; now subst|].
  unfold lit_matches.
  destruct (lit_num k) as [x|] eqn:Hk, (lit_num l) as [y|] eqn:Hl.
  - intros H. inversion H as [H1]. apply Z.compare_eq in H1. subst.
    destruct (val_num v); [reflexivity|]. destruct k, l; cbn in *; try congruence; destruct v; reflexivity.
  - destruct k; cbn in *; congruence.
  - destruct k, l; cbn in *; congruence.
  - destruct k, l; cbn in *; try congruence. intros H. inversion H as [H1]. apply zs_cmp_eq in H1. now subst.
Qed.

Lemma eq_eq_matches k l v : eq_eq k l = true -> lit_matches l v = true -> lit_matches k v = true.
Proof.
  unfold eq_eq. intros H Hm. apply orb_prop in H. destruct H as [H|H].
  - apply lit_eqb_eq in H. now subst.
  - destruct (lit_cmp k l) as [[| |]|] eqn:E; try discriminate. now rewrite <- (lit_cmp_eq_matches k l v E).
Qed.

Lemma bound_eqb_eq a b : bound_eqb a b = true -> a = b.
Proof. destruct a, b; cbn; try discriminate; intros H; f_equal; auto using lit_eqb_eq; now apply Z.eqb_eq. Qed.

Lemma bound_cmp_num a b x y :
  bound_num a = Some x -> bound_num b = Some y -> bound_cmp a b = Some (x ?= y).
Proof.
  intros Ha Hb. unfold bound_cmp. destruct (bound_eqb a b) eqn:E; [|now apply lit_cmp_num].
  apply bound_eqb_eq in E. subst. rewrite Ha in Hb. inversion Hb. now rewrite Z.compare_refl.
Qed.

Lemma canbe_le_cmp x y : canbe_le (Some (x ?= y)) = true -> x <= y.
Proof. unfold canbe_le, Z.le. now destruct (x ?= y). Qed.
Lemma canbe_ge_cmp x y : canbe_ge (Some (x ?= y)) = true -> y <= x.
Proof. unfold canbe_ge. rewrite <- Z.ge_le_iff. unfold Z.ge. now destruct (x ?= y). Qed.

(* [den_pred (PGe a)] is [ge_den a] by conversion, [den_pred (PIval lo hi)] the two together ([den_ival]) *)
Definition ge_den (a : bound) (v : value) : bool :=
  match bound_num a, val_num v with Some x, Some y => x <=? y | _, _ => false end.
Definition le_den (a : bound) (v : value) : bool :=
  match bound_num a, val_num v with Some x, Some y => y <=? x | _, _ => false end.

Lemma den_ival lo hi v : den_pred (PIval lo hi) v = ge_den lo v && le_den hi v.
Proof.
  unfold den_pred, ge_den, le_den. destruct (bound_num lo), (bound_num hi), (val_num v); cbn [andb]; rewrite ?andb_false_r; reflexivity.
Qed.

Definition bound_numeric (b : bound) : Prop := bound_num b <> None.

Lemma ge_den_le a b v : bound_numeric a -> canbe_le (bound_cmp a b) = true -> ge_den b v = true -> ge_den a v = true.
Proof.
  unfold bound_numeric, ge_den. intros Ha Hc. destruct (bound_num a) as [x|] eqn:Ea; [|contradiction].
  destruct (bound_num b) as [y|] eqn:Eb; [|discriminate]. destruct (val_num v) as [n|]; [|discriminate].
  rewrite (bound_cmp_num a b x y Ea Eb) in Hc. apply canbe_le_cmp in Hc. rewrite !Z.leb_le. lia.
Qed.
Lemma le_den_ge a b v : bound_numeric a -> canbe_ge (bound_cmp a b) = true -> le_den b v = true -> le_den a v = true.
Proof.
  unfold bound_numeric, le_den. intros Ha Hc. destruct (bound_num a) as [x|] eqn:Ea; [|contradiction].
  destruct (bound_num b) as [y|] eqn:Eb; [|discriminate]. destruct (val_num v) as [n|]; [|discriminate].
  rewrite (bound_cmp_num a b x y Ea Eb) in Hc. apply canbe_ge_cmp in Hc. rewrite !Z.leb_le. lia.
Qed.

(* a numeric bound is comparable only with a numeric literal, and a value that equals one lies in the one-point interval
   at that literal: an enum member is below a bound as the interval is *)
Lemma lit_point a l v :
  bound_numeric a -> bound_cmp a (BVal l) <> None -> lit_matches l v = true ->
  ge_den (BVal l) v = true /\ le_den (BVal l) v = true.
Proof.
  unfold bound_numeric, ge_den, le_den, bound_num at 2 3. cbn [bound_lit]. intros Ha Hc Hm. destruct (lit_num l) as [n|] eqn:Hl.
  - unfold lit_matches in Hm. rewrite Hl in Hm.
    destruct (val_num v) as [y|]; [|exfalso; destruct l, v; cbn in *; congruence].
    apply Z.eqb_eq in Hm. subst y. now rewrite Z.leb_refl.
  - exfalso. apply Hc. unfold bound_cmp. destruct (bound_eqb a (BVal l)) eqn:E.
    + apply bound_eqb_eq in E. subst a. contradiction.
    + apply lit_cmp_nonnum; [exact Ha|exact Hl].
Qed.

Lemma ge_den_lit a l v : bound_numeric a -> ge_eq a l = true -> lit_matches l v = true -> ge_den a v = true.
Proof.
  intros Ha Hge Hm. apply (ge_den_le a (BVal l) v Ha Hge), (lit_point a l v Ha); [|exact Hm].
  intros E. unfold ge_eq in Hge. rewrite E in Hge. discriminate.
Qed.
Lemma le_den_lit a l v : bound_numeric a -> le_eq a l = true -> lit_matches l v = true -> le_den a v = true.
Proof.
  intros Ha Hle Hm. apply (le_den_ge a (BVal l) v Ha Hle), (lit_point a l v Ha); [|exact Hm].
  intros E. unfold le_eq in Hle. rewrite E in Hle. discriminate.
Qed.

(* the bounds of the predicate are numbers (what interval and into_refinement build) *)
Definition pred_ok (p : rpred) : Prop :=
  match p with
  | PGe b => bound_numeric b
  | PIval lo hi => bound_numeric lo /\ bound_numeric hi
  | _ => True
  end.

Lemma is_super_pred_sound lp rp v :
  pred_ok lp -> is_super_pred lp rp = true -> den_pred rp v = true -> den_pred lp v = true.
Proof.
  intros Hok Hs Hr. destruct lp as [|a|ks|lo hi]; [reflexivity| | |];
    destruct rp as [|b|ls|lo2 hi2]; cbn [is_super_pred] in Hs; try discriminate Hs; rewrite ?den_ival in *.
  - exact (ge_den_le a b v Hok Hs Hr).
  - cbn [den_pred] in Hr. apply existsb_exists in Hr. destruct Hr as [l [Hl Hm]]. rewrite forallb_forall in Hs.
    exact (ge_den_lit a l v Hok (Hs l Hl) Hm).
  - apply andb_prop in Hr. exact (ge_den_le a lo2 v Hok Hs (proj1 Hr)).
  - cbn [den_pred] in Hr |- *. apply existsb_exists in Hr. destruct Hr as [l [Hl Hm]]. rewrite forallb_forall in Hs.
    specialize (Hs l Hl). apply existsb_exists in Hs. destruct Hs as [k [Hk Hkl]].
    apply existsb_exists. exists k. split; [exact Hk|]. now apply (eq_eq_matches k l v).
  - cbn [den_pred] in Hr. apply existsb_exists in Hr. destruct Hr as [l [Hl Hm]]. rewrite forallb_forall in Hs.
    specialize (Hs l Hl). apply andb_prop in Hs. destruct Hok as [Hlo Hhi].
    now rewrite (ge_den_lit lo l v Hlo (proj1 Hs) Hm), (le_den_lit hi l v Hhi (proj2 Hs) Hm).
  - apply andb_prop in Hs. apply andb_prop in Hr. destruct Hok as [Hlo Hhi].
    now rewrite (ge_den_le lo lo2 v Hlo (proj1 Hs) (proj1 Hr)), (le_den_ge hi hi2 v Hhi (proj2 Hs) (proj2 Hr)).
Qed.

Lemma wf_ref_enum_class c ls l : wf_ref c (PEnum ls) = true -> In l ls -> lit_class l = c.
Proof.
  cbn [wf_ref]. intros H Hl. apply andb_prop in H. destruct H as [H _]. apply andb_prop in H. destruct H as [_ H].
  rewrite forallb_forall in H. specialize (H l Hl). apply andb_prop in H. now apply Z.eqb_eq.
Qed.
