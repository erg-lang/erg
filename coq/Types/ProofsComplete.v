(** C06 — completeness of the judgement on the chain fragment, hence transitivity there *)
From Coq Require Import ZArith List Bool.
From ErgV Require Import gen.Classes Types.Model Types.Spec Types.ProofsBasic Types.ProofsLaws Types.ProofsInv Types.ProofsDen Types.ProofsSound.
Import ListNotations.
Open Scope Z_scope.

(* a value of the class that belongs to no class of the chain fragment that is not above it *)
Definition wit (c : Z) : value :=
  if c =? id_Bool then VBool true
  else if c =? id_Nat then VInt 5
  else if c =? id_Int then VInt (-5)
  else if c =? id_Float then VFloat 15
  else if c =? id_Str then VStr []
  else VNone.

Lemma chain_vc c : In c chain_classes -> In c value_classes.
Proof. intros H. cbn in H |- *. repeat (destruct H as [<-|H]; [auto 10|]). contradiction. Qed.

(* a value class denotes [prim] (den_vc): what is evaluated is [prim] and the judgement, not the closures behind [den] *)
Lemma wit_den c c' : In c chain_classes -> In c' chain_classes -> den (TMono c') (wit c) = sub (TMono c) (TMono c').
Proof.
  assert (H : forallb (fun c => forallb (fun c' => Bool.eqb (prim c' (wit c)) (sub (TMono c) (TMono c'))) chain_classes)
                      chain_classes = true) by (vm_compute; reflexivity).
  intros Hc Hc'. rewrite (den_vc c' _ (chain_vc c' Hc')).
  rewrite forallb_forall in H. specialize (H c Hc). rewrite forallb_forall in H. exact (eqb_prop _ _ (H c' Hc')).
Qed.

Lemma wit_self c : In c chain_classes -> den (TMono c) (wit c) = true.
Proof. intros Hc. rewrite (wit_den c c Hc Hc). apply supb_refl. Qed.

Lemma list_not_chain c : In c chain_classes -> den (TMono c) (VList []) = false.
Proof.
  intros Hc. rewrite (den_vc c _ (chain_vc c Hc)). cbn in Hc.
  repeat (destruct Hc as [<-|Hc]; [reflexivity|]). contradiction.
Qed.

Lemma is_chain_inv t : is_chain t = true -> exists c, t = TMono c /\ In c chain_classes.
Proof.
  destruct t; try discriminate. cbn [is_chain]. intros H. exists c. split; [reflexivity|exact (zmem_In c _ H)].
Qed.

Lemma list_only_obj T : cfrag T = true -> den T (VList []) = true -> T = TObj.
Proof.
  intros HT Hd. destruct T; try discriminate HT; [discriminate Hd|reflexivity| |]; exfalso; cbn [cfrag] in HT.
  - destruct (is_chain_inv _ HT) as [c' [E Hc']]. injection E as <-. rewrite (list_not_chain c Hc') in Hd. discriminate Hd.
  - apply den_or_in in Hd. destruct Hd as [t [Ht Hd]]. rewrite forallb_forall in HT.
    destruct (is_chain_inv _ (HT t Ht)) as [c' [-> Hc']]. rewrite (list_not_chain c' Hc') in Hd. discriminate Hd.
Qed.

Lemma chain_frag c : In c chain_classes -> frag (TMono c) = true.
Proof. intros Hc. exact (frag_vc c (chain_vc c Hc)). Qed.

Lemma cfrag_frag t : cfrag t = true -> frag t = true.
Proof.
  destruct t; try discriminate; try reflexivity.
  - cbn [cfrag]. intros H. destruct (is_chain_inv _ H) as [c' [E Hc]]. injection E as <-. now apply chain_frag.
  - cbn [cfrag]. intros H. rewrite frag_or. apply forallb_forall. intros x Hx. rewrite forallb_forall in H.
    destruct (is_chain_inv _ (H x Hx)) as [c [-> Hc]]. now apply chain_frag.
Qed.

(* what den-inclusion of a chain class gives: the judgement, through a member when the right side is a union *)
Definition strong (T s : ty) : Prop :=
  supb T s = true /\ (forall ts, T = TOr ts -> exists k, In k ts /\ supb k s = true).

Lemma complete_mono c T :
  In c chain_classes -> cfrag T = true -> (forall v, den (TMono c) v = true -> den T v = true) -> strong T (TMono c).
Proof.
  intros Hc HT Hi. specialize (Hi (wit c) (wit_self c Hc)). destruct T; try discriminate HT.
  - discriminate Hi.
  - split; [apply supb_obj|intros ts E; discriminate E].
  - cbn [cfrag] in HT. destruct (is_chain_inv _ HT) as [c' [E Hc']]. injection E as <-.
    rewrite (wit_den c c0 Hc Hc') in Hi. split; [exact Hi|intros ts E; discriminate E].
  - cbn [cfrag] in HT. apply den_or_in in Hi. destruct Hi as [t [Ht Hd]].
    rewrite forallb_forall in HT. destruct (is_chain_inv _ (HT t Ht)) as [c' [-> Hc']].
    rewrite (wit_den c c' Hc Hc') in Hd. split.
    + exact (supb_or_l l (TMono c) (TMono c') Ht Hd).
    + intros ts E. injection E as <-. exists (TMono c'). auto.
Qed.

Lemma supb_all_or T ss :
  cfrag T = true -> (forall s, In s ss -> strong T s) -> supb T (TOr ss) = true.
Proof.
  intros HT Hs. apply supb_intro; [intros b; apply cheap_or_and; now destruct T|]. intros _.
  assert (Hall : allM (fun o => recb T o) ss = Some true).
  { apply allM_true_intro. intros o Ho. exact (recb_intro T o (proj1 (Hs o Ho))). }
  unfold structural. cbn [orM]. destruct T; try discriminate HT; try exact Hall.
  (* a union on the left: when no member is above the whole of S, every member of S is below some member *)
  destruct (anyM (fun o => recb o (TOr ss)) l) as [[|]|] eqn:E; [reflexivity| |exfalso; revert E; apply anyM_some; intros; apply recb_some].
  cbn [orM]. apply allM_true_intro. intros o Ho. destruct (proj2 (Hs o Ho) l eq_refl) as [k [Hk Hko]].
  exact (anyM_true_intro (fun k => recb k o) l k Hk (recb_intro k o Hko) (fun y => recb_some y o)).
Qed.

Lemma sub_complete_l S T :
  cfrag S = true -> cfrag T = true -> (forall v, den S v = true -> den T v = true) -> sub S T = true.
Proof.
  intros HS HT Hi. destruct S; try discriminate HS.
  - apply supb_never.
  - rewrite (list_only_obj T HT (Hi (VList []) eq_refl)). apply supb_obj.
  - cbn [cfrag] in HS. destruct (is_chain_inv _ HS) as [c' [E Hc]]. injection E as <-.
    exact (proj1 (complete_mono c T Hc HT Hi)).
  - cbn [cfrag] in HS. rewrite forallb_forall in HS. change (supb T (TOr l) = true). apply supb_all_or; [exact HT|].
    intros s Hs. destruct (is_chain_inv _ (HS s Hs)) as [c [-> Hc]]. apply complete_mono; auto.
    intros v Hv. apply Hi. exact (den_or_intro l _ v Hs Hv).
Qed.

(* the judgement is complete at the two ends, sound through the middle: the middle type may be any type of [frag] *)
Lemma sub_trans_mid S T U :
  cfrag S = true -> frag T = true -> cfrag U = true -> sub S T = true -> sub T U = true -> sub S U = true.
Proof.
  intros HS HT HU H1 H2. apply sub_complete_l; auto. intros v Hv.
  exact (sub_sound_l T U HT (cfrag_frag U HU) H2 v (sub_sound_l S T (cfrag_frag S HS) HT H1 v Hv)).
Qed.
