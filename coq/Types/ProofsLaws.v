(** C06 — the syntactic laws: reflexivity, bottom, top, or-introduction, and-elimination, enum below its class *)
From Coq Require Import ZArith List Bool Arith Lia.
From ErgV Require Import gen.Classes Types.Model Types.Spec.
From ErgV Require Import Types.ProofsPred Types.ProofsBasic Types.ProofsInv.
Import ListNotations.
Open Scope Z_scope.

Lemma supb_of_cheap l r b : cheap l r = Some b -> supb l r = b.
Proof. intros Hc. pose proof (supb_unfold l r) as H. rewrite Hc in H. now inversion H. Qed.

Lemma supb_intro l r :
  (forall b, cheap l r = Some b -> b = true) -> (cheap l r = None -> structural recb l r = Some true) -> supb l r = true.
Proof.
  intros Hc Hs. pose proof (supb_unfold l r) as H. destruct (cheap l r) as [b|].
  - rewrite (Hc b eq_refl) in H. now inversion H.
  - rewrite (Hs eq_refl) in H. now inversion H.
Qed.

Lemma supb_refl t : supb t t = true.
Proof. apply (supb_of_cheap t t). unfold cheap. now rewrite ty_eqb_refl. Qed.

Lemma supb_never t : supb t TNever = true.
Proof. apply (supb_of_cheap t TNever). unfold cheap. destruct (ty_eqb t TNever); [reflexivity|]. now destruct t. Qed.

Lemma supb_obj t : supb TObj t = true.
Proof. apply (supb_of_cheap TObj t). unfold cheap. now destruct (ty_eqb TObj t). Qed.

(* cheap_supertype_of never denies when a union or an intersection is on the side where its members are tried *)
Lemma cheap_or_and l r b :
  match l, r with TOr _, _ | _, TAnd _ | _, TOr _ => True | _, _ => False end -> cheap l r = Some b -> b = true.
Proof.
  intros Hlr. unfold cheap. destruct (ty_eqb l r); [now inversion 1|].
  destruct l, r; try contradiction; cbn; rewrite ?andb_false_r; cbn; try congruence;
    repeat match goal with |- context [if ?c then _ else _] => destruct c; cbn; try congruence end.
Qed.

(* the two rules structural_supertype_of tries first: T :> (A and B) if T :> A, (A or B) :> T if A :> T *)
Lemma supb_and_r T rs a : In a rs -> supb T a = true -> supb T (TAnd rs) = true.
Proof.
  intros Hin Ha. apply supb_intro; [intros b; apply cheap_or_and; now destruct T|]. intros _. unfold structural.
  rewrite (anyM_true_intro (fun a => recb T a) rs a Hin (recb_intro T a Ha)); [reflexivity|intros; apply recb_some].
Qed.

Lemma supb_or_l ls S o : In o ls -> supb o S = true -> supb (TOr ls) S = true.
Proof.
  intros Hin Ho. apply supb_intro; [intros b; now apply cheap_or_and|]. intros _. unfold structural.
  apply orM_true_r; [destruct S; try discriminate; apply anyM_some; intros; apply recb_some|].
  rewrite (anyM_true_intro (fun o => recb o S) ls o Hin (recb_intro o S Ho)); [reflexivity|intros; apply recb_some].
Qed.

Lemma lit_class_mono l : ty_of_id (lit_class l) = TMono (lit_class l).
Proof. destruct l; cbn; try destruct (0 <=? z); reflexivity. Qed.

Lemma lit_class_nat l : lit_class l = id_Nat -> exists z, l = LInt z /\ 0 <= z.
Proof.
  destruct l; cbn; try (vm_compute; discriminate).
  destruct (0 <=? z) eqn:E; [|vm_compute; discriminate]. intros _. exists z. split; auto. lia.
Qed.
Lemma lit_class_bool l : lit_class l = id_Bool -> exists b, l = LBool b.
Proof.
  destruct l; cbn; try (vm_compute; discriminate); [|eauto].
  destruct (0 <=? z); vm_compute; discriminate.
Qed.
Lemma lit_class_none l : lit_class l = id_NoneType -> l = LNone.
Proof.
  destruct l; cbn; try (vm_compute; discriminate); [|auto].
  destruct (0 <=? z); vm_compute; discriminate.
Qed.

Lemma ge0_enum ls :
  (forall l, In l ls -> lit_class l = id_Nat) -> forallb (ge_eq (BVal (LInt 0))) ls = true.
Proof.
  intros H. apply forallb_forall. intros l Hl. destruct (lit_class_nat l (H l Hl)) as [z [-> Hz]].
  unfold ge_eq, bound_cmp, bound_eqb, lit_eqb. destruct (0 =? z) eqn:E; [reflexivity|].
  unfold bound_lit, lit_cmp, lit_eqb. rewrite E. cbn [lit_num]. apply Z.eqb_neq in E.
  assert (H0 : (10 * 0 ?= 10 * z) = Lt) by (apply Z.compare_lt_iff; lia). now rewrite H0.
Qed.

Lemma bool_enum ls :
  (forall l, In l ls -> lit_class l = id_Bool) ->
  forallb (fun x => ge_eq (BVal (LBool false)) x && le_eq (BVal (LBool true)) x) ls = true.
Proof.
  intros H. apply forallb_forall. intros l Hl. destruct (lit_class_bool l (H l Hl)) as [[|] ->]; reflexivity.
Qed.

Lemma none_enum_inv p : is_none_enum p = true -> p = PEnum [LNone].
Proof. destruct p as [| |[|[] []]|]; try discriminate. reflexivity. Qed.

Lemma enum_below_class c ls :
  (forall l, In l ls -> lit_class l = c) -> supb (TMono c) (TRef (TMono c) (PEnum ls)) = true.
Proof.
  intros Hall. apply supb_intro.
  - (* cheap answers for NoneType == {None} only *)
    intros b. unfold cheap. cbn [ty_eqb]. destruct ((c =? id_NoneType) && is_none_enum (PEnum ls)); [now inversion 1|].
    cbn. rewrite ?andb_false_r. cbn. discriminate.
  - intros _. unfold structural. cbn [orM]. destruct (is_natbool (TMono c)) eqn:Hnb.
    + (* Nat or Bool: the class is read as a refinement of Int, and the predicate of that is above the enum *)
      unfold is_natbool, is_c in Hnb. apply orb_prop in Hnb. destruct Hnb as [E|E]; apply Z.eqb_eq in E; subst c.
      * change (ref_ref recb (TMono id_Int) pred_nat (TMono id_Nat) (PEnum ls) = Some true). unfold ref_ref.
        replace (recb (TMono id_Int) (TMono id_Nat)) with (Some true) by (vm_compute; reflexivity).
        unfold pred_nat, is_super_pred. now rewrite ge0_enum.
      * change (ref_ref recb (TMono id_Int) pred_bool (TMono id_Bool) (PEnum ls) = Some true). unfold ref_ref.
        replace (recb (TMono id_Int) (TMono id_Bool)) with (Some true) by (vm_compute; reflexivity).
        unfold pred_bool, is_super_pred. now rewrite bool_enum.
    + destruct (is_none_enum (PEnum ls)) eqn:Hne.
      * apply none_enum_inv in Hne. injection Hne as ->. rewrite <- (Hall LNone (or_introl eq_refl)). apply recb_intro, supb_refl.
      * rewrite (recb_intro _ _ (supb_refl (TMono c))). reflexivity.
Qed.

Lemma wf_enum_inv ls :
  wf (enum_ty ls) = true ->
  exists l0 r, ls = l0 :: r /\ (forall l, In l ls -> lit_class l = lit_class l0).
Proof.
  unfold enum_ty. destruct ls as [|l0 r]; [discriminate|]. rewrite lit_class_mono. cbn [wf]. intros H.
  apply andb_prop in H. destruct H as [_ H]. exists l0, r. split; [reflexivity|].
  intros l Hl. exact (wf_ref_enum_class _ _ l H Hl).
Qed.
