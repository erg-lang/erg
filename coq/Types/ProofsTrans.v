(** C06 — transitivity on all builtin nominal types outside the gap class ([sub_trans_nominal_l]); inside it, every triple
    of [gap_witnesses] (ProofsRefute.v) refutes it ([gap_witnesses_refute]) *)
From Coq Require Import ZArith List Bool.
From ErgV Require Import gen.Classes Types.Model Types.Spec Types.ProofsBasic Types.ProofsReach Types.ProofsInv Types.ProofsRefute.
Import ListNotations.
Open Scope Z_scope.

Lemma structural_mono_false b t :
  match t with TObj | TNever | TMono _ | TPoly _ => True | _ => False end -> structural recb (TMono b) t = Some false.
Proof. destruct t; try contradiction; reflexivity. Qed.

Lemma cheap_mono_poly b h : cheap (TMono b) (TPoly h) <> Some true.
Proof.
  unfold cheap. cbn [ty_eqb is_mvc in_cs is_c andb orb]. rewrite ?andb_false_r. cbn [andb orb]. discriminate.
Qed.
Lemma cheap_mono_obj b : cheap (TMono b) TObj <> Some true.
Proof.
  unfold cheap. cbn [ty_eqb is_mvc in_cs is_c andb orb]. rewrite ?andb_false_r. cbn [andb orb].
  destruct (existsb (Z.eqb b) mono_value_classes); discriminate.
Qed.

(* an entry of a super-type list is a nominal type, Obj, Never or a super type with arguments: above it a nominal type
   is judged by cheap_supertype_of alone *)
Lemma entry_mono_cheap b s : entry_true recb (TMono b) s -> cheap (TMono b) (ty_of_sup s) = Some true.
Proof.
  intros [H|[_ H]]; [exact H|]. rewrite structural_mono_false in H; [discriminate|].
  unfold ty_of_sup, ty_of_id. destruct (snd s); [exact I|]. destruct (_ =? _); [exact I|]. now destruct (_ =? _).
Qed.

(* on two nominal types the judgement answers from the tower of cheap_supertype_of, or from an entry of a super-type
   list of the lower one that the tower relates to the upper one: either way a path of the graph *)
Lemma sub_reach a b : registered_mono a = true -> sub (TMono a) (TMono b) = true -> reach a b = true.
Proof.
  intros Ha H. change (supb (TMono b) (TMono a) = true) in H.
  pose proof (supb_unfold (TMono b) (TMono a)) as Hu. rewrite H in Hu.
  destruct (cheap (TMono b) (TMono a)) as [c|] eqn:Hc.
  { injection Hu as <-. exact (cheap_mono_reach b a Hc). }
  rewrite structural_mono_false in Hu by exact I. cbn [orM] in Hu. symmetry in Hu.
  destruct (nominal_inv _ _ _ Hu) as [row [[i p] [Hctx [Hs Hcs]]]]. cbn [ctx_of] in Hctx.
  pose proof (sup_not_never row _ (proj1 (lookup_in a row Hctx)) Hs) as Hnn. apply entry_mono_cheap in Hcs.
  unfold ty_of_sup, ty_of_id in Hcs. cbn [fst snd] in Hcs, Hnn. destruct p.
  - (* a super type with arguments: never above a nominal type *)
    exfalso. exact (cheap_mono_poly b i Hcs).
  - rewrite andb_true_r in Hnn. rewrite Hnn in Hcs. destruct (i =? id_Obj).
    + exfalso. exact (cheap_mono_obj b Hcs).
    + apply (reach_trans a i b Ha); [|exact (cheap_mono_reach b i Hcs)].
      exact (reach_step a i (sups_in_succs (a, false) row (i, false) Hctx Hs)).
Qed.

Lemma registered_ty_of_id c : registered_mono c = true -> ty_of_id c = TMono c.
Proof.
  unfold registered_mono, ty_of_id. destruct (lookup c) as [[[[[i nm] [[p cl] tr]] sc] st]|]; [|discriminate].
  intros H. apply andb_prop in H. destruct H as [H H2]. apply andb_prop in H. destruct H as [_ H1].
  apply negb_true_iff in H1. apply negb_true_iff in H2. now rewrite H1, H2.
Qed.

Lemma sub_trans_nominal_l a b c :
  registered_mono a = true -> registered_mono b = true -> registered_mono c = true -> mono_gap a c = false ->
  sub (TMono a) (TMono b) = true -> sub (TMono b) (TMono c) = true -> sub (TMono a) (TMono c) = true.
Proof.
  intros Ha Hb Hc Hg Hab Hbc. pose proof (reach_trans a b c Ha (sub_reach a b Ha Hab) (sub_reach b c Hb Hbc)) as Hr.
  rewrite mono_gap_unfold, Hr, (registered_ty_of_id c Hc) in Hg. cbn [andb] in Hg.
  now apply negb_false_iff in Hg.
Qed.

(* three registered nominal types on which the judgement fails to be transitive are in the gap class: otherwise
   [sub_trans_nominal_l] would give the third answer *)
Lemma nominal_gap_refutes a b c :
  registered_mono a = true -> registered_mono b = true -> registered_mono c = true ->
  sub (TMono a) (TMono b) = true -> sub (TMono b) (TMono c) = true -> sub (TMono a) (TMono c) = false ->
  refutes (TMono a) (TMono b) (TMono c) 4.
Proof.
  intros Ha Hb Hc Hab Hbc Hac. repeat split; try assumption.
  unfold known_trans. cbn [has_not has_list leaves existsb orb andb]. destruct (mono_gap a c) eqn:G; [reflexivity|].
  rewrite (sub_trans_nominal_l a b c Ha Hb Hc G Hab Hbc) in Hac. discriminate.
Qed.

(* [gap_witnesses] keeps a triple only under the five tests that make it one *)
Lemma gap_witnesses_refute a b c : In (a, b, c) gap_witnesses -> refutes (TMono a) (TMono b) (TMono c) 4.
Proof.
  unfold gap_witnesses. rewrite in_flat_map. intros (r & _ & H). cbv beta zeta in H.
  destruct (registered_mono (row_id r)) eqn:Ha; [|destruct H].
  apply in_flat_map in H as ([b' []] & _ & H); [destruct H|]. cbn [fst snd] in H.
  destruct (lookup b'); [|destruct H].
  apply in_flat_map in H as ([c' []] & _ & H); [destruct H|]. cbn [fst snd] in H.
  destruct (_ && _) eqn:E in H; [|destruct H]. destruct H as [H|[]]. injection H as <- <- <-.
  repeat (apply andb_prop in E as [E ?]). apply nominal_gap_refutes; try assumption. now apply negb_true_iff.
Qed.
