(** C06 — the super-type graph of the class table (coq/gen/Classes.v): its upward closure [up_iter], reachability
    [reach], and the pairs of nominal types that cheap_supertype_of answers from its hard-wired tower *)
From Coq Require Import ZArith List Bool Lia.
From ErgV Require Import Common.Lists gen.Classes Types.Model Types.Spec.
Import ListNotations.
Open Scope Z_scope.

Lemma node_eqb_eq a b : node_eqb a b = true -> a = b.
Proof.
  destruct a as [x p], b as [y q]. unfold node_eqb. cbn. intros H. apply andb_prop in H. destruct H as [H1 H2].
  apply Z.eqb_eq in H1. apply eqb_prop in H2. now subst.
Qed.
Lemma node_eqb_refl a : node_eqb a a = true.
Proof. destruct a. unfold node_eqb. cbn. now rewrite Z.eqb_refl, eqb_reflx. Qed.
Lemma node_mem_In n l : node_mem n l = true <-> In n l.
Proof. apply existsb_eqb_In. intros x y. split; [apply node_eqb_eq|intros <-; apply node_eqb_refl]. Qed.

Lemma lookup_in c r : lookup c = Some r -> In r classes /\ row_id r = c.
Proof.
  unfold lookup. intros H. apply find_some in H. destruct H as [H1 H2]. apply Z.eqb_eq in H2. auto.
Qed.
Lemma registered_in c : registered_mono c = true -> exists r, In r classes /\ row_id r = c.
Proof.
  unfold registered_mono. destruct (lookup c) as [r|] eqn:E; [|discriminate]. intros _.
  destruct (lookup_in c r E) as [H1 H2]. eauto.
Qed.
Lemma vc_registered c : In c value_classes -> registered_mono c = true.
Proof.
  assert (H : forallb registered_mono value_classes = true) by (vm_compute; reflexivity).
  rewrite forallb_forall in H. exact (H c).
Qed.

Definition sups_of (r : row) : list (Z * bool) := row_sc r ++ row_st r.

Lemma sups_in_succs n r s : lookup (fst n) = Some r -> In s (sups_of r) -> In s (succs n).
Proof. intros H Hs. unfold succs. rewrite H. apply in_or_app. left. exact Hs. Qed.

Lemma sups_forall (p : Z * bool -> bool) :
  forallb (fun r => forallb p (sups_of r)) classes = true -> forall r s, In r classes -> In s (sups_of r) -> p s = true.
Proof.
  intros H r s Hr Hs. rewrite forallb_forall in H. specialize (H r Hr). rewrite forallb_forall in H. exact (H s Hs).
Qed.

Lemma sup_not_never r s : In r classes -> In s (sups_of r) -> (fst s =? id_Never) && negb (snd s) = false.
Proof.
  intros Hr Hs. apply negb_true_iff.
  exact (sups_forall (fun s => negb ((fst s =? id_Never) && negb (snd s))) ltac:(vm_compute; reflexivity) r s Hr Hs).
Qed.

Lemma node_add_In l n x : In x (node_add l n) <-> In x l \/ n = x.
Proof. etransitivity; [exact (In_adjoin node_mem node_mem_In n l x)|]. split; intros [H|H]; auto. Qed.
Lemma fold_add_In ns acc x : In x (fold_left node_add ns acc) <-> In x acc \/ In x ns.
Proof. exact (In_adjoin_all node_mem node_mem_In ns acc x). Qed.
Lemma round_In seen acc x :
  In x (fold_left (fun acc n => fold_left node_add (succs n) acc) seen acc) <->
  In x acc \/ exists n, In n seen /\ In x (succs n).
Proof.
  revert acc. induction seen as [|k ns IH]; intros acc; cbn [fold_left In].
  - split; [auto|]. intros [H|[n [[] _]]]. exact H.
  - rewrite IH, fold_add_In. split.
    + intros [[H|H]|[n [Hn Hx]]]; eauto.
    + intros [H|[n [[<-|Hn] Hx]]]; eauto.
Qed.

Definition closed (l : list node) : Prop := forall n, In n l -> incl (succs n) l.

Lemma up_iter_incl f seen C : closed C -> incl seen C -> incl (up_iter f seen) C.
Proof.
  intros HC. revert seen. induction f as [|f IH]; intros seen Hs; [exact Hs|]. cbn [up_iter]. apply IH.
  intros x Hx. apply round_In in Hx. destruct Hx as [Hx|[n [Hn Hx]]]; [now apply Hs|].
  exact (HC n (Hs n Hn) x Hx).
Qed.

(* [steps k n x]: a path of k edges from n to x.  [up_iter f] collects what is at most f edges away; no path of the
   table has 13 edges ([far k l] is what is exactly k edges away from l), so what 12 rounds collect is closed. *)
Fixpoint steps (k : nat) (n x : node) : Prop :=
  match k with O => n = x | S k => exists m, In m (succs n) /\ steps k m x end.

Lemma steps_snoc k : forall n m x, steps k n m -> In x (succs m) -> steps (S k) n x.
Proof.
  induction k as [|k IH]; intros n m x Hs Hx.
  - cbn in Hs. subst m. exists x. split; [exact Hx|reflexivity].
  - destruct Hs as [m' [Hm' Hs]]. exists m'. split; [exact Hm'|exact (IH m' m x Hs Hx)].
Qed.

Lemma up_iter_steps f : forall seen x,
  In x (up_iter f seen) <-> exists k n, (k <= f)%nat /\ In n seen /\ steps k n x.
Proof.
  induction f as [|f IH]; intros seen x; cbn [up_iter].
  - split; [intros H; exists O, x; cbn; auto|]. intros [k [n [Hk [Hn Hs]]]]. assert (k = O) by lia. subst k. cbn in Hs. now subst.
  - rewrite IH. split; intros [k [n [Hk [Hn Hs]]]].
    + apply round_In in Hn. destruct Hn as [Hn|[n0 [Hn0 Hn]]].
      * exists k, n. auto.
      * exists (S k), n0. split; [lia|]. split; [exact Hn0|exists n; auto].
    + destruct k as [|k].
      * exists O, n. split; [lia|]. split; [apply round_In; now left|exact Hs].
      * destruct Hs as [m [Hm Hs]]. exists k, m. split; [lia|]. split; [apply round_In; right; eauto|exact Hs].
Qed.

Definition next (l : list node) : list node := fold_left (fun acc n => fold_left node_add (succs n) acc) l [].
Fixpoint far (k : nat) (l : list node) : list node := match k with O => l | S k => far k (next l) end.

Lemma far_steps k : forall l n x, In n l -> steps k n x -> In x (far k l).
Proof.
  induction k as [|k IH]; intros l n x Hn Hs; cbn [far steps] in *; [now subst|].
  destruct Hs as [m [Hm Hs]]. apply (IH (next l) m x); [|exact Hs]. apply round_In. right. eauto.
Qed.

Lemma no_long_path : far 13 (map (fun r : row => (row_id r, false)) classes) = [].
Proof. vm_compute. reflexivity. Qed.

Lemma up_closed a : registered_mono a = true -> closed (up_iter 12 [(a, false)]).
Proof.
  intros Ha. destruct (registered_in a Ha) as [r [Hr <-]].
  intros n Hn m Hm. apply up_iter_steps in Hn. destruct Hn as [k [n0 [Hk [[<-|[]] Hs]]]].
  pose proof (steps_snoc k _ n m Hs Hm) as Hs'. destruct (Nat.eq_dec k 12) as [->|Hne].
  - exfalso. pose proof (far_steps 13 _ _ m (in_map (fun r : row => (row_id r, false)) classes r Hr) Hs') as Hf.
    rewrite no_long_path in Hf. exact Hf.
  - apply up_iter_steps. exists (S k), (row_id r, false). split; [lia|]. split; [now left|exact Hs'].
Qed.

(* [reach] and [mono_gap] are used through these two equations only: unfolding them in place leaves the kernel a
   conversion in which it may normalise [up_iter 12] on a variable before it unfolds [reach]. *)
Lemma reach_In a c : reach a c = true <-> In (c, false) (up_iter 12 [(a, false)]).
Proof. exact (node_mem_In (c, false) (up_iter 12 [(a, false)])). Qed.
Lemma mono_gap_unfold a c : mono_gap a c = reach a c && negb (sub (TMono a) (ty_of_id c)).
Proof. reflexivity. Qed.

Lemma reach_refl a : reach a a = true.
Proof. apply reach_In, up_iter_steps. exists O, (a, false). split; [lia|]. split; [now left|reflexivity]. Qed.
Lemma reach_step a b : In (b, false) (succs (a, false)) -> reach a b = true.
Proof.
  intros H. apply reach_In, up_iter_steps. exists 1%nat, (a, false). split; [lia|]. split; [now left|].
  exists (b, false). split; [exact H|reflexivity].
Qed.

Lemma reach_trans a b c : registered_mono a = true -> reach a b = true -> reach b c = true -> reach a c = true.
Proof.
  intros Ha Hab Hbc. apply reach_In. apply reach_In in Hab, Hbc.
  apply (up_iter_incl 12 [(b, false)] _ (up_closed a Ha)); [|exact Hbc]. intros x [<-|[]]. exact Hab.
Qed.

(* (lower, upper): on two nominal types, cheap_supertype_of answers true along these pairs only: a class of the numeric
   tower with any later one, and the two kinds of Type.  [succs] has the edges between neighbours. *)
Fixpoint pairs (l : list Z) : list (Z * Z) :=
  match l with [] => [] | x :: r => map (fun y => (x, y)) r ++ pairs r end.
Definition cheap_edges : list (Z * Z) := pairs tower ++ [(id_ClassType, id_Type); (id_TraitType, id_Type)].

Lemma tower_edge_reach a b : In (a, b) tower_edges -> reach a b = true.
Proof.
  intros H. apply reach_step. unfold succs. apply in_or_app. right. cbn [fst snd].
  apply in_map_iff. exists (a, b). split; [reflexivity|]. apply filter_In. split; [exact H|apply Z.eqb_refl].
Qed.

Fixpoint chain (l : list Z) : Prop :=
  match l with x :: (y :: _) as r => reach x y = true /\ chain r | _ => True end.

Lemma chain_head a r : (forall x, In x (a :: r) -> registered_mono x = true) -> chain (a :: r) ->
  forall y, In y r -> reach a y = true.
Proof.
  revert a. induction r as [|b r IH]; intros a Hreg Hch y Hy; [contradiction|]. destruct Hch as [Hab Hch].
  destruct Hy as [<-|Hy]; [exact Hab|].
  apply (reach_trans a b y (Hreg a (or_introl eq_refl)) Hab). apply (IH b); [intros x Hx; apply Hreg; now right|exact Hch|exact Hy].
Qed.
Lemma chain_pairs l : (forall x, In x l -> registered_mono x = true) -> chain l ->
  forall x y, In (x, y) (pairs l) -> reach x y = true.
Proof.
  induction l as [|a r IH]; intros Hreg Hch x y H; [contradiction|]. cbn [pairs] in H. apply in_app_or in H. destruct H as [H|H].
  - apply in_map_iff in H. destruct H as [y' [[= <- <-] Hy]]. exact (chain_head a r Hreg Hch y' Hy).
  - apply IH; [intros z Hz; apply Hreg; now right| |exact H]. destruct r as [|b r]; [exact I|exact (proj2 Hch)].
Qed.

Lemma cheap_edge_reach lo hi : In (lo, hi) cheap_edges -> reach lo hi = true.
Proof.
  intros H. apply in_app_or in H. destruct H as [H|H].
  - apply (chain_pairs tower); [| |exact H].
    + intros x Hx. apply vc_registered. cbn in Hx |- *. intuition.
    + cbn [chain tower]. repeat (apply conj; [apply tower_edge_reach; cbn; auto 10|]). exact I.
  - apply tower_edge_reach. cbn in H |- *. intuition.
Qed.

(* [H : existsb (Z.eqb x) [c1; ..; cn] = true]: one goal for each member, with it in the place of x *)
Ltac in_list H :=
  cbn [existsb] in H;
  repeat (apply orb_prop in H; destruct H as [H|H]); try discriminate; apply Z.eqb_eq in H; subst.

Lemma cheap_mono_edge x y :
  cheap (TMono x) (TMono y) = Some true -> x = y \/ In (y, x) cheap_edges.
Proof.
  unfold cheap. cbn [ty_eqb]. destruct (x =? y) eqn:E; [apply Z.eqb_eq in E; auto|].
  cbn [is_mvc in_cs is_c andb orb]. rewrite ?andb_false_r.
  (* the test of the numeric tower *)
  match goal with |- (if ?c then _ else _) = _ -> _ => destruct c eqn:Et end.
  { intros _. right.
    repeat (apply orb_prop in Et; destruct Et as [Et|Et]);
      apply andb_prop in Et; destruct Et as [Hx Hy]; apply Z.eqb_eq in Hy; subst y; in_list Hx;
        try (rewrite Z.eqb_refl in E; discriminate); cbv beta iota delta [cheap_edges pairs tower map app In]; auto 30. }
  (* Type above ClassType, TraitType *)
  match goal with |- (if ?c then _ else _) = _ -> _ => destruct c eqn:Ety end.
  { intros _. right. apply andb_prop in Ety. destruct Ety as [H1 H2]. apply Z.eqb_eq in H1. subst x.
    in_list H2; cbv beta iota delta [cheap_edges pairs tower map app In]; auto 30. }
  destruct (existsb (Z.eqb x) mono_value_classes && existsb (Z.eqb y) mono_value_classes); discriminate.
Qed.

Lemma cheap_mono_reach x y : cheap (TMono x) (TMono y) = Some true -> reach y x = true.
Proof. intros H. destruct (cheap_mono_edge x y H) as [->|He]; [apply reach_refl|now apply cheap_edge_reach]. Qed.
