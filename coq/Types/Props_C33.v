(** C33 — property theorems (the lemmas they are derived from are in ProofsMatch.v).
    [accepted T arms]: the checker's acceptance of `match x: arms` for x: T (Types/Match.v): T <: Context::union of the pattern
    types; [den]: the set-theoretic reading of a type (Types/Spec.v); [rt_test]: the arm test that runs (codegen.rs +
    _erg_contains_operator.py). *)
From Coq Require Import ZArith List Bool.
From ErgV Require Import gen.Classes Types.Model Types.Spec Types.Match Types.ProofsMatch.
Import ListNotations.
Open Scope Z_scope.

(** 1. an accepted match is exhaustive: every value of the scrutinee type is a value of the pattern type of some arm
    (from the soundness of the subtype judgement, C06 sub_sound; the union of the pattern types adds no value) *)
Theorem match_exhaustive : forall T arms u,
  frag T = true -> union_arms arms = Some u -> frag u = true -> sub T u = true ->
  forall v, den T v = true -> exists a, In a arms /\ den (arm_ty a) v = true.
Proof.
  intros T arms u HT Hu Hfu Hs v Hd. exact (union_arms_den arms u v Hu (ProofsSound.sub_sound_l T u HT Hfu Hs v Hd)).
Qed.
Example match_exhaustive_nonvacuous :
  let T := TOr [TMono id_Int; TMono id_Str] in
  let arms := [ALit (LInt 1); ATy (TMono id_Nat); ATy (TMono id_Str); AWild] in
  frag T = true /\ (exists u, union_arms arms = Some u /\ frag u = true /\ sub T u = true) /\ den T (VInt (-5)) = true.
Proof.
  split; [reflexivity|]. split; [eexists; split; [vm_compute; reflexivity|]; split; reflexivity|].
  apply (ProofsDen.den_or_intro _ (TMono id_Int)); [now left|]. exact (ProofsDen.den_vc id_Int _ ProofsDen.in_vc_Int).
Qed.

(** 2. the arm test that runs decides membership in the arm's pattern type, on the Int / Str / Bool fragment (classes Bool Nat
    Int Str NoneType, enums and intervals of them, unions; values without floats and lists), outside the known class:
    a pattern type that mentions Bool, at the integers 0 and 1 (the checker reads Bool as {0, 1}, the class test does not) *)
Theorem arm_test_exact : forall a v,
  c33_arm a = true -> c33_val v = true -> arm_bool_int a v = false -> rt_test a v = den (arm_ty a) v.
Proof.
  intros [l|t|]; cbn [c33_arm arm_bool_int rt_test arm_ty]; intros v Ha Hv Hk;
    [now apply rt_lit_den|now apply rt_in_den|reflexivity].
Qed.
Example arm_test_exact_nonvacuous :
  let a := ATy (TOr [interval_ty (TMono id_Nat) IClosed 1 10; TMono id_Str]) in
  c33_arm a = true /\ c33_val (VInt 10) = true /\ arm_bool_int a (VInt 10) = false /\ rt_test a (VInt 10) = true.
Proof. vm_compute. repeat split; reflexivity. Qed.

(** 3. known finding (known/C33.json): x: {1} with the arms `_: Bool`, `_: Str` is accepted; for x = 1 the Bool test fails at run
    time and the last arm, Str, runs: the value is matched by no arm that runs *)
Theorem match_bool_refuted :
  let arms := [ATy (TMono id_Bool); ATy (TMono id_Str)] in
  accepted (enum_ty [LInt 1]) arms = Some true /\ den (enum_ty [LInt 1]) (VInt 1) = true /\
  rt_select arms (VInt 1) = 1 /\ judge_arm arms 1 (VInt 1) = false /\ known_bool_int arms (VInt 1) = true.
Proof.
  split; [vm_compute; reflexivity|]. split; [symmetry; exact (rt_lit_den (LInt 1) (VInt 1) eq_refl)|].
  split; [reflexivity|]. split; [|reflexivity].
  (* the arm that ran is Str; on a value class [den] is [prim] *)
  exact (ProofsDen.den_vc id_Str (VInt 1) ltac:(cbn; tauto)).
Qed.
