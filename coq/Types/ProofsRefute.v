(** C06 — triples that refute transitivity (known/C06.json): [refutes], and those the class table holds for class 4 *)
From Coq Require Import ZArith List Bool Arith Lia.
From ErgV Require Import gen.Classes Types.Model Types.Spec.
Import ListNotations.
Open Scope Z_scope.

(* a triple through two super-type lists whose composition is missing from the first *)
Definition gap_witnesses : list (Z * Z * Z) :=
  flat_map (fun r : row =>
    let a := row_id r in
    if registered_mono a then
      flat_map (fun sb : Z * bool =>
        if snd sb then ([] : list (Z * Z * Z)) else
          match lookup (fst sb) with
          | Some rb =>
            flat_map (fun sc : Z * bool =>
              if snd sc then ([] : list (Z * Z * Z))
              else if registered_mono (fst sb) && registered_mono (fst sc)
                      && negb (sub (TMono a) (TMono (fst sc)))
                      && sub (TMono a) (TMono (fst sb)) && sub (TMono (fst sb)) (TMono (fst sc))
                   then [(a, fst sb, fst sc)] else []) (row_sc rb ++ row_st rb)
          | None => []
          end) (row_sc r ++ row_st r)
    else []) classes.

Definition refutes (s m t : ty) (k : Z) : Prop :=
  sub s m = true /\ sub m t = true /\ sub s t = false /\ known_trans s m t = k.
