(** C15 — what both readers share: the writer as a function ([wr]), sizes and fuel ([fits]), what it is for a
    reader to take a block of bytes off the front of its input ([reads]), and how an object reader steps over a type
    code ([freads_tag]) and through the elements of a sequence ([seq_rt]) *)
From Coq Require Import ZArith List Bool Lia.
From ErgV Require Import Common.Lists Common.Sx gen.MarshalTab Marshal.Model Marshal.Spec.
Import ListNotations.
Open Scope Z_scope.
(* lets lia reason about division and remainder by constants; in force in every file that imports this one *)
Ltac Zify.zify_post_hook ::= Z.to_euclidean_division_equations.

Lemma len_app {A} (a b : list A) : len (a ++ b) = len a + len b.
Proof. unfold len. rewrite app_length. lia. Qed.
Lemma len_cons {A} (x : A) l : len (x :: l) = 1 + len l.
Proof. unfold len. cbn [length]. lia. Qed.
Lemma len_nonneg {A} (l : list A) : 0 <= len l.
Proof. unfold len. lia. Qed.
Lemma len_nil {A} : len (@nil A) = 0. Proof. reflexivity. Qed.

Lemma splitz_app : forall a r, splitz (a ++ r) (len a) = Some (a, r).
Proof.
  induction a as [|x a IH]; intro r.
  - cbn [app]. rewrite len_nil. destruct r; reflexivity.
  - cbn [app splitz]. rewrite len_cons. pose proof (len_nonneg a).
    destruct (1 + len a <=? 0) eqn:E; [lia|].
    replace (1 + len a - 1) with (len a) by lia. rewrite IH. reflexivity.
Qed.

Lemma splitz_spec : forall bs n a r, splitz bs n = Some (a, r) -> bs = a ++ r /\ len a = Z.max 0 n.
Proof.
  induction bs as [|b bs IH]; intros n a r H; cbn [splitz] in H; destruct (n <=? 0) eqn:E.
  1, 3: injection H as <- <-; split; [reflexivity|rewrite len_nil; lia].
  - discriminate.
  - destruct (splitz bs (n - 1)) as [[a' r']|] eqn:E2; [|discriminate]. injection H as <- <-.
    apply IH in E2 as [-> E3]. split; [reflexivity|]. rewrite len_cons. lia.
Qed.

Lemma le_bytes_length : forall n z, length (le_bytes n z) = n.
Proof. induction n; intro z; cbn [le_bytes length]; [reflexivity|]. now rewrite IHn. Qed.
Lemma le_bytes_len : forall n z, len (le_bytes n z) = Z.of_nat n.
Proof. intros. unfold len. now rewrite le_bytes_length. Qed.

Lemma le_val_le_bytes : forall n z, le_val (le_bytes n z) = z mod 256 ^ Z.of_nat n.
Proof.
  induction n; intro z.
  - cbn. now rewrite Z.mod_1_r.
  - cbn [le_bytes le_val]. rewrite IHn. rewrite Nat2Z.inj_succ, Z.pow_succ_r by lia.
    rewrite Z.rem_mul_r by lia. reflexivity.
Qed.
Lemma le_val_le_bytes_id : forall n z, 0 <= z < 256 ^ Z.of_nat n -> le_val (le_bytes n z) = z.
Proof. intros. rewrite le_val_le_bytes. now apply Z.mod_small. Qed.
Lemma to_i32_le4 z : -2147483648 <= z <= i32_max -> to_i32 (le_val (le_bytes 4 z)) = z.
Proof.
  unfold to_i32, i32_max. intro H. rewrite le_val_le_bytes. change (256 ^ Z.of_nat 4) with 4294967296.
  destruct (z mod 4294967296 <=? 2147483647) eqn:E; lia.
Qed.

Lemma is_cont_low6 x : is_cont (128 + x mod 64) = true.
Proof. unfold is_cont. lia. Qed.
Lemma if_true {A} (c : bool) (x y : A) : c = true -> (if c then x else y) = x.
Proof. now intros ->. Qed.
Lemma if_false {A} (c : bool) (x y : A) : c = false -> (if c then x else y) = y.
Proof. now intros ->. Qed.

Lemma utf8_dec_1 sp b r : b < 128 -> utf8_dec sp (b :: r) = option_map (cons b) (utf8_dec sp r).
Proof. intro H. cbn [utf8_dec]. now rewrite if_true by lia. Qed.
Lemma utf8_dec_2 sp b0 b1 r c : c = (b0 - 192) * 64 + (b1 - 128) -> 194 <= b0 < 224 -> is_cont b1 = true ->
  utf8_dec sp (b0 :: b1 :: r) = option_map (cons c) (utf8_dec sp r).
Proof.
  intros -> H H1. cbn [utf8_dec]. rewrite !(if_false (b0 <? _)) by lia. rewrite (if_true (b0 <? 224)) by lia.
  now rewrite H1.
Qed.
Lemma utf8_dec_3 sp b0 b1 b2 r c : c = (b0 - 224) * 4096 + (b1 - 128) * 64 + (b2 - 128) ->
  224 <= b0 < 240 -> is_cont b1 = true -> is_cont b2 = true -> 2048 <= c -> is_surrogate c = false ->
  utf8_dec sp (b0 :: b1 :: b2 :: r) = option_map (cons c) (utf8_dec sp r).
Proof.
  intros Ec H H1 H2 Hc Hs. cbn [utf8_dec]. rewrite !(if_false (b0 <? _)) by lia. rewrite (if_true (b0 <? 240)) by lia.
  now rewrite <- Ec, H1, H2, Hs, (proj2 (Z.leb_le 2048 c)), orb_true_r by assumption.
Qed.
Lemma utf8_dec_4 sp b0 b1 b2 b3 r c : c = (b0 - 240) * 262144 + (b1 - 128) * 4096 + (b2 - 128) * 64 + (b3 - 128) ->
  240 <= b0 < 245 -> is_cont b1 = true -> is_cont b2 = true -> is_cont b3 = true -> 65536 <= c < 1114112 ->
  utf8_dec sp (b0 :: b1 :: b2 :: b3 :: r) = option_map (cons c) (utf8_dec sp r).
Proof.
  intros Ec H H1 H2 H3 Hc. cbn [utf8_dec]. rewrite !(if_false (b0 <? _)) by lia. rewrite (if_true (b0 <? 245)) by lia.
  now rewrite <- Ec, H1, H2, H3, (proj2 (Z.leb_le 65536 c)), (proj2 (Z.ltb_lt c 1114112)) by lia.
Qed.

Lemma utf8_dec_char : forall sp c r, scalar c = true ->
  utf8_dec sp (utf8_char c ++ r) = option_map (cons c) (utf8_dec sp r).
Proof.
  intros sp c r H. unfold scalar in H. apply andb_prop in H as [H Hs]. apply negb_true_iff in Hs.
  unfold utf8_char.
  destruct (c <? 128) eqn:E1; [apply utf8_dec_1; lia|].
  destruct (c <? 2048) eqn:E2; [|destruct (c <? 65536) eqn:E3]; cbn [app].
  - apply utf8_dec_2; [lia|lia|apply is_cont_low6].
  - apply utf8_dec_3; [lia|lia|apply is_cont_low6|apply is_cont_low6|lia|assumption].
  - apply utf8_dec_4; [lia|lia|apply is_cont_low6|apply is_cont_low6|apply is_cont_low6|lia].
Qed.

Lemma utf8_cons c s : utf8 (c :: s) = utf8_char c ++ utf8 s.
Proof. reflexivity. Qed.
Lemma utf8_dec_utf8 : forall sp s, forallb scalar s = true -> utf8_dec sp (utf8 s) = Some s.
Proof.
  induction s as [|c s IH]; intro H; [reflexivity|].
  cbn [forallb] in H. apply andb_true_iff in H. destruct H as [H1 H2].
  rewrite utf8_cons, utf8_dec_char by assumption. rewrite IH by assumption. reflexivity.
Qed.
Lemma utf8_ascii : forall s, is_ascii s = true -> utf8 s = s.
Proof.
  induction s as [|c s IH]; intro H; [reflexivity|].
  unfold is_ascii in H. cbn [forallb] in H. apply andb_true_iff in H. destruct H as [H1 H2].
  rewrite utf8_cons. unfold utf8_char. rewrite H1. cbn [app]. f_equal. apply IH. exact H2.
Qed.
Lemma utf8_char_nonempty c : 1 <= len (utf8_char c).
Proof. unfold utf8_char. destruct (c <? 128), (c <? 2048), (c <? 65536); cbn; lia. Qed.

Definition digit_ok (x : Z) : Prop := 0 <= x < 32768.
Lemma digits15_spec : forall fuel n, 0 <= n < 32768 ^ Z.of_nat fuel ->
  exists ds, digits15 fuel n = Ok ds /\ digits_val ds = n /\ Forall digit_ok ds
             /\ (n = 0 -> ds = []) /\ (0 < n -> last ds 0 <> 0) /\ (length ds <= fuel)%nat.
Proof.
  induction fuel as [|f IH]; intros n Hn.
  - replace n with 0 by (cbn in Hn; lia). exists []. cbn. repeat split; auto; lia.
  - destruct (Z.eq_dec n 0) as [->|NZ]; [exists []; cbn; repeat split; auto; lia|].
    cbn [digits15]. rewrite (proj2 (Z.eqb_neq n 0)) by assumption.
    rewrite Nat2Z.inj_succ, Z.pow_succ_r in Hn by lia.
    destruct (IH (n / 32768)) as (ds & H1 & H2 & H3 & H4 & H5 & H6); [lia|].
    rewrite H1. cbn [bind]. exists (n mod 32768 :: ds). repeat split.
    + cbn [digits_val]. lia.
    + constructor; [unfold digit_ok; lia|assumption].
    + lia.
    + (* the top digit: of the quotient if that is not zero, else this one *)
      intros _. destruct ds as [|d ds']; cbn [last]; [cbn in H2; lia|].
      apply H5. destruct (Z.eq_dec (n / 32768) 0) as [Q0|]; [discriminate (H4 Q0)|lia].
    + cbn [length]. lia.
Qed.

Lemma py_digits_le2 : forall ds, Forall digit_ok ds -> py_digits (flat_map (le_bytes 2) ds) = Some ds.
Proof.
  induction ds as [|d ds IH]; intro H; [reflexivity|].
  inversion H as [|? ? Hd Hr]; subst. unfold digit_ok in Hd.
  change (flat_map (le_bytes 2) (d :: ds)) with (d mod 256 :: (d / 256) mod 256 :: flat_map (le_bytes 2) ds).
  cbn [py_digits].
  replace (d mod 256 + 256 * (d / 256 mod 256)) with d by lia.
  unfold to_i16. assert (E: (d <? 32768) = true) by lia. rewrite E.
  assert (E2: (d <? 0) = false) by lia. rewrite E2. rewrite IH by assumption. reflexivity.
Qed.
Lemma flat_map_le2_len : forall ds, len (flat_map (le_bytes 2) ds) = 2 * len ds.
Proof. induction ds; [reflexivity|]. cbn [flat_map]. rewrite len_app, IHds, len_cons, le_bytes_len. lia. Qed.

Section value_ind_nested.
  Variable P : value -> Prop.
  Hypothesis HInt : forall i, P (VInt i).
  Hypothesis HNat : forall n, P (VNat n).
  Hypothesis HFloat : forall b, P (VFloat b).
  Hypothesis HStr : forall s, P (VStr s).
  Hypothesis HBool : forall b, P (VBool b).
  Hypothesis HNone : P VNone.
  Hypothesis HTuple : forall l, Forall P l -> P (VTuple l).
  Hypothesis HList : forall l, Forall P l -> P (VList l).
  Hypothesis HCode : forall c, Forall P (consts c) -> P (VCode c).
  Hypothesis HOther : P VOther.
  Fixpoint value_ind_nested (v : value) : P v :=
    let all := Forall_all value_ind_nested in
    match v with
    | VInt i => HInt i | VNat n => HNat n | VFloat b => HFloat b | VStr s => HStr s | VBool b => HBool b
    | VNone => HNone | VTuple l => HTuple l (all l) | VList l => HList l (all l)
    | VCode c => HCode c (all (consts c)) | VOther => HOther
    end.
End value_ind_nested.

Lemma u31_spec z : u31 z = true -> 0 <= z <= i32_max.
Proof. unfold u31. lia. Qed.
Lemma ltb0 z : 0 <= z -> (z <? 0) = false.
Proof. lia. Qed.
Lemma u31_ltb0 z : u31 z = true -> (z <? 0) = false.
Proof. intro H. apply ltb0, u31_spec, H. Qed.
Lemma u31_if (c : bool) z : u31 z = true -> u31 (if c then z else 0) = true.
Proof. now destruct c. Qed.
Lemma str_ok_spec s : str_ok s = true -> forallb scalar s = true /\ len (utf8 s) <= i32_max.
Proof. unfold str_ok. intro H. apply andb_prop in H as [H1 H2]. split; [assumption|lia]. Qed.
Lemma bytes_ok_spec b : bytes_ok b = true -> len b <= i32_max.
Proof. unfold bytes_ok. intro H. apply andb_prop in H as [_ H]. lia. Qed.
Lemma strs_ok_spec l : strs_ok l = true -> forallb str_ok l = true /\ len l <= i32_max.
Proof. unfold strs_ok. intro H. apply andb_prop in H as [H1 H2]. split; [assumption|lia]. Qed.
Lemma code_fields_ok_consts {V} (c : code_ V) : code_fields_ok c = true -> len (consts c) <= i32_max.
Proof. unfold code_fields_ok. intro H. apply andb_prop in H as [H _]. apply andb_prop in H as [_ H]. lia. Qed.

(* the inner fixpoint of [serialisable] is the body of [forallb] *)
Lemma ser_tuple l : serialisable (VTuple l) = (len l <=? i32_max) && forallb serialisable l.
Proof. reflexivity. Qed.
Lemma ser_list l : serialisable (VList l) = (len l <=? i32_max) && forallb serialisable l.
Proof. reflexivity. Qed.
Lemma ser_code c : serialisable (VCode c) = code_fields_ok c && forallb serialisable (consts c).
Proof. reflexivity. Qed.

(** the writer as a plain function: what [into_bytes] returns on every serialisable value ([into_bytes_wr]) *)
Definition long_wr (n : Z) : list Z :=
  match digits15 5 n with Ok ds => pfx_Long :: le_bytes 4 (len ds) ++ flat_map (le_bytes 2) ds | _ => [] end.
Fixpoint wr (ver : Z) (v : value) {struct v} : list Z :=
  match v with
  | VInt i => pfx_Int32 :: le_bytes 4 i
  | VNat n => if i32_max <? n then long_wr n else pfx_Int32 :: le_bytes 4 n
  | VFloat b => pfx_BinFloat :: le_bytes 8 b
  | VStr s => str_into_bytes s false
  | VBool true => [pfx_True]
  | VBool false => [pfx_False]
  | VList l | VTuple l => seq_header (len l) ++ flat_map (wr ver) l
  | VNone => [pfx_None]
  | VCode c => code_into_bytes ver c (flat_map (wr ver) (consts c))
  | VOther => []
  end.

(** a Nat above i32::MAX: one to five normalised 15-bit digits *)
Lemma long_wr_spec n : 0 < n < 18446744073709551616 ->
  exists ds, long_bytes n = Ok (long_wr n) /\ long_wr n = pfx_Long :: le_bytes 4 (len ds) ++ flat_map (le_bytes 2) ds
             /\ digits_val ds = n /\ Forall digit_ok ds /\ last ds 0 <> 0 /\ 1 <= len ds <= 5.
Proof.
  intro Hn. destruct (digits15_spec 5 n) as (ds & D1 & D2 & D3 & _ & D4 & D5); [lia|].
  exists ds. unfold long_bytes, long_wr. rewrite D1. repeat split; try assumption; [now apply D4| |unfold len; lia].
  destruct ds; [cbn in D2; lia|]. rewrite len_cons. pose proof (len_nonneg ds). lia.
Qed.

Lemma into_bytes_elems ver : forall l, Forall (fun v => serialisable v = true -> into_bytes ver v = Ok (wr ver v)) l ->
  forallb serialisable l = true ->
  (fix all (l : list value) : res (list Z) :=
     match l with [] => Ok [] | x :: r => a <- into_bytes_gen true ver x ;; b <- all r ;; Ok (a ++ b) end) l
  = Ok (flat_map (wr ver) l).
Proof.
  induction l as [|x l IH]; intros HF HS; [reflexivity|].
  inversion HF as [|? ? Hx Hl]; subst. cbn [forallb] in HS. apply andb_prop in HS as [S1 S2].
  unfold into_bytes in Hx. rewrite (Hx S1). cbn [bind]. rewrite (IH Hl S2). reflexivity.
Qed.

Lemma into_bytes_wr ver : forall v, serialisable v = true -> into_bytes ver v = Ok (wr ver v).
Proof.
  induction v using value_ind_nested; intro HS; try reflexivity; unfold into_bytes; cbn [into_bytes_gen wr andb].
  - destruct (i32_max <? n) eqn:E; [|reflexivity].
    cbn [serialisable] in HS. unfold i32_max in E. destruct (long_wr_spec n) as (ds & D & _); [lia|exact D].
  - destruct b; reflexivity.
  - rewrite ser_tuple in HS. apply andb_prop in HS as [_ HS]. now rewrite (into_bytes_elems ver l H HS).
  - rewrite ser_list in HS. apply andb_prop in HS as [_ HS]. now rewrite (into_bytes_elems ver l H HS).
  - rewrite ser_code in HS. apply andb_prop in HS as [_ HS]. now rewrite (into_bytes_elems ver _ H HS).
  - discriminate.
Qed.

(** a code object is its type code 'c' and then its fields *)
Lemma code_into_bytes_hd {V} ver (c : code_ V) p : code_into_bytes ver c p = pfx_Code :: tl (code_into_bytes ver c p).
Proof. reflexivity. Qed.

Lemma flat_map_len_ge {A} (g : A -> list Z) l : Forall (fun x => 1 <= len (g x)) l -> len l <= len (flat_map g l).
Proof.
  induction 1 as [|x l Hx _ IH]; [reflexivity|]. cbn [flat_map]. rewrite len_app, len_cons. lia.
Qed.

(** fuel: both readers are run with twice the length of their input, and need twice the length of what they read *)
Definition fits (F : nat) (b : list Z) : Prop := 2 * len b <= Z.of_nat F.
Lemma fits_app F a b : fits F (a ++ b) -> fits F a /\ fits F b.
Proof. unfold fits. rewrite len_app. pose proof (len_nonneg a). pose proof (len_nonneg b). lia. Qed.
Lemma fits_S F x b : fits F (x :: b) -> exists f, F = S f /\ 2 * len b + 1 <= Z.of_nat f.
Proof.
  unfold fits. rewrite len_cons. intro H. pose proof (len_nonneg b).
  destruct F as [|f]; [lia|]. exists f. split; [reflexivity|lia].
Qed.

Lemma fits_fuel_for pre b rest : fits (fuel_for (pre ++ b ++ rest)) b.
Proof. unfold fits, fuel_for, len. rewrite !app_length. lia. Qed.

Lemma combine_const_app {A} (a : list A) (k : Z) b kb :
  combine (a ++ b) (map (fun _ => k) a ++ kb) = map (fun x => (x, k)) a ++ combine b kb.
Proof. induction a as [|x a IH]; [reflexivity|]. cbn [app map combine]. now rewrite IH. Qed.
Lemma combine_const {A} (a : list A) (k : Z) : combine a (map (fun _ => k) a) = map (fun x => (x, k)) a.
Proof. induction a as [|x a IH]; [reflexivity|]. cbn [map combine]. now rewrite IH. Qed.
Lemma map_const_len {A} (a : list A) (k : Z) : len (map (fun _ => k) a) = len a.
Proof. unfold len. now rewrite map_length. Qed.
Lemma kinds_len {A} (a b c : list A) (ka kb kc : Z) :
  len (a ++ b ++ c) = len (map (fun _ => ka) a ++ map (fun _ => kb) b ++ map (fun _ => kc) c).
Proof. now rewrite !len_app, !map_const_len. Qed.
Lemma forallb_filter {A} (p q : A -> bool) l : forallb p l = true -> forallb p (filter q l) = true.
Proof. exact (forallb_incl p l _ (incl_filter q l)). Qed.
Lemma filter_len {A} (q : A -> bool) l : len (filter q l) <= len l.
Proof. induction l as [|x l IH]; [reflexivity|]. cbn [filter]. destruct (q x); rewrite ?len_cons; lia. Qed.
Lemma forallb_const_bytes {A} (a : list A) k : 0 <= k < 256 -> forallb (fun x => (0 <=? x) && (x <? 256)) (map (fun _ => k) a) = true.
Proof. intro H. induction a; [reflexivity|]. cbn [map forallb]. rewrite IHa. lia. Qed.

Lemma strs_ok_locals (vn fv cv : list (list Z)) (q : list Z -> bool) :
  strs_ok vn = true -> strs_ok fv = true -> strs_ok cv = true -> (len vn + len fv + len cv <=? i32_max) = true ->
  strs_ok (filter q vn ++ fv ++ cv) = true.
Proof.
  intros H1 H2 H3 H4. apply strs_ok_spec in H1 as [A1 A2], H2 as [B1 B2], H3 as [C1 C2]. unfold strs_ok.
  rewrite !forallb_app, forallb_filter by assumption. rewrite B1, C1. cbn [andb].
  rewrite !len_app. pose proof (filter_len q vn). lia.
Qed.
Lemma bytes_ok_kinds (vn fv cv : list (list Z)) (q : list Z -> bool) :
  (len vn + len fv + len cv <=? i32_max) = true ->
  bytes_ok (map (fun _ => fk_Local) (filter q vn) ++ map (fun _ => fk_Free) fv
            ++ map (fun _ => (fk_Cell + fk_Local) mod 256) cv) = true.
Proof.
  intro H. unfold bytes_ok. rewrite !forallb_app, !forallb_const_bytes by (cbv; split; congruence).
  cbn [andb]. rewrite <- kinds_len, !len_app. pose proof (filter_len q vn). lia.
Qed.

(** the type codes the writer emits *)
Inductive tag := TInt | TLong | TFloat | TShort (interned : bool) | TUnicode | TStr | TTrue | TFalse | TNone
               | TSmall | TTuple | TCode.
Definition byte_of (t : tag) : Z :=
  match t with
  | TInt => pfx_Int32 | TLong => pfx_Long | TFloat => pfx_BinFloat
  | TShort i => if i then pfx_ShortAsciiInterned else pfx_ShortAscii
  | TUnicode => pfx_Unicode | TStr => pfx_Str | TTrue => pfx_True | TFalse => pfx_False | TNone => pfx_None
  | TSmall => pfx_SmallTuple | TTuple => pfx_Tuple | TCode => pfx_Code
  end.

(** Readers that take a block of bytes off the front of their input. The model writes a sequence of reads as
    ['(a, r) <- p bs ;; k a r], which is [bnd (p bs) (fun x => let (a, r) := x in k a r)] for [pbind] as for [bind]:
    [reads_bind] applies to the readers as they are defined, and is the one place where fuel and trailing bytes are
    accounted for. *)
Section Reads.
  (* the outcome type of a reader: [pres] with [POk], [pbind] or [res] with [Ok], [bind] *)
  Variable M : Type -> Type.
  Variable ret : forall A, A -> M A.
  Variable bnd : forall A B, M A -> (A -> M B) -> M B.
  Hypothesis bnd_ret : forall A B (a : A) (k : A -> M B), bnd A B (ret A a) k = k a.

  (** with fuel [F] that fits [b] (the fuel of the recursive readers [p] may call), [p] takes [b] off the front of any
      input and returns [a] *)
  Definition reads {A} (F : nat) (p : list Z -> M (A * list Z)) (b : list Z) (a : A) : Prop :=
    fits F b -> forall rest, p (b ++ rest) = ret _ (a, rest).

  Lemma reads_ret {A} F (a : A) : reads F (fun bs => ret _ (a, bs)) [] a.
  Proof. intros _ rest. reflexivity. Qed.
  Lemma reads_bind {A B} F (p : list Z -> M (A * list Z)) (k : A -> list Z -> M (B * list Z)) b b' a c :
    reads F p b a -> reads F (k a) b' c ->
    reads F (fun bs => bnd _ _ (p bs) (fun x => let (a, r) := x in k a r)) (b ++ b') c.
  Proof.
    intros Hp Hk HF rest. apply fits_app in HF as [H1 H2].
    rewrite <- app_assoc, Hp, bnd_ret by assumption. now apply Hk.
  Qed.
  (* the last read of a sequence: what follows it only builds the result *)
  Lemma reads_last {A B} F (p : list Z -> M (A * list Z)) (k : A -> list Z -> M (B * list Z)) b a c :
    reads F p b a -> (forall r, k a r = ret _ (c, r)) ->
    reads F (fun bs => bnd _ _ (p bs) (fun x => let (a, r) := x in k a r)) b c.
  Proof. intros Hp Hk HF rest. rewrite Hp, bnd_ret by assumption. apply Hk. Qed.

  (** a field that only some versions carry *)
  Lemma reads_if {A} F (c : bool) (p : list Z -> M (A * list Z)) b a a0 :
    reads F p b a -> reads F (fun bs => if c then p bs else ret _ (a0, bs)) (if c then b else []) (if c then a else a0).
  Proof. destruct c; [trivial|intros _; apply reads_ret]. Qed.
  Lemma reads_unless {A} F (c : bool) (p : list Z -> M (A * list Z)) b a a0 :
    reads F p b a -> reads F (fun bs => if c then ret _ (a0, bs) else p bs) (if negb c then b else []) (if c then a0 else a).
  Proof. destruct c; [intros _; apply reads_ret|trivial]. Qed.

  (** An object reader: [obj F d] reads one object with fuel [F] at nesting depth [d] *)
  Section Reader.
    Variable X : Type.
    Variable obj : nat -> Z -> list Z -> M (X * list Z).
    Definition freads (d : Z) (b : list Z) (a : X) : Prop := forall F, reads F (obj F d) b a.

    Section Tag.
      Variable lim : Z.
      Variable over : M (X * list Z).
      Variable arm : tag -> nat -> Z -> list Z -> M (X * list Z).
      (* on a type code of the writer [obj] spends one unit of fuel, tests the depth and goes on with the arm of that code *)
      Hypothesis obj_arm : forall t f d r, obj (S f) d (byte_of t :: r) = if lim <=? d then over else arm t f d r.
      Lemma freads_tag t d b a : d < lim ->
        (forall f rest, 2 * len b + 1 <= Z.of_nat f -> arm t f d (b ++ rest) = ret _ (a, rest)) -> freads d (byte_of t :: b) a.
      Proof.
        intros Hd H F HF rest. destruct (fits_S _ _ _ HF) as (f & -> & Hf). cbn [app].
        rewrite obj_arm, (proj2 (Z.leb_gt lim d) Hd). apply H, Hf.
      Qed.
    End Tag.

    (* [seq F d n] reads [n] objects, spending one unit of fuel on each; with no fuel [obj] reads nothing, so a block it
       reads is never empty *)
    Section Loop.
      Variable seq : nat -> Z -> Z -> list Z -> M (list X * list Z).
      Hypothesis obj_0 : forall d bs y, obj 0%nat d bs <> ret _ y.
      Hypothesis seq_0 : forall f d bs, seq f d 0 bs = ret _ ([], bs).
      Hypothesis seq_S : forall f d n bs, 0 < n -> seq (S f) d n bs =
        bnd _ _ (obj f d bs) (fun x => let (a, r) := x in
        bnd _ _ (seq f d (n - 1) r) (fun y => let (l, r') := y in ret _ (a :: l, r'))).

      Lemma freads_nonempty d b a : freads d b a -> 1 <= len b.
      Proof using obj_0.
        intro H. destruct b; [destruct (obj_0 _ _ _ (H 0%nat (Z.le_refl 0) []))|]. rewrite len_cons. apply Z.le_sub_le_add_l, len_nonneg.
      Qed.
      Lemma seq_rt {A} d (g : A -> list Z) (h : A -> X) : forall l, Forall (fun x => freads d (g x) (h x)) l ->
        forall F rest, 2 * len (flat_map g l) + 1 <= Z.of_nat F ->
        seq F d (len l) (flat_map g l ++ rest) = ret _ (map h l, rest).
      Proof.
        induction 1 as [|x l Hx _ IH]; intros F rest HF; [apply seq_0|].
        cbn [flat_map map] in *. rewrite len_app in HF. pose proof (freads_nonempty _ _ _ Hx).
        pose proof (len_nonneg (flat_map g l)). pose proof (len_nonneg l).
        destruct F as [|f]; [lia|]. rewrite len_cons, seq_S by lia. rewrite <- app_assoc, Hx, bnd_ret by (unfold fits; lia).
        replace (1 + len l - 1) with (len l) by lia. rewrite IH, bnd_ret by lia. reflexivity.
      Qed.
    End Loop.
  End Reader.
End Reads.
Arguments reads {M} ret {A} F p b a.
Arguments freads {M} ret {X} obj d b a.
