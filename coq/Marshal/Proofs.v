(** C15 — whole files, and totality of the three entry points of the reader *)
From Coq Require Import ZArith List Bool Lia.
From ErgV Require Import gen.MarshalTab Marshal.Model Marshal.Spec.
From ErgV Require Import Marshal.ProofsBase Marshal.ProofsErg Marshal.ProofsTotal.
Import ListNotations.
Open Scope Z_scope.

Lemma ver_of_magic_in_range t m v : ver_of_magic_in t m = Some v -> exists lo hi, In (lo, hi, v) t /\ lo <= m <= hi.
Proof.
  induction t as [|[[lo hi] w] t IH]; cbn [ver_of_magic_in]; [discriminate|].
  destruct ((lo <=? m) && (m <=? hi)) eqn:E; intro H.
  - injection H as ->. exists lo, hi. split; [now left|lia].
  - destruct (IH H) as (lo' & hi' & Hin & Hm). exists lo', hi'. split; [now right|assumption].
Qed.
(** every known magic number fits the two bytes it is stored in *)
Lemma ver_of_magic_bound m v : ver_of_magic m = Some v -> 0 <= m < 65536.
Proof.
  intro H. apply ver_of_magic_in_range in H as (lo & hi & Hin & Hm).
  assert (T : forallb (fun r => (0 <=? fst (fst r)) && (snd (fst r) <? 65536)) magic_ranges = true) by reflexivity.
  rewrite forallb_forall in T. apply T in Hin. cbn [fst snd] in Hin. lia.
Qed.
(** 168624128 = 0x0A0D0000: the magic number occupies the two low bytes, "\r\n" the two high ones *)
Lemma lor_magic m : 0 <= m < 65536 -> Z.lor 168624128 m = 168624128 + m.
Proof.
  intro H. assert (L : Z.land 168624128 m = 0).
  { rewrite <- (Z.mod_small m (2 ^ 16)), <- Z.land_ones by lia.
    rewrite (Z.land_comm m), Z.land_assoc, Z.land_ones by lia. reflexivity. }
  rewrite <- Z.lxor_lor by assumption. symmetry. now apply Z.add_nocarry_lxor.
Qed.

Lemma magic_of_le4 L : nth 0 (le_bytes 4 L) 0 + 256 * nth 1 (le_bytes 4 L) 0 = L mod 65536.
Proof. cbn [le_bytes nth]. lia. Qed.

Lemma read_pyc_write_all magic ts ver c rest : ver_of_magic magic = Some ver -> 0 <= ts < 4294967296 ->
  serialisable (VCode c) = true -> vdepth (VCode c) <= 129 ->
  exists b, into_bytecode magic ts c = Ok b
            /\ read_pyc (b ++ rest) = Ok (ver, norm_code ver c (map (norm ver) (consts c))).
Proof.
  intros Hm Hts HS Hd. pose proof (ver_of_magic_bound _ _ Hm) as Hmb.
  unfold into_bytecode, into_bytecode_gen. rewrite Hm.
  change (into_bytes_gen true ver (VCode c)) with (into_bytes ver (VCode c)).
  rewrite into_bytes_wr by assumption. cbn [bind]. eexists. split; [reflexivity|].
  rewrite lor_magic by assumption.
  unfold read_pyc, read_pyc_gen. rewrite <- !app_assoc, (take_app 4) by (now rewrite le_bytes_len). cbn [bind].
  rewrite magic_of_le4. replace ((168624128 + magic) mod 65536) with magic by lia. rewrite Hm.
  change [0; 0; 0; 0] with (le_bytes 4 0).
  rewrite (rd_u32_le4 0) by lia. cbn [bind]. rewrite (rd_u32_le4 ts) by lia. cbn [bind]. rewrite (rd_u32_le4 0) by lia. cbn [bind].
  change (from_bytes_gen true ver) with (from_bytes ver). now rewrite from_bytes_write_all.
Qed.

Lemma calm_read_const ver bs : calm (read_const ver bs).
Proof.
  unfold read_const, read_const_gen. eapply post_mono, (safe_rd_const _ _ _ (length bs)); [trivial|unfold fuel_for; lia|lia].
Qed.
Lemma fine_from_bytes_gen ver bs : fine (length bs) (from_bytes_gen true ver bs).
Proof. unfold from_bytes_gen. apply fine_from_bytes; [apply safe_rd_const; unfold fuel_for; lia|lia]. Qed.
Lemma calm_from_bytes ver bs : calm (from_bytes ver bs).
Proof. eapply post_mono, fine_from_bytes_gen. trivial. Qed.
Lemma calm_read_pyc bs : calm (read_pyc bs).
Proof.
  unfold read_pyc, read_pyc_gen.
  eapply post_bind; [now apply (safe_take 4 (length bs))|]. intros [m r] _.
  destruct (ver_of_magic _) as [ver|]; [|exact I].
  eapply post_bind; [now apply (safe_rd_u32 (length r))|]. intros [_ r1] _.
  eapply post_bind; [now apply (safe_rd_u32 (length r1))|]. intros [_ r2] _.
  eapply post_bind; [now apply (safe_rd_u32 (length r2))|]. intros [_ r3] _.
  eapply post_bind; [apply fine_from_bytes_gen|]. now intros [c r4].
Qed.
