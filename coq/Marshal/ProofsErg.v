(** C15 — erg's reader reads back what the writer wrote *)
From Coq Require Import ZArith List Bool Lia.
From ErgV Require Import gen.MarshalTab Marshal.Model Marshal.Spec.
From ErgV Require Import Marshal.ProofsBase Marshal.ProofsPy.
Import ListNotations.
Open Scope Z_scope.

Lemma take_app n a r : n = len a -> take true n (a ++ r) = Ok (a, r).
Proof. intros ->. unfold take. now rewrite splitz_app. Qed.
Lemma rd_u32_le4 z r : 0 <= z < 4294967296 -> rd_u32 true (le_bytes 4 z ++ r) = Ok (z, r).
Proof.
  intro H. unfold rd_u32. rewrite (take_app 4) by (now rewrite le_bytes_len). cbn [bind].
  rewrite le_val_le_bytes_id by lia. reflexivity.
Qed.
Notation ereads := (reads (@Ok)).
Definition ereads_bind {A B} := @reads_bind res (@Ok) (@bind) (fun _ _ _ _ => eq_refl) A B.
Definition ereads_last {A B} := @reads_last res (@Ok) (@bind) (fun _ _ _ _ => eq_refl) A B.
Lemma rd_u32_u31 F z : u31 z = true -> ereads F (rd_u32 true) (le_bytes 4 z) z.
Proof. intros H _ rest. apply u31_spec in H. unfold i32_max in H. apply rd_u32_le4. lia. Qed.
Lemma rd_bytes_rt F b : bytes_ok b = true -> ereads F (rd_bytes true) (raw_string_into_bytes b) b.
Proof.
  intros Hb _ rest. apply bytes_ok_spec in Hb. unfold rd_bytes, raw_string_into_bytes, i32_max in *. cbn [app take1 bind].
  change (prefix_of pfx_Str =? pfx_Str) with true. cbn [negb]. pose proof (len_nonneg b).
  rewrite <- app_assoc, rd_u32_le4 by lia. cbn [bind]. apply take_app. reflexivity.
Qed.
Lemma rd_utf8_rt s : forallb scalar s = true -> rd_utf8 (utf8 s) = Ok s.
Proof. intro H. unfold rd_utf8. now rewrite utf8_dec_utf8. Qed.

Definition eseq (f : nat) (ver d n : Z) (r : list Z) : res (value * list Z) :=
  if len r <? n then Err EBroken else '(l, r') <- rd_elems true f ver (d + 1) n r ;; Ok (VList l, r').
(** what [rd_const] does after a type code of the writer *)
Definition erg_arm (t : tag) (f : nat) (ver d : Z) (r : list Z) : res (value * list Z) :=
  match t with
  | TInt => '(x, r) <- take true 4 r ;; Ok (VInt (to_i32 (le_val x)), r)
  | TLong => '(x, r) <- take true 4 r ;;
             let nd := to_i32 (le_val x) in
             '(n, r) <- rd_digits true (Z.to_nat (Z.min (Z.max nd 0) 5)) 0 r ;;
             if (0 <=? nd) && (nd <=? 5) && (n <? 18446744073709551616) then Ok (VNat n, r) else Err EUnsupported
  | TFloat => '(x, r) <- take true 8 r ;; Ok (VFloat (le_val x), r)
  | TShort _ => '(n, r) <- take1 true r ;; '(x, r) <- take true n r ;; s <- rd_utf8 x ;; Ok (VStr s, r)
  | TUnicode | TStr => '(n, r) <- rd_u32 true r ;; '(x, r) <- take true n r ;; s <- rd_utf8 x ;; Ok (VStr s, r)
  | TTrue => Ok (VBool true, r)
  | TFalse => Ok (VBool false, r)
  | TNone => Ok (VNone, r)
  | TSmall => '(n, r) <- take1 true r ;; eseq f ver d n r
  | TTuple => '(n, r) <- rd_u32 true r ;; eseq f ver d n r
  | TCode => '(c, r) <- from_bytes_with true (rd_const true f ver (d + 1)) ver (pfx_Code :: r) ;; Ok (VCode c, r)
  end.
Lemma rc_arm ver t f d r :
  rd_const true (S f) ver d (byte_of t :: r) = if MAX_DEPTH <=? d then Err EBroken else erg_arm t f ver d r.
Proof. destruct t as [| | |[]| | | | | | | |]; reflexivity. Qed.
Lemma rd_elems_S f ver d n bs : 0 < n -> rd_elems true (S f) ver d n bs =
  '(x, r) <- rd_const true f ver d bs ;; '(l, r') <- rd_elems true f ver d (n - 1) r ;; Ok (x :: l, r').
Proof. intro H. cbn [rd_elems]. destruct (n <=? 0) eqn:E; [lia|reflexivity]. Qed.
Lemma rd_elems_0 f ver d bs : rd_elems true f ver d 0 bs = Ok ([], bs).
Proof. destruct f; reflexivity. Qed.

Definition erg_reads (ver : Z) := freads (@Ok) (fun F d => rd_const true F ver d).
Definition erg_tag ver := freads_tag res (@Ok) value (fun F d => rd_const true F ver d) 128 (Err EBroken) (fun t f => erg_arm t f ver) (rc_arm ver).

Lemma rc_int_rt ver d z : -2147483648 <= z <= i32_max -> d < 128 -> erg_reads ver d (pfx_Int32 :: le_bytes 4 z) (VInt z).
Proof.
  intros Hz Hd. apply (erg_tag ver TInt); [assumption|]. intros f rest _. cbn [erg_arm].
  rewrite (take_app 4) by (now rewrite le_bytes_len). cbn [bind]. rewrite to_i32_le4 by assumption. reflexivity.
Qed.
Lemma rc_str_rt ver d s i : str_ok s = true -> d < 128 -> erg_reads ver d (str_into_bytes s i) (VStr s).
Proof.
  intros Hs Hd. apply str_ok_spec in Hs as [Hsc Hlen]. pose proof (len_nonneg (utf8 s)). unfold str_into_bytes, i32_max in *.
  destruct (is_ascii s && (len (utf8 s) <=? 255)) eqn:E; cbn [app].
  - apply andb_prop in E as [Ea El]. apply (erg_tag ver (TShort i)); [assumption|]. intros f rest _. cbn [erg_arm app take1 bind].
    rewrite Z.mod_small by lia. rewrite take_app by reflexivity. cbn [bind].
    rewrite rd_utf8_rt by assumption. reflexivity.
  - apply (erg_tag ver TUnicode); [assumption|]. intros f rest _. cbn [erg_arm]. rewrite <- app_assoc, rd_u32_le4 by lia. cbn [bind].
    rewrite take_app by reflexivity. cbn [bind]. rewrite rd_utf8_rt by assumption. reflexivity.
Qed.

Lemma rd_digits_rt : forall ds i rest, Forall digit_ok ds -> 0 <= i ->
  rd_digits true (length ds) i (flat_map (le_bytes 2) ds ++ rest) = Ok (digits_val ds * 2 ^ (15 * i), rest).
Proof.
  induction ds as [|dg ds IH]; intros i rest H Hi; [reflexivity|].
  inversion H as [|? ? Hd Hr]; subst. unfold digit_ok in Hd.
  cbn [length rd_digits flat_map]. rewrite <- app_assoc. rewrite (take_app 2) by (now rewrite le_bytes_len). cbn [bind].
  rewrite IH by (assumption || lia). cbn [bind].
  rewrite le_val_le_bytes_id by lia.
  cbn [digits_val]. replace (15 * (i + 1)) with (15 * i + 15) by lia. rewrite Z.pow_add_r by lia.
  change (2 ^ 15) with 32768. f_equal. f_equal. lia.
Qed.
Lemma rc_long_rt ver d n : i32_max < n < 18446744073709551616 -> d < 128 -> erg_reads ver d (long_wr n) (VNat n).
Proof.
  intros Hn Hd. unfold i32_max in Hn. destruct (long_wr_spec n) as (ds & _ & -> & D2 & D3 & D4 & D5); [lia|].
  apply (erg_tag ver TLong); [assumption|]. intros f rest _. cbn [erg_arm].
  rewrite <- app_assoc, (take_app 4) by (now rewrite le_bytes_len). cbn [bind].
  rewrite to_i32_le4 by (unfold i32_max; lia).
  replace (Z.to_nat (Z.min (Z.max (len ds) 0) 5)) with (length ds) by (unfold len in *; lia).
  rewrite rd_digits_rt by (assumption || lia). cbn [bind]. rewrite D2, Z.mul_1_r.
  destruct (0 <=? len ds) eqn:E0; [|lia]. destruct (len ds <=? 5) eqn:E1; [|lia].
  destruct (n <? 18446744073709551616) eqn:E2; [|lia]. reflexivity.
Qed.

Lemma rc_0 ver d bs y : rd_const true 0 ver d bs <> Ok y.
Proof. discriminate. Qed.
Definition erg_nonempty ver := @freads_nonempty res (@Ok) value (fun F d => rd_const true F ver d) (rc_0 ver).
Definition rd_elems_rt ver {A} :=
  @seq_rt res (@Ok) (@bind) (fun _ _ _ _ => eq_refl) value (fun F d => rd_const true F ver d) (fun F d => rd_elems true F ver d)
          (rc_0 ver) (fun f => rd_elems_0 f ver) (fun f => rd_elems_S f ver) A.
Lemma rc_seq_rt {A} ver d (g : A -> list Z) (h : A -> value) l : len l <= i32_max -> d < 128 ->
  Forall (fun x => erg_reads ver (d + 1) (g x) (h x)) l ->
  erg_reads ver d (seq_header (len l) ++ flat_map g l) (VList (map h l)).
Proof.
  intros Hn Hd Hl. pose proof (len_nonneg l).
  (* the reader first checks that there are at least as many bytes left as elements announced *)
  assert (Hge : len l <= len (flat_map g l)) by (apply flat_map_len_ge; revert Hl; apply Forall_impl; intro; apply erg_nonempty).
  unfold seq_header, i32_max in *.
  destruct (255 <? len l) eqn:E; cbn [app].
  - apply (erg_tag ver TTuple); [assumption|]. intros f rest Hf. pose proof (len_nonneg rest). cbn [erg_arm].
    rewrite <- !app_assoc, rd_u32_le4 by lia. cbn [bind].
    unfold eseq. rewrite len_app. destruct (len (flat_map g l) + len rest <? len l) eqn:E2; [lia|].
    rewrite len_app, le_bytes_len in Hf. rewrite (rd_elems_rt _ _ g h) by (assumption || lia). reflexivity.
  - apply (erg_tag ver TSmall); [assumption|]. intros f rest Hf. pose proof (len_nonneg rest). cbn [erg_arm app take1 bind].
    rewrite len_cons in Hf. rewrite Z.mod_small by lia.
    unfold eseq. rewrite len_app. destruct (len (flat_map g l) + len rest <? len l) eqn:E2; [lia|].
    rewrite (rd_elems_rt _ _ g h) by (assumption || lia). reflexivity.
Qed.

Lemma as_vstrs_map l : as_vstrs true (VList (map VStr l)) = Ok l.
Proof. cbn [as_vstrs]. induction l as [|s l IH]; [reflexivity|]. cbn [map fold_right]. rewrite IH. reflexivity. Qed.
Lemma rd_str_vec_rt F ver d l : strs_ok l = true -> d + 1 < 128 ->
  ereads F (rd_str_vec true (rd_const true F ver d)) (strs_into_bytes l) l.
Proof.
  intros Hl Hd HF rest. apply strs_ok_spec in Hl as [H1 H2]. unfold rd_str_vec, strs_into_bytes in *.
  rewrite (rc_seq_rt ver d (fun s => str_into_bytes s true) VStr); [|assumption|lia| |assumption].
  - cbn [bind]. rewrite as_vstrs_map. reflexivity.
  - apply Forall_forall. intros s Hs. rewrite forallb_forall in H1. apply rc_str_rt; [auto|assumption].
Qed.
Lemma rd_str_rt F ver d s i : str_ok s = true -> d < 128 ->
  ereads F (rd_str true (rd_const true F ver d)) (str_into_bytes s i) s.
Proof. intros Hs Hd HF rest. unfold rd_str. rewrite rc_str_rt by assumption. reflexivity. Qed.
Lemma rd_const_vec_rt F rc cb nc : ereads F rc cb (VList nc) -> ereads F (rd_const_vec true rc) cb nc.
Proof. intros H HF rest. unfold rd_const_vec. now rewrite H. Qed.
Lemma erg_reads_at ver d b x F : erg_reads ver d b x -> ereads F (rd_const true F ver d) b x.
Proof. intro H. apply H. Qed.

(** the partition loop on the kinds [dump_locals] writes: Local, Free, Local|Cell *)
Lemma partition_kinds_rt (a b c : list (list Z)) :
  partition_kinds true (combine (a ++ b ++ c)
     (map (fun _ => fk_Local) a ++ map (fun _ => fk_Free) b ++ map (fun _ => (fk_Cell + fk_Local) mod 256) c))
  = Ok (a, b, c).
Proof.
  rewrite !combine_const_app, combine_const.
  induction a as [|x a IHa].
  - cbn [map app]. induction b as [|y b IHb].
    + cbn [map app]. induction c as [|z c IHc]; [reflexivity|].
      cbn [map partition_kinds]. change (lookup ((fk_Cell + fk_Local) mod 256) fastkind_decode) with (@None Z).
      change ((fk_Cell + fk_Local) mod 256 =? fk_Local + fk_Cell) with true. cbn iota. rewrite IHc. reflexivity.
    + cbn [map app partition_kinds]. change (lookup fk_Free fastkind_decode) with (Some fk_Free). cbn iota.
      rewrite IHb. cbn [bind]. reflexivity.
  - cbn [map app partition_kinds]. change (lookup fk_Local fastkind_decode) with (Some fk_Local). cbn iota.
    rewrite IHa. cbn [bind]. reflexivity.
Qed.

(* erg_rd: how each field of a code object is read ([rd_u32], [rd_bytes], [rd_str], [rd_str_vec], [rd_const_vec],
   [rd_locals]), and that the names and kinds which [dump_locals] writes are in the domain *)
Create HintDb erg_rd discriminated.
#[local] Hint Resolve rd_u32_u31 rd_bytes_rt rd_str_vec_rt rd_str_rt rd_const_vec_rt erg_reads_at strs_ok_locals bytes_ok_kinds : erg_rd.
#[local] Hint Extern 1 (reads _ _ (fun bs => if _ then Ok _ else _) _ _) => eapply (reads_unless res (@Ok)) : erg_rd.
#[local] Hint Extern 2 (reads _ _ (fun bs => if _ then _ else _) _ _) => eapply (reads_if res (@Ok)) : erg_rd.

Lemma rd_locals_rt F ver d vn fv cv :
  strs_ok vn = true -> strs_ok fv = true -> strs_ok cv = true -> (len vn + len fv + len cv <=? i32_max) = true ->
  d + 1 < 128 ->
  ereads F (rd_locals true (rd_const true F ver d) ver) (dump_locals ver vn fv cv)
    (if 11 <=? ver then filter (fun n => negb (contains fv n) && negb (contains cv n)) vn else vn, fv, cv).
Proof.
  intros. unfold rd_locals, dump_locals. destruct (11 <=? ver).
  all: repeat (eapply ereads_bind; [solve [eauto with erg_rd]|]).
  - (* 3.11: names and kinds, then the partition loop *)
    eapply ereads_last; [solve [eauto with erg_rd]|]; intro r.
    rewrite <- kinds_len, Z.eqb_refl. cbn [negb]. now rewrite partition_kinds_rt.
  - eapply ereads_last; [solve [eauto with erg_rd]|]; reflexivity.
Qed.
#[local] Hint Resolve rd_locals_rt : erg_rd.

(* each field by its reader (erg_rd), the fields in sequence by [reads_bind]; the type code is checked first *)
Lemma from_bytes_rt ver c p nc F d :
  code_fields_ok c = true -> d + 1 < 128 -> erg_reads ver d (seq_header (len (consts c)) ++ p) (VList nc) ->
  ereads F (fun r => from_bytes_with true (rd_const true F ver d) ver (pfx_Code :: r)) (tl (code_into_bytes ver c p))
    (norm_code ver c nc).
Proof.
  intros Hok Hd Hcb. assert (Hd' : d < 128) by lia.
  unfold code_fields_ok in Hok. do 18 (apply andb_prop in Hok as [Hok ?]).
  (* nlocals: the writer tests [ver <? 11], the reader [11 <=? ver] *)
  unfold code_into_bytes. set (cb := seq_header _ ++ p) in *. cbn [app tl]. rewrite (Z.ltb_antisym 11 ver).
  unfold from_bytes_with, norm_code. cbn [take1 bind]. rewrite Z.eqb_refl. cbn [negb].
  repeat (eapply ereads_bind; [solve [eauto with erg_rd]|]).
  eapply ereads_last; [solve [eauto with erg_rd]|]; reflexivity.
Qed.

Definition erg_rt_at (ver : Z) (v : value) (d : Z) : Prop := erg_reads ver d (wr ver v) (norm ver v).

Lemma erg_rt ver : forall v, serialisable v = true -> forall d, d + vdepth v <= 128 -> erg_rt_at ver v d.
Proof.
  apply within_ind.
  - intros [] d HS Hd; trivial; cbn [serialisable] in HS; unfold erg_rt_at; cbn [wr norm].
    + apply rc_int_rt; [lia|assumption].
    + destruct (i32_max <? n) eqn:E.
      * replace (n <=? i32_max) with false by lia. apply rc_long_rt; lia || assumption.
      * replace (n <=? i32_max) with true by lia. apply rc_int_rt; lia || assumption.
    + apply (erg_tag ver TFloat); [assumption|]. intros f rest _. cbn [erg_arm].
      rewrite (take_app 8) by (now rewrite le_bytes_len). cbn [bind]. rewrite le_val_le_bytes_id by lia. reflexivity.
    + now apply rc_str_rt.
    + destruct b; [apply (erg_tag ver TTrue)|apply (erg_tag ver TFalse)]; trivial.
    + now apply (erg_tag ver TNone).
    + discriminate.
  - intros l d. apply rc_seq_rt.
  - trivial.
  - (* Code: the fields are read one level down, the constants two *)
    intros c d Hok Hd Hc. unfold erg_rt_at. cbn [wr norm]. rewrite code_into_bytes_hd.
    apply (erg_tag ver TCode); [lia|]. intros f rest Hf. cbn [erg_arm].
    rewrite from_bytes_rt with (nc := map (norm ver) (consts c)); [reflexivity|assumption|lia|exact Hc|unfold fits; lia].
Qed.

Theorem erg_read_write_all ver v rest : serialisable v = true -> vdepth v <= 128 ->
  read_const ver (wr ver v ++ rest) = Ok (norm ver v, rest).
Proof.
  intros HS Hd. unfold read_const, read_const_gen. apply erg_rt; [assumption|lia|apply (fits_fuel_for [])].
Qed.

(** a whole code object through from_bytes (the Deserializer is fresh: depth 0) *)
Theorem from_bytes_write_all ver c rest : serialisable (VCode c) = true -> vdepth (VCode c) <= 129 ->
  from_bytes ver (wr ver (VCode c) ++ rest) = Ok (norm_code ver c (map (norm ver) (consts c)), rest).
Proof.
  intros HS Hd. unfold from_bytes, from_bytes_gen. cbn [wr]. rewrite code_into_bytes_hd. cbn [app].
  rewrite ser_code in HS. apply andb_prop in HS as [S0 S1]. rewrite vdepth_code in Hd.
  apply from_bytes_rt; [assumption|lia| |apply (fits_fuel_for [pfx_Code])].
  apply (erg_rt ver (VList (consts c))); [|rewrite vdepth_list; lia].
  rewrite ser_list, S1, andb_true_r. apply code_fields_ok_consts in S0. lia.
Qed.
