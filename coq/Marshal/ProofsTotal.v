(** C15 — the reader (the model at flag [true]) never panics and never runs out of fuel: [post], [safe], [fine_rd] *)
From Coq Require Import ZArith List Bool Lia.
From ErgV Require Import gen.MarshalTab Marshal.Model.
From ErgV Require Import Marshal.ProofsBase.
Import ListNotations.
Open Scope Z_scope.

(** [post Q r]: the outcome [r] is neither a panic nor exhausted fuel, and a value it returns satisfies [Q]; an error
    is a fine outcome whatever [Q] says *)
Definition post {A} (Q : A -> Prop) (r : res A) : Prop :=
  match r with Ok a => Q a | Err _ => True | Panic | Fuel => False end.
Lemma post_bind {A B} (P : A -> Prop) (Q : B -> Prop) (r : res A) (k : A -> res B) :
  post P r -> (forall a, P a -> post Q (k a)) -> post Q (bind r k).
Proof. destruct r; cbn [post bind]; auto. Qed.
Lemma post_mono {A} (P Q : A -> Prop) (r : res A) : (forall a, P a -> Q a) -> post P r -> post Q r.
Proof. destruct r; cbn [post]; auto. Qed.
Lemma post_calm {A} (Q : A -> Prop) (r : res A) : post Q r -> r <> Panic /\ r <> Fuel.
Proof. destruct r; cbn [post]; intro H; try contradiction; split; discriminate. Qed.

(** [fine n r]: what the read leaves has at most [n] bytes; [calm r]: nothing is asked of the value *)
Definition fine {A} (n : nat) (r : res (A * list Z)) : Prop := post (fun x => (length (snd x) <= n)%nat) r.
Definition calm {A} (r : res A) : Prop := post (fun _ => True) r.
(** [safe n p]: the reader [p] is fine on every input of at most [n] bytes, and does not leave more *)
Definition safe {A} (n : nat) (p : list Z -> res (A * list Z)) : Prop :=
  forall bs, (length bs <= n)%nat -> fine n (p bs).

Lemma fine_mono {A} n m (r : res (A * list Z)) : (n <= m)%nat -> fine n r -> fine m r.
Proof. intro H. apply post_mono. intros x Hx. lia. Qed.
Lemma fine_ok {A} n (a : A) rest : (length rest <= n)%nat -> fine n (Ok (a, rest)).
Proof. trivial. Qed.

(** [safe] is closed under the reader's bind (['(a, r) <- p bs ;; k a r] is [bind (p bs) (fun x => let (a, r) := x in k a r)]):
    a reader put together from safe readers is safe *)
Lemma safe_bind {A B} n (p : list Z -> res (A * list Z)) (k : A -> list Z -> res (B * list Z)) :
  safe n p -> (forall a, safe n (k a)) -> safe n (fun bs => x <- p bs ;; let (a, r) := x in k a r).
Proof. intros Hp Hk bs H. eapply post_bind; [now apply Hp|]. intros [a r] Hr. now apply Hk. Qed.
Lemma safe_bind0 {A B} n (r : res A) (k : A -> list Z -> res (B * list Z)) :
  calm r -> (forall a, safe n (k a)) -> safe n (fun bs => a <- r ;; k a bs).
Proof. intros Hr Hk bs H. eapply post_bind; [exact Hr|]. intros a _. now apply Hk. Qed.
Lemma safe_ok {A} n (a : A) : safe n (fun bs => Ok (a, bs)).
Proof. intros bs H. now apply fine_ok. Qed.
Lemma safe_err {A} n e : @safe A n (fun _ => Err e).
Proof. intros bs H. exact I. Qed.
Lemma safe_if {A} n (c : bool) (p q : list Z -> res (A * list Z)) :
  safe n p -> safe n q -> safe n (fun bs => if c then p bs else q bs).
Proof. now destruct c. Qed.
Lemma safe_guard {A} n (c : list Z -> bool) e (p : list Z -> res (A * list Z)) :
  safe n p -> safe n (fun bs => if c bs then Err e else p bs).
Proof. intros Hp bs H. destruct (c bs); [exact I|now apply Hp]. Qed.

Lemma safe_take k n : safe n (take true k).
Proof.
  intros bs H. unfold take. destruct (splitz bs k) as [[a r]|] eqn:E; [|exact I].
  apply fine_ok. apply splitz_spec in E as [-> _]. rewrite app_length in H. lia.
Qed.
Lemma fine_take1 bs n : (length bs <= S n)%nat -> fine n (take1 true bs).
Proof. destruct bs as [|b r]; intro H; [exact I|]. apply fine_ok. cbn [length] in H. lia. Qed.
Lemma safe_take1 n : safe n (take1 true).
Proof. intros bs H. apply fine_take1. lia. Qed.
(* a reader that begins by taking a byte may be given one byte more *)
Lemma fine_tagged {B} n (k : Z -> list Z -> res (B * list Z)) :
  (forall b, safe n (k b)) -> forall bs, (length bs <= S n)%nat -> fine n (x <- take1 true bs ;; let (b, r) := x in k b r).
Proof. intros Hk [|b r] H; [exact I|]. apply Hk. cbn [length] in H. lia. Qed.
Lemma safe_rd_u32 n : safe n (rd_u32 true).
Proof. unfold rd_u32. apply safe_bind; [apply safe_take|intro; apply safe_ok]. Qed.
Lemma safe_rd_bytes n : safe n (rd_bytes true).
Proof.
  unfold rd_bytes. apply safe_bind; [apply safe_take1|intro b]. apply safe_if; [apply safe_err|].
  apply safe_bind; [apply safe_rd_u32|intro; apply safe_take].
Qed.
Lemma calm_rd_utf8 x : calm (rd_utf8 x).
Proof. unfold rd_utf8. now destruct (utf8_dec false x). Qed.
Lemma calm_as_vstrs v : calm (as_vstrs true v).
Proof.
  assert (H : forall l, calm (fold_right (fun x acc => a <- acc ;; match x with VStr s => Ok (s :: a) | _ => type_err true end) (Ok []) l)).
  { unfold type_err. induction l as [|x l IH]; [exact I|]. cbn [fold_right].
    eapply post_bind; [exact IH|]. intros a _. now destruct x. }
  destruct v; cbn [as_vstrs]; try exact I; apply H.
Qed.
Lemma calm_partition nk : calm (partition_kinds true nk).
Proof.
  induction nk as [|[n k] r IH]; [exact I|]. cbn [partition_kinds].
  destruct (lookup k fastkind_decode) as [fk|].
  - eapply post_bind; [exact IH|]. intros [[vn fv] cv] _.
    now destruct (fk =? fk_Local), (fk =? fk_Free), (fk =? fk_Cell).
  - destruct (k =? fk_Local + fk_Cell); [|exact I].
    eapply post_bind; [exact IH|]. now intros [[vn fv] cv].
Qed.
Lemma safe_rd_digits n : forall k i, safe n (rd_digits true k i).
Proof.
  induction k as [|k IH]; intro i; cbn [rd_digits]; [apply safe_ok|].
  apply safe_bind; [apply safe_take|intro]. apply safe_bind; [apply IH|intro; apply safe_ok].
Qed.

(* safe: the readers and outcomes shown safe or calm so far, and how [safe] passes through [if] *)
Create HintDb safe discriminated.
#[local] Hint Resolve safe_take safe_take1 safe_rd_u32 safe_rd_bytes safe_rd_digits safe_ok safe_err safe_if safe_guard
  calm_rd_utf8 calm_as_vstrs calm_partition : safe.

Section with_rc.
  Variable rc : list Z -> res (value * list Z).
  Variable n : nat.
  Hypothesis Hrc : safe n rc.
  Local Hint Resolve Hrc : safe.

  Lemma safe_rd_str_vec : safe n (rd_str_vec true rc).
  Proof. unfold rd_str_vec. apply safe_bind; [auto with safe|intro v]. apply safe_bind0; auto with safe. Qed.
  Lemma safe_rd_str : safe n (rd_str true rc).
  Proof. unfold rd_str, type_err. apply safe_bind; [auto with safe|]. intros []; auto with safe. Qed.
  Lemma safe_rd_const_vec : safe n (rd_const_vec true rc).
  Proof. unfold rd_const_vec, type_err. apply safe_bind; [auto with safe|]. intros []; auto with safe. Qed.
  Local Hint Resolve safe_rd_str_vec safe_rd_str safe_rd_const_vec : safe.
  Lemma safe_rd_locals ver : safe n (rd_locals true rc ver).
  Proof.
    unfold rd_locals, short. apply safe_if; repeat (apply safe_bind; [auto with safe|intro]); auto with safe.
    apply safe_if; [auto with safe|]. apply safe_bind0; [auto with safe|]. intros [[vn fv] cv]. auto with safe.
  Qed.
  Local Hint Resolve safe_rd_locals : safe.

  (** the code-object reader consumes the type code, so it leaves strictly less than it was given *)
  Lemma fine_from_bytes ver bs : (length bs <= S n)%nat -> fine n (from_bytes_with true rc ver bs).
  Proof.
    unfold from_bytes_with, short. apply fine_tagged. intro b. apply safe_if; [auto with safe|].
    (* the locals come as a triple *)
    repeat (apply safe_bind; [auto with safe|intros [[vn fv] cv] || intro]). auto with safe.
  Qed.
  Lemma safe_from_bytes_code ver : safe n (fun r => from_bytes_with true rc ver (pfx_Code :: r)).
  Proof. intros bs H. apply fine_from_bytes. cbn [length]. lia. Qed.
End with_rc.
#[local] Hint Resolve safe_from_bytes_code : safe.

(** the two mutually recursive readers; [rd_const] consumes at least one byte, which pays for the fuel that
    [rd_elems] spends on each element *)
Lemma fine_rd : forall fuel,
  (forall ver d bs, (2 * length bs + 1 <= fuel)%nat -> fine (pred (length bs)) (rd_const true fuel ver d bs)) /\
  (forall ver d n bs, (2 * length bs + 2 <= fuel)%nat -> fine (length bs) (rd_elems true fuel ver d n bs)).
Proof.
  induction fuel as [|f [IH1 IH2]]; split; intros ver d; [lia|lia| |].
  - intros bs H. cbn [rd_const andb]. destruct (MAX_DEPTH <=? d); [exact I|].
    destruct bs as [|b r]; [exact I|]. cbn [take1 bind length pred] in *.
    set (m := length r) in *. assert (Hr : (length r <= m)%nat) by reflexivity. clearbody m. revert r Hr.
    assert (Hrc : safe m (rd_const true f ver (d + 1))).
    { intros bs' Hbs'. eapply fine_mono; [|apply IH1]; lia. }
    assert (Hel : forall n, safe m (rd_elems true f ver (d + 1) n)).
    { intros n bs' Hbs'. eapply fine_mono; [|apply IH2]; lia. }
    (* what is left is a safe reader of [r]: one arm per type code *)
    repeat apply safe_if; repeat (apply safe_bind; [auto with safe|intro]); auto with safe.
    (* left: the two string arms, where [rd_utf8] reads no bytes, and the two sequence arms with their length test *)
    1-2: apply safe_bind0; auto with safe.
    1-2: apply (safe_guard m (fun r => len r <? a)); apply safe_bind; auto with safe.
  - intros n bs H. cbn [rd_elems]. destruct (n <=? 0); [now apply fine_ok|].
    destruct bs as [|b0 bs0].
    { destruct f as [|f']; [cbn [length] in H; lia|]. cbn [rd_const andb take1 bind].
      destruct (MAX_DEPTH <=? d); exact I. }
    eapply post_bind; [apply IH1; lia|]. intros [x r] Hr. cbn [length pred snd] in *.
    eapply post_bind; [apply IH2; lia|]. intros [l r'] Hr'. apply fine_ok. cbn [snd] in Hr'. lia.
Qed.
Lemma safe_rd_const fuel ver d n : (2 * n + 1 <= fuel)%nat -> safe n (rd_const true fuel ver d).
Proof. intros H bs Hbs. eapply fine_mono; [|apply fine_rd]; lia. Qed.
