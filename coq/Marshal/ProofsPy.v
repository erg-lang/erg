(** C15 — the nesting depth of a value; CPython's unmarshaller reads back what the writer wrote *)
From Coq Require Import ZArith List Bool Lia.
From ErgV Require Import Common.Sx gen.MarshalTab Marshal.Model Marshal.Spec.
From ErgV Require Import Marshal.ProofsBase.
Import ListNotations.
Open Scope Z_scope.

(* the inner fixpoint of [vdepth] under a name *)
Definition mxd (l : list value) : Z := fold_right (fun x m => Z.max (vdepth x) m) 0 l.
Lemma mxd_cons x l : mxd (x :: l) = Z.max (vdepth x) (mxd l).
Proof. reflexivity. Qed.
Lemma vdepth_tuple l : vdepth (VTuple l) = 1 + mxd l.
Proof. reflexivity. Qed.
Lemma vdepth_list l : vdepth (VList l) = 1 + mxd l.
Proof. reflexivity. Qed.
Lemma vdepth_code c : vdepth (VCode c) = 2 + Z.max 1 (mxd (consts c)).
Proof. reflexivity. Qed.
Lemma mxd_nonneg l : 0 <= mxd l.
Proof. induction l; [apply Z.le_refl|]. rewrite mxd_cons. lia. Qed.
Lemma mxd_in l x : In x l -> vdepth x <= mxd l.
Proof. induction l as [|y l IH]; intro H; [destruct H|]. rewrite mxd_cons. destruct H as [->|H]; [lia|]. apply IH in H. lia. Qed.
Lemma vdepth_pos v : 1 <= vdepth v.
Proof.
  destruct v; try (cbn; lia).
  - rewrite vdepth_tuple. pose proof (mxd_nonneg l). lia.
  - rewrite vdepth_list. pose proof (mxd_nonneg l). lia.
  - rewrite vdepth_code. lia.
Qed.

(** Induction over the serialisable values that fit a depth budget: a value is read at depth [d] if its elements are
    read one level down. A Tuple is written as a List is; the constants of a code object are a List among its fields. *)
Lemma within_ind (lim : Z) (P : value -> Z -> Prop) :
  (forall v d, serialisable v = true -> d < lim -> match v with VTuple _ | VList _ | VCode _ => True | _ => P v d end) ->
  (forall l d, len l <= i32_max -> d < lim -> Forall (fun v => P v (d + 1)) l -> P (VList l) d) ->
  (forall l d, P (VList l) d -> P (VTuple l) d) ->
  (forall c d, code_fields_ok c = true -> d + 2 < lim -> P (VList (consts c)) (d + 1) -> P (VCode c) d) ->
  forall v, serialisable v = true -> forall d, d + vdepth v <= lim -> P v d.
Proof.
  intros Hleaf Hlist Htuple Hcode.
  assert (Hseq : forall l, Forall (fun v => serialisable v = true -> forall d, d + vdepth v <= lim -> P v d) l ->
                 forall d, (len l <=? i32_max) && forallb serialisable l = true -> d + 1 + mxd l <= lim -> P (VList l) d).
  { intros l IH d HS Hd. apply andb_prop in HS as [S0 S1]. pose proof (mxd_nonneg l). apply Hlist; [lia|lia|].
    rewrite Forall_forall in *. rewrite forallb_forall in S1. intros v Hv. apply IH; auto. apply mxd_in in Hv. lia. }
  induction v using value_ind_nested; intros HS d Hd.
  1-6, 10: refine (Hleaf _ d HS _); cbn [vdepth] in Hd; lia.
  - apply Htuple, Hseq; [assumption|assumption|]. rewrite vdepth_tuple in Hd. lia.
  - apply Hseq; [assumption|assumption|]. rewrite vdepth_list in Hd. lia.
  - rewrite ser_code in HS. apply andb_prop in HS as [S0 S1]. rewrite vdepth_code in Hd.
    apply Hcode; [assumption|lia|]. apply Hseq; [assumption| |lia].
    rewrite S1, andb_true_r. apply code_fields_ok_consts in S0. lia.
Qed.

Lemma p_take_app n a r : n = len a -> p_take n (a ++ r) = POk (a, r).
Proof. intros ->. unfold p_take. now rewrite splitz_app. Qed.
Lemma p_long_i32 z r : -2147483648 <= z <= i32_max -> p_long (le_bytes 4 z ++ r) = POk (z, r).
Proof.
  intro H. unfold p_long. rewrite (p_take_app 4) by (now rewrite le_bytes_len). cbn [pbind].
  now rewrite to_i32_le4.
Qed.

Notation preads := (reads (@POk)).
Definition preads_bind {A B} := @reads_bind pres (@POk) (@pbind) (fun _ _ _ _ => eq_refl) A B.
Definition preads_last {A B} := @reads_last pres (@POk) (@pbind) (fun _ _ _ _ => eq_refl) A B.
Lemma p_long_u31 F z : u31 z = true -> preads F p_long (le_bytes 4 z) z.
Proof. intros H _ rest. apply u31_spec in H. apply p_long_i32. lia. Qed.

(** what [r_object] does after a type code of the writer *)
Definition py_arm (t : tag) (f : nat) (ver d : Z) (r : list Z) : pres (pyval * list Z) :=
  match t with
  | TInt => '(n, r') <~ p_long r ;; POk (PInt n, r')
  | TLong => r_pylong r
  | TFloat => '(x, r') <~ p_take 8 r ;; POk (PFloat (le_val x), r')
  | TStr => '(n, r') <~ p_long r ;; if n <? 0 then PErr else '(x, r'') <~ p_take n r' ;; POk (PBytes x, r'')
  | TShort _ => '(n, r') <~ p_byte r ;; '(x, r'') <~ p_take n r' ;; POk (PStr x, r'')
  | TUnicode => '(n, r') <~ p_long r ;;
                if n <? 0 then PErr
                else '(x, r'') <~ p_take n r' ;; match utf8_dec true x with Some s => POk (PStr s, r'') | None => PErr end
  | TTrue => POk (PBool true, r)
  | TFalse => POk (PBool false, r)
  | TNone => POk (PNone, r)
  | TSmall => '(n, r') <~ p_byte r ;; '(l, r'') <~ r_seq f ver (d + 1) n r' ;; POk (PTuple l, r'')
  | TTuple => '(n, r') <~ p_long r ;; if n <? 0 then PErr else '(l, r'') <~ r_seq f ver (d + 1) n r' ;; POk (PTuple l, r'')
  | TCode => r_code (r_object f ver (d + 1)) ver r
  end.
Lemma ro_arm ver t f d r :
  r_object (S f) ver d (byte_of t :: r) = if MAX_MARSHAL_STACK_DEPTH <=? d then PErr else py_arm t f ver d r.
Proof. destruct t as [| | |[]| | | | | | | |]; reflexivity. Qed.
Lemma r_seq_S f ver d n bs : 0 < n -> r_seq (S f) ver d n bs =
  '(x, r) <~ r_object f ver d bs ;; '(l, r') <~ r_seq f ver d (n - 1) r ;; POk (x :: l, r').
Proof. intro H. cbn [r_seq]. destruct (n <=? 0) eqn:E; [lia|reflexivity]. Qed.
Lemma r_seq_0 f ver d bs : r_seq f ver d 0 bs = POk ([], bs).
Proof. destruct f; reflexivity. Qed.

Definition py_reads (ver : Z) := freads (@POk) (fun F d => r_object F ver d).
Definition py_tag ver := freads_tag pres (@POk) pyval (fun F d => r_object F ver d) 2000 PErr (fun t f => py_arm t f ver) (ro_arm ver).

Lemma ro_int_rt ver d z : -2147483648 <= z <= i32_max -> d < 2000 -> py_reads ver d (pfx_Int32 :: le_bytes 4 z) (PInt z).
Proof.
  intros Hz Hd. apply (py_tag ver TInt); [assumption|]. intros f rest _. cbn [py_arm].
  rewrite p_long_i32 by assumption. reflexivity.
Qed.
Lemma ro_str_rt ver d s i : str_ok s = true -> d < 2000 -> py_reads ver d (str_into_bytes s i) (PStr s).
Proof.
  intros Hs Hd. apply str_ok_spec in Hs as [Hsc Hlen]. pose proof (len_nonneg (utf8 s)). unfold str_into_bytes.
  destruct (is_ascii s && (len (utf8 s) <=? 255)) eqn:E; cbn [app].
  - apply andb_prop in E as [Ea El]. apply (py_tag ver (TShort i)); [assumption|]. intros f rest _. cbn [py_arm app p_byte pbind].
    rewrite Z.mod_small by lia. rewrite p_take_app by reflexivity. cbn [pbind].
    rewrite utf8_ascii by assumption. reflexivity.
  - apply (py_tag ver TUnicode); [assumption|]. intros f rest _. cbn [py_arm]. rewrite <- app_assoc, p_long_i32 by lia. cbn [pbind].
    rewrite ltb0 by assumption. rewrite p_take_app by reflexivity. cbn [pbind].
    rewrite utf8_dec_utf8 by assumption. reflexivity.
Qed.

Lemma ro_raw_rt ver d b : bytes_ok b = true -> d < 2000 -> py_reads ver d (raw_string_into_bytes b) (PBytes b).
Proof.
  intros Hb Hd. apply bytes_ok_spec in Hb. pose proof (len_nonneg b).
  apply (py_tag ver TStr); [assumption|]. intros f rest _. cbn [py_arm]. rewrite <- app_assoc, p_long_i32 by lia. cbn [pbind].
  rewrite ltb0 by assumption. rewrite p_take_app by reflexivity. reflexivity.
Qed.

(** a TYPE_LONG body: digit count, then normalised 15-bit digits *)
Lemma r_pylong_rt ds rest : Forall digit_ok ds -> last ds 0 <> 0 -> 1 <= len ds <= i32_max ->
  r_pylong (le_bytes 4 (len ds) ++ flat_map (le_bytes 2) ds ++ rest) = POk (PInt (digits_val ds), rest).
Proof.
  intros Hds Hlast Hlen. unfold r_pylong. rewrite p_long_i32 by lia. cbn [pbind]. unfold i32_max in Hlen.
  destruct (len ds =? 0) eqn:E0; [lia|]. destruct (len ds =? -2147483648) eqn:E1; [lia|].
  rewrite p_take_app by (rewrite flat_map_le2_len; lia). cbn [pbind]. rewrite py_digits_le2 by assumption.
  destruct (last ds 0 =? 0) eqn:E2; [lia|]. rewrite ltb0 by lia. reflexivity.
Qed.
Lemma ro_long_rt ver d n : i32_max < n < 18446744073709551616 -> d < 2000 -> py_reads ver d (long_wr n) (PInt n).
Proof.
  intros Hn Hd. unfold i32_max in Hn. destruct (long_wr_spec n) as (ds & _ & -> & D2 & D3 & D4 & D5); [lia|].
  apply (py_tag ver TLong); [assumption|]. intros f rest _. cbn [py_arm].
  rewrite <- app_assoc, r_pylong_rt by (assumption || (unfold i32_max; lia)). now rewrite D2.
Qed.

Lemma ro_0 ver d bs y : r_object 0 ver d bs <> POk y.
Proof. discriminate. Qed.
Definition r_seq_rt ver {A} :=
  @seq_rt pres (@POk) (@pbind) (fun _ _ _ _ => eq_refl) pyval (fun F d => r_object F ver d) (fun F d => r_seq F ver d)
          (ro_0 ver) (fun f => r_seq_0 f ver) (fun f => r_seq_S f ver) A.
Lemma ro_seq_rt {A} ver d (g : A -> list Z) (h : A -> pyval) l : len l <= i32_max -> d < 2000 ->
  Forall (fun x => py_reads ver (d + 1) (g x) (h x)) l ->
  py_reads ver d (seq_header (len l) ++ flat_map g l) (PTuple (map h l)).
Proof.
  intros Hn Hd Hl. pose proof (len_nonneg l). unfold seq_header.
  destruct (255 <? len l) eqn:E; cbn [app].
  - apply (py_tag ver TTuple); [assumption|]. intros f rest Hf. cbn [py_arm]. rewrite <- !app_assoc, p_long_i32 by lia. cbn [pbind].
    rewrite ltb0 by assumption. rewrite len_app, le_bytes_len in Hf. rewrite (r_seq_rt _ _ g h) by (assumption || lia). reflexivity.
  - apply (py_tag ver TSmall); [assumption|]. intros f rest Hf. cbn [py_arm app p_byte pbind]. rewrite len_cons in Hf.
    rewrite Z.mod_small by lia. rewrite (r_seq_rt _ _ g h) by (assumption || lia). reflexivity.
Qed.

Lemma ro_strs_rt ver d l : strs_ok l = true -> d + 1 < 2000 -> py_reads ver d (strs_into_bytes l) (PTuple (map PStr l)).
Proof.
  intros Hl Hd. apply strs_ok_spec in Hl as [H1 H2]. unfold strs_into_bytes. apply ro_seq_rt; [assumption|lia|].
  apply Forall_forall. intros s Hs. rewrite forallb_forall in H1. apply ro_str_rt; [auto|assumption].
Qed.
Lemma as_strs_map l : as_strs (PTuple (map PStr l)) = Some l.
Proof. cbn [as_strs]. induction l as [|s l IH]; [reflexivity|]. cbn [map fold_right]. rewrite IH. reflexivity. Qed.

Lemma kind_names_3 flag (a b c : list (list Z)) ka kb kc :
  kind_names flag (a ++ b ++ c) (map (fun _ => ka) a ++ map (fun _ => kb) b ++ map (fun _ => kc) c)
  = (if Z.land ka flag =? 0 then [] else a) ++ (if Z.land kb flag =? 0 then [] else b) ++ (if Z.land kc flag =? 0 then [] else c).
Proof.
  assert (K : forall k l, map fst (filter (fun nk : list Z * Z => negb (Z.land (snd nk) flag =? 0)) (map (fun x => (x, k)) l))
                          = if Z.land k flag =? 0 then [] else l).
  { intros k l. induction l as [|x l IH]; [destruct (Z.land k flag =? 0); reflexivity|].
    cbn [map filter snd]. destruct (Z.land k flag =? 0) eqn:E; cbn [negb map fst]; [exact IH|now rewrite IH]. }
  unfold kind_names. rewrite !combine_const_app, combine_const, !filter_app, !map_app, !K. reflexivity.
Qed.
(** CPython's view of the kinds [dump_locals] writes: Local, Free, Local|Cell *)
Lemma kind_names_locals (a b c : list (list Z)) (ks := map (fun _ => fk_Local) a ++ map (fun _ => fk_Free) b
                                                        ++ map (fun _ => (fk_Cell + fk_Local) mod 256) c) :
  kind_names 32 (a ++ b ++ c) ks = a ++ c /\ kind_names 128 (a ++ b ++ c) ks = b /\ kind_names 64 (a ++ b ++ c) ks = c.
Proof. subst ks. rewrite !kind_names_3. cbn. rewrite app_nil_r. auto. Qed.

Lemma py_reads_at ver d b x F : py_reads ver d b x -> preads F (r_object F ver d) b x.
Proof. intro H. apply H. Qed.

(* py_rd: how each field of a code object is read (a counter by [p_long], a byte string, a string or a tuple of names
   by [r_object]), and that the names and kinds which [dump_locals] writes are in the domain *)
Create HintDb py_rd discriminated.
#[local] Hint Resolve p_long_u31 py_reads_at ro_raw_rt ro_strs_rt ro_str_rt strs_ok_locals bytes_ok_kinds : py_rd.
#[local] Hint Extern 1 (reads _ _ (fun bs => if _ then _ else _) _ _) => eapply (reads_if pres (@POk)) : py_rd.

(* each field by its reader (py_rd), the fields in sequence by [reads_bind] *)
Lemma r_code_rt ver c p pc F d :
  code_fields_ok c = true -> d + 1 < 2000 -> py_reads ver d (seq_header (len (consts c)) ++ p) (PTuple pc) ->
  preads F (r_code (r_object F ver d) ver) (tl (code_into_bytes ver c p)) (PCode (py_code ver c pc)).
Proof.
  intros Hok Hd Hcb. assert (Hd' : d < 2000) by lia.
  (* the nineteen tests, one hypothesis each; [repeat] would go on and split [u31] itself *)
  unfold code_fields_ok in Hok. do 18 (apply andb_prop in Hok as [Hok ?]).
  (* the bytes are put in shape while the reader is still folded *)
  unfold code_into_bytes, dump_locals. set (cb := seq_header _ ++ p) in *.
  destruct (11 <=? ver) eqn:E11; cbn [app tl]; rewrite <- ?app_assoc, ?app_nil_r.
  all: unfold r_code, py_code; rewrite E11.
  all: repeat (eapply preads_bind; [solve [eauto with py_rd]|]).
  all: eapply preads_last; [solve [eauto with py_rd]|]; intro r.
  - (* 3.11: names and kinds *)
    rewrite !as_strs_map, !u31_ltb0 by (try apply u31_if; assumption). rewrite <- kinds_len, Z.eqb_refl. cbn [orb negb].
    edestruct kind_names_locals as (K1 & K2 & K3). rewrite K1, K2, K3. replace (8 <=? ver) with true by lia. reflexivity.
  - (* before 3.11: three tuples of names *)
    rewrite !as_strs_map, !u31_ltb0 by (try apply u31_if; assumption). replace (ver <? 11) with true by lia. reflexivity.
Qed.

Definition py_rt_at (ver : Z) (v : value) (d : Z) : Prop := py_reads ver d (wr ver v) (py_of ver v).

Lemma py_rt ver : forall v, serialisable v = true -> forall d, d + vdepth v <= 2000 -> py_rt_at ver v d.
Proof.
  apply within_ind.
  - intros [] d HS Hd; trivial; cbn [serialisable] in HS; unfold py_rt_at; cbn [wr py_of].
    + apply ro_int_rt; [lia|assumption].
    + destruct (i32_max <? n) eqn:E; [apply ro_long_rt|apply ro_int_rt]; lia || assumption.
    + apply (py_tag ver TFloat); [assumption|]. intros f rest _. cbn [py_arm].
      rewrite (p_take_app 8) by (now rewrite le_bytes_len). cbn [pbind]. rewrite le_val_le_bytes_id by lia. reflexivity.
    + now apply ro_str_rt.
    + destruct b; [apply (py_tag ver TTrue)|apply (py_tag ver TFalse)]; trivial.
    + now apply (py_tag ver TNone).
    + discriminate.
  - intros l d. apply ro_seq_rt.
  - trivial.
  - (* Code: the fields are read one level down, the constants two *)
    intros c d Hok Hd Hc. unfold py_rt_at. cbn [wr py_of]. rewrite code_into_bytes_hd.
    apply (py_tag ver TCode); [lia|]. intros f rest Hf. cbn [py_arm].
    apply r_code_rt; [assumption|lia|exact Hc|unfold fits; lia].
Qed.

Theorem py_loads_dumps_all ver v rest : serialisable v = true -> vdepth v <= 2000 ->
  py_loads ver (wr ver v ++ rest) = POk (py_of ver v, rest).
Proof.
  intros HS Hd. unfold py_loads. apply py_rt; [assumption|lia|apply (fits_fuel_for [])].
Qed.
