(** * Property C01 — compiled bytecode computes what the source program means.

    Full statement (for the real compiler): for every program p of the checked fragment that erg accepts,
    running the bytecode erg produces prints exactly [fst (Sem.run fuel p)] and ends with status [snd (Sem.run fuel p)],
    for every literal value (naturals >= 2^31, signed zeros included).

    What is proved here (level: proof, PARTIAL): the statement for the *model* of codegen.rs (Codegen.v) executed by the
    model of the CPython 3.11 loop (VM.v), for the expression/statement fragment: literals of every kind and value,
    variables, unary and binary arithmetic, comparisons, short-circuit and/or, not, definitions, print! — programs of any
    length and expressions of any depth.  Control flow, functions, lists and the rest of the fragment are tied to the
    real compiler by the three-way differential of checks/c01.py only; the model itself is tied to the real compiler
    by comparing, program by program, its output with the decoded .pyc (code units, constant pool, names).
    Hypotheses: (1) the compiler model does not hit an unwrap ([COk]); (2) [prog_wraps_ok]: every value that the
    generated code passes to a runtime class Nat/Int/Float/Str/Bool fits that class — decided by evaluation
    ([prog_wraps_okb], theorem [wraps_checked]) for each tested program; (3) constants are unmarshalled faithfully
    ([cval]; that is property C15); (4) the evaluator is given enough fuel (irrelevant inside the fragment). *)
From Coq Require Import ZArith List Bool.
From ErgV Require Import Common.Sx CoreErg.Syntax CoreErg.Sem CoreErg.Codegen CoreErg.VM CoreErg.Spec_C01 CoreErg.Proofs_C01.
(* the simulation is proved once, for every target version; C01's model is its 3.11 instance *)
From ErgV Require Versions.ProofsC01.
Import ListNotations.
Open Scope Z_scope.

(** expressions of any depth, any literal values: the emitted code pushes the value of the expression, or halts with the
    exception the expression raises; whatever code follows, whatever pools the rest of the module adds *)
Theorem compile_correct : forall e, in_frag e = true ->
  forall p code p', emit_expr const_same p e = COk (code, p') ->
  forall P, extends p' P -> forall st, vext st = 0 -> wraps_ok (venv st) e ->
    match eval0 (venv st) e with
    | Ok v => run_prefix (p_consts P) (p_names P) code 0 st = Reached 0 (with_stack st (SV v :: stack st))
    | Raise ex => run_prefix (p_consts P) (p_names P) code 0 st = Halted (rev (vout st), Some (Uncaught ex))
    | OutOfFuel => True
    end.
Proof.
  intros e _. exact (Versions.ProofsC01.codegen_expr_correct e).
Qed.

(** whole modules of definitions and print! statements: executing the compiled module prints what the program means
    and ends the same way *)
Theorem compile_stmt_correct : forall pre prog code P fuel,
  forallb stmt_in_frag prog = true ->
  compile pre prog = COk (code, P) ->
  prog_wraps_ok [] prog ->
  snd (run fuel prog) <> FuelOut ->
  VM.exec (p_consts P) (p_names P) code = (fst (run fuel prog), Some (snd (run fuel prog))).
Proof. exact Versions.ProofsC01.codegen_module_correct. Qed.

(** hypothesis (2) is decidable by evaluation: the check runs the extracted [prog_wraps_okb] on every program *)
Theorem wraps_checked : forall prog, prog_wraps_okb [] prog = true -> prog_wraps_ok [] prog.
Proof. intros prog. exact (prog_wraps_okb_sound prog []). Qed.

(** the constant pool lookup as it was before the repair (ValueObj's ==) is NOT correct: -0.0 reuses the slot of 0.0.
    Witness: print! 0.0 ; print! -0.0  (the same program replayed on the real compiler is the C01 finding that was fixed) *)
Definition signed_zero_program : program :=
  [SPrint [ELit WFloat (LFloat 0)]; SPrint [ELit WFloat (LFloat sign_bit)]].

Theorem old_pool_refuted : exists code P,
  compile_old (mkPools [] []) signed_zero_program = COk (code, P) /\
  prog_wraps_okb [] signed_zero_program = true /\
  VM.exec (p_consts P) (p_names P) code <> (fst (run 1 signed_zero_program), Some (snd (run 1 signed_zero_program))).
Proof.
  eexists _, _. split; [vm_compute; reflexivity|]. split; [vm_compute; reflexivity|].
  vm_compute. discriminate.
Qed.

(** non-vacuity: a program with a natural >= 2^63, signed zeros, an Int/Nat pair that ValueObj's == identifies,
    short-circuit operators and a run-time error meets all hypotheses, compiles in the model, and the two sides agree *)
Definition example_program : program :=
  [ SDef 1 None (ELit WNat (LNat 9223372036854775808));
    SDef 2 None (EBin WInt OSub (EVar WNat 1) (ELit WNat (LNat 18446744073709551615)));
    SPrint [EVar WNat 1; EVar WInt 2; ELit WInt (LNeg (-1)); ELit WFloat (LFloat 0); ELit WFloat (LFloat sign_bit)];
    SPrint [ELogic WBool true (ECmp WNone CLt (EVar WInt 2) (ELit WNat (LNat 0))) (ELit WBool (LBool false));
            EBin WFloat ODiv (ELit WNat (LNat 7)) (ELit WNat (LNat 2)); ELit WStr (LStr [34; 233; 128512])];
    SPrint [EBin WNat OFloorDiv (EVar WNat 1) (ELit WNat (LNat 0))];
    SPrint [ELit WNat (LNat 1)] ].

Example example_meets_hypotheses :
  forallb stmt_in_frag example_program = true /\
  prog_wraps_okb [] example_program = true /\
  snd (run 1 example_program) = Uncaught ZeroDivisionError /\
  length (fst (run 1 example_program)) = 2%nat /\
  exists code P, compile (mkPools [CInt 0] [NPre 0]) example_program = COk (code, P) /\
                 VM.exec (p_consts P) (p_names P) code = (fst (run 1 example_program), Some (snd (run 1 example_program))).
Proof.
  split; [reflexivity|]. split; [vm_compute; reflexivity|]. split; [vm_compute; reflexivity|].
  split; [vm_compute; reflexivity|].
  eexists _, _. split; [vm_compute; reflexivity|]. vm_compute. reflexivity.
Qed.
