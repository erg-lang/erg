(** * Proofs for C01: what the compiler-correctness argument needs of the machine and the instruction arguments
    ([wrap_call_fits], [all_values_map_SV], [arith_of_binop_arg], ...), of the pools, of the wrapping side condition and of
    the evaluator on the expression/statement fragment.  The simulation itself is carried out once for every target
    version in Versions/Proofs.v; Versions/ProofsC01.v shows that the 3.11 instance is this model (Codegen.v run by
    VM.v), which is how Props_C01.v obtains its theorems. *)
From Coq Require Import ZArith List Bool Lia.
From ErgV Require Import Common.Lists Common.Sx CoreErg.Syntax CoreErg.Sem CoreErg.Codegen CoreErg.VM CoreErg.Spec_C01.
Import ListNotations.
Open Scope Z_scope.

Lemma cbind_ok : forall A B (r : cres A) (f : A -> cres B) b,
  cbind r f = COk b -> exists a, r = COk a /\ f a = COk b.
Proof. intros A B [a|site] f b H; [exists a; split; [reflexivity|exact H]|discriminate]. Qed.

Lemma run_prefix_app : forall cs ns l1 l2 k st,
  run_prefix cs ns (l1 ++ l2) k st =
  match run_prefix cs ns l1 k st with
  | Halted o => Halted o
  | Reached k' st' => run_prefix cs ns l2 k' st'
  end.
Proof.
  intros cs ns l1; induction l1 as [|[op a] l1 IH]; intros l2 k st; cbn [app run_prefix]; [reflexivity|].
  destruct k as [|k]; [|apply IH].
  destruct (step cs ns op (vext st * 256 + a) st); [apply IH|reflexivity].
Qed.

Lemma run_prefix_skip : forall cs ns l k st,
  run_prefix cs ns l (length l + k) st = Reached k st.
Proof.
  intros cs ns l; induction l as [|[op a] l IH]; intros k st; cbn [length run_prefix Nat.add]; [reflexivity|apply IH].
Qed.

Lemma all_values_map_SV : forall vs, all_values (map SV vs) = Some vs.
Proof. induction vs as [|v vs IH]; [reflexivity|]. cbn. rewrite IH. reflexivity. Qed.

Lemma wrap_call_fits : forall w v, is_wrapped w = true -> fits w v -> wrap_call w v = Ok v.
Proof.
  intros w v Hw Hf. destruct w, v; cbn in *; try discriminate; try contradiction; try reflexivity.
  destruct (z <? 0) eqn:E; [apply Z.ltb_lt in E; lia|reflexivity].
Qed.

Lemma fitsb_fits : forall w v, fitsb w v = true -> fits w v.
Proof.
  intros w v H. destruct w, v; cbn in *; try discriminate; try exact I. apply Z.leb_le; exact H.
Qed.

Lemma arith_of_binop_arg : forall op, arith_of_arg (binop_arg op) = Some op.
Proof. destruct op; reflexivity. Qed.
Lemma cmp_of_cmp_arg : forall op, cmp_of_arg (cmp_arg op) = Some op.
Proof. destruct op; reflexivity. Qed.
Lemma binop_arg_nonneg : forall op, 0 <= binop_arg op.
Proof. destruct op; cbn; lia. Qed.
Lemma cmp_arg_nonneg : forall op, 0 <= cmp_arg op.
Proof. destruct op; cbn; lia. Qed.

Definition call1_code : list cunit := [(PRECALL, 1); (CACHE, 0); (CALL, 1); (CACHE, 0); (CACHE, 0); (CACHE, 0); (CACHE, 0)].

Lemma emit_call_1 : emit_call 1 = COk call1_code.
Proof. reflexivity. Qed.

Lemma run_call1_raise : forall cs ns w v ex below en out,
  wrap_call w v = Raise ex ->
  run_prefix cs ns call1_code 0 (mkVm (SV v :: SCallable (NCls w) :: SNull :: below) en out 0)
  = Halted (rev out, Some (Uncaught ex)).
Proof.
  intros cs ns w v ex below en out H.
  unfold call1_code. cbn [run_prefix vext step Z.mul Z.add]. unfold call. cbn. rewrite ?Pos2Nat.inj_1. cbn.
  rewrite H. reflexivity.
Qed.

Lemma ends_with_pop_last : forall l a, ends_with_pop (l ++ [(POP_TOP, a)]) = true.
Proof. intros. unfold ends_with_pop. rewrite rev_app_distr. reflexivity. Qed.

Lemma ends_with_pop_store : forall l a, ends_with_pop (l ++ [(STORE_NAME, a)]) = false.
Proof. intros. unfold ends_with_pop. rewrite rev_app_distr. reflexivity. Qed.

(** ** pools only grow; registered entries stay where they are *)
Definition extends (p p' : pools) : Prop :=
  (exists l, p_consts p' = p_consts p ++ l) /\ (exists l, p_names p' = p_names p ++ l).

Lemma extends_refl : forall p, extends p p.
Proof. intros p; split; exists []; rewrite app_nil_r; reflexivity. Qed.

Lemma extends_trans : forall p q r, extends p q -> extends q r -> extends p r.
Proof.
  intros p q r [[l1 H1] [l2 H2]] [[l3 H3] [l4 H4]]; split.
  - exists (l1 ++ l3). rewrite H3, H1, app_assoc; reflexivity.
  - exists (l2 ++ l4). rewrite H4, H2, app_assoc; reflexivity.
Qed.

Lemma position_spec : forall A (f : A -> bool) l i j,
  position f l i = Some j ->
  i <= j /\ exists x, nth_error l (Z.to_nat (j - i)) = Some x /\ f x = true.
Proof.
  intros A f l; induction l as [|x l IH]; intros i j H; cbn [position] in H; [discriminate|].
  destruct (f x) eqn:Fx.
  - inversion H; subst j. split; [lia|]. exists x. rewrite Z.sub_diag. cbn. auto.
  - apply IH in H. destruct H as [Hle [y [Hn Hf]]]. split; [lia|]. exists y. split; [|exact Hf].
    replace (Z.to_nat (j - i)) with (S (Z.to_nat (j - (i + 1)))) by lia. exact Hn.
Qed.

Lemma nth_error_app_some : forall A (l r : list A) i c, nth_error l i = Some c -> nth_error (l ++ r) i = Some c.
Proof.
  intros A l r i c H. rewrite nth_error_app1; [exact H|]. apply nth_error_Some. rewrite H; discriminate.
Qed.

Lemma nth_error_extends_consts : forall p P i c,
  extends p P -> nth_error (p_consts p) i = Some c -> nth_error (p_consts P) i = Some c.
Proof. intros p P i c [[l H] _] Hn. rewrite H. apply nth_error_app_some; exact Hn. Qed.

Lemma nth_error_extends_names : forall p P i c,
  extends p P -> nth_error (p_names p) i = Some c -> nth_error (p_names P) i = Some c.
Proof. intros p P i c [_ [l H]] Hn. rewrite H. apply nth_error_app_some; exact Hn. Qed.

Lemma name_eqb_eq : forall a b, name_eqb a b = true -> a = b.
Proof.
  intros [x| |x|x] [y| |y|y] H; cbn in H; try discriminate; try reflexivity.
  - apply Z.eqb_eq in H; subst; reflexivity.
  - destruct x, y; cbn in H; try discriminate; reflexivity.
  - apply Z.eqb_eq in H; subst; reflexivity.
Qed.

Lemma register_name_spec : forall p n i p',
  register_name p n = (i, p') ->
  extends p p' /\ 0 <= i /\ nth_error (p_names p') (Z.to_nat i) = Some n.
Proof.
  intros p n i p' H. unfold register_name in H.
  destruct (position (name_eqb n) (p_names p) 0) as [j|] eqn:E.
  - inversion H; subst i p'. apply position_spec in E. destruct E as [Hle [x [Hn Hs]]].
    split; [apply extends_refl|]. split; [exact Hle|]. rewrite Z.sub_0_r in Hn.
    apply name_eqb_eq in Hs; subst x; exact Hn.
  - inversion H; subst i p'. split.
    + split; cbn; [exists []; rewrite app_nil_r|exists [n]]; reflexivity.
    + split; [lia|]. cbn [p_names]. rewrite Nat2Z.id.
      rewrite nth_error_app2 by lia. rewrite Nat.sub_diag. reflexivity.
Qed.

Lemma const_same_sound : forall a b, const_same a b = true -> cval a = cval b.
Proof.
  intros a b H. destruct a, b; cbn in H; try discriminate; try reflexivity; cbn [cval].
  - apply Z.eqb_eq in H; subst; reflexivity.
  - apply Z.eqb_eq in H; subst; reflexivity.
  - apply Z.eqb_eq in H; subst; reflexivity.
  - apply zs_eqb_eq in H; subst; reflexivity.
  - apply Bool.eqb_prop in H; subst; reflexivity.
Qed.

Section WithSame.
  Variable same : constv -> constv -> bool.
  Hypothesis same_sound : forall a b, same a b = true -> cval a = cval b.

  Lemma register_const_spec : forall p c i p',
    register_const same p c = (i, p') ->
    extends p p' /\ 0 <= i /\ exists c', nth_error (p_consts p') (Z.to_nat i) = Some c' /\ cval c' = cval c.
  Proof.
    intros p c i p' H. unfold register_const in H.
    destruct (position (fun c' => same c' c) (p_consts p) 0) as [j|] eqn:E.
    - inversion H; subst i p'. apply position_spec in E. destruct E as [Hle [x [Hn Hs]]].
      split; [apply extends_refl|]. split; [exact Hle|]. exists x. rewrite Z.sub_0_r in Hn. split; [exact Hn|].
      apply same_sound; exact Hs.
    - inversion H; subst i p'. split.
      + split; cbn; [exists [c]|exists []; rewrite app_nil_r]; reflexivity.
      + split; [lia|]. exists c. cbn [p_consts]. rewrite Nat2Z.id.
        rewrite nth_error_app2 by lia. rewrite Nat.sub_diag. cbn. auto.
  Qed.
End WithSame.

Lemma eval0_un : forall en w op a, eval0 en (EUn w op a) = bind (eval0 en a) (un_op op).
Proof. reflexivity. Qed.
Lemma eval0_bin : forall en w op a b,
  eval0 en (EBin w op a b) = bind (eval0 en a) (fun va => bind (eval0 en b) (fun vb => bin_op op va vb)).
Proof. reflexivity. Qed.
Lemma eval0_cmp : forall en w op a b,
  eval0 en (ECmp w op a b) = bind (eval0 en a) (fun va => bind (eval0 en b) (fun vb => cmp_op op va vb)).
Proof. reflexivity. Qed.
Lemma eval0_logic : forall en w k a b,
  eval0 en (ELogic w k a b) =
  bind (eval0 en a) (fun va => if k then (if truthy va then Ok va else eval0 en b)
                               else (if truthy va then eval0 en b else Ok va)).
Proof. reflexivity. Qed.

Lemma eval_frag_indep : forall e, in_frag e = true ->
  forall cf1 cf2 en, eval cf1 en e = eval cf2 en e.
Proof.
  induction e using expr_ind'; intros Hf cf1 cf2 en; cbn [in_frag] in Hf; try discriminate; try reflexivity.
  - cbn [eval]. rewrite (IHe Hf cf1 cf2). reflexivity.
  - apply andb_true_iff in Hf as [Fa Fb]. cbn [eval]. rewrite (IHe1 Fa cf1 cf2), (IHe2 Fb cf1 cf2). reflexivity.
  - apply andb_true_iff in Hf as [Fa Fb]. cbn [eval]. rewrite (IHe1 Fa cf1 cf2), (IHe2 Fb cf1 cf2). reflexivity.
  - apply andb_true_iff in Hf as [Fa Fb]. cbn [eval]. rewrite (IHe1 Fa cf1 cf2), (IHe2 Fb cf1 cf2). reflexivity.
Qed.

Definition evals0 (en : env) (es : list expr) : res (list value) := evals (fun _ _ _ => OutOfFuel) en es.

Lemma evals_frag_indep : forall es, forallb in_frag es = true ->
  forall cf en, evals cf en es = evals0 en es.
Proof.
  induction es as [|e es IH]; intros Hf cf en; [reflexivity|].
  cbn [forallb] in Hf. apply andb_true_iff in Hf; destruct Hf as [Fe Fr].
  unfold evals0. cbn [evals]. rewrite (eval_frag_indep e Fe cf (fun _ _ _ => OutOfFuel)).
  destruct (eval _ en e); cbn [bind]; [|reflexivity|reflexivity].
  rewrite (IH Fr cf en). reflexivity.
Qed.

Lemma evals0_length : forall en es vs, evals0 en es = Ok vs -> length es = length vs.
Proof.
  intros en es; induction es as [|e es IH]; intros vs H; unfold evals0 in *; cbn [evals] in H.
  - inversion H; reflexivity.
  - destruct (eval _ en e); cbn [bind] in H; try discriminate.
    destruct (evals _ en es) as [vs'| |]; cbn [bind] in H; try discriminate.
    inversion H; subst. cbn [length]. f_equal. apply IH; reflexivity.
Qed.

Lemma exec_block_app : forall cf cp lf r t st,
  exec_block cf cp lf (r ++ t) st =
  match exec_block cf cp lf r st with SOk st' => exec_block cf cp lf t st' | err => err end.
Proof.
  intros cf cp lf r; induction r as [|s r IH]; intros t st; [reflexivity|].
  cbn [app exec_block]. destruct (Sem.exec cf cp lf s st); [apply IH|reflexivity|reflexivity].
Qed.

(** ** the side condition: every value passed to a runtime class fits it *)
Fixpoint wraps_ok (en : env) (e : expr) : Prop :=
  (forall v, eval0 en e = Ok v -> fits (wrap_of e) v) /\
  match e with
  | EUn _ _ a => wraps_ok en a
  | EBin _ _ a b | ECmp _ _ a b | ELogic _ _ a b => wraps_ok en a /\ wraps_ok en b
  | _ => True
  end.

Definition stmt_wraps_ok (en : env) (s : stmt) : Prop :=
  match s with
  | SDef _ _ e => wraps_ok en e
  | SPrint es => Forall (wraps_ok en) es
  | _ => False
  end.

Fixpoint prog_wraps_ok (en : env) (ss : list stmt) : Prop :=
  match ss with
  | [] => True
  | s :: r =>
    stmt_wraps_ok en s /\
    match s with
    | SDef x _ e => forall v, eval0 en e = Ok v -> prog_wraps_ok ((x, v) :: en) r
    | _ => prog_wraps_ok en r
    end
  end.

Lemma exec_frag_step : forall cf cp lf s ss en o ret st', stmt_in_frag s = true ->
  prog_wraps_ok en (s :: ss) -> Sem.exec cf cp lf s (mkState en o ret) = SOk st' -> prog_wraps_ok (s_env st') ss.
Proof.
  intros cf cp lf s ss en o ret st' Fs [_ Hr] H.
  destruct s; cbn [stmt_in_frag] in Fs; try discriminate; cbn [Sem.exec s_env s_out s_ret] in H.
  - destruct (evals cf en es); try discriminate. inversion H; subst. exact Hr.
  - unfold with_val in H. rewrite (eval_frag_indep e Fs cf (fun _ _ _ => OutOfFuel)) in H. fold (eval0 en e) in H.
    destruct (eval0 en e) as [v| |] eqn:Ev; try discriminate. inversion H; subst. apply Hr. reflexivity.
Qed.

Lemma wraps_okb_sound : forall en e, wraps_okb en e = true -> wraps_ok en e.
Proof.
  intros en e; induction e using expr_ind'; intros Hb; cbn [wraps_okb wraps_ok] in *;
    apply andb_true_iff in Hb; destruct Hb as [H1 H2];
    (split; [intros v Hv; rewrite Hv in H1; apply fitsb_fits; exact H1|]); try exact I.
  - apply IHe; exact H2.
  - apply andb_true_iff in H2; destruct H2; split; auto.
  - apply andb_true_iff in H2; destruct H2; split; auto.
  - apply andb_true_iff in H2; destruct H2; split; auto.
Qed.

Lemma prog_wraps_okb_sound : forall ss en, prog_wraps_okb en ss = true -> prog_wraps_ok en ss.
Proof.
  induction ss as [|s ss IH]; intros en H; [exact I|].
  destruct s; cbn [prog_wraps_okb] in H; try discriminate; cbn [prog_wraps_ok stmt_wraps_ok].
  - apply andb_true_iff in H. destruct H as [H1 H2]. split; [|apply IH; exact H2].
    apply Forall_forall. intros e He. apply wraps_okb_sound. rewrite forallb_forall in H1. apply H1; exact He.
  - apply andb_true_iff in H. destruct H as [H1 H2]. split; [apply wraps_okb_sound; exact H1|].
    intros v Hv. rewrite Hv in H2. apply IH; exact H2.
Qed.
