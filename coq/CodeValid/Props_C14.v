(** C14 -- property theorems

    Property: every code object the compiler emits is structurally valid for its target interpreter.
    The theorems below are about the *validator* that is applied to every emitted code object at check time:
    acceptance implies the clauses of the property, for every code object, every interpreter table and every path.
    Whether erg's objects are accepted is observed per object by checks/c14.py (that is the tie to the code). *)
From Coq Require Import ZArith List Bool.
From ErgV Require Import CodeValid.Model CodeValid.Spec CodeValid.Proofs CodeValid.Witness.
Import ListNotations.
Open Scope Z_scope.

(** 1. Soundness of the validator, all four clauses:
       decode succeeds; (depth) every path from the entry keeps 0 <= depth <= co_stacksize and never meets an
       instruction without a stack effect; (jumps) every jump target and fall-through successor of every instruction
       is the first unit of an instruction inside the code; (indices) const / name / local / free / compare operands
       in range; (lines) PyCode_Addr2Line gives every instruction a line in 1..lines(src). *)
Theorem valid_code_sound : forall v E c, valid_code v E c = true -> structurally_valid v E c.
Proof. exact valid_code_sound_l. Qed.

(** 2. The same without the line clause (used to classify the known line-table finding: an object in the class
       [Known_C14] is still required to satisfy everything else). *)
Theorem valid_nolines_sound : forall v E c, valid_nolines v E c = true -> structurally_valid_nolines v E c.
Proof. exact valid_nolines_sound_l. Qed.

(** 3. The certificate checker alone: ANY annotation accepted by [check_annot] bounds every path, whoever produced it. *)
Theorem check_annot_sound : forall v E S d0 p m, check_annot v E S d0 p m = true ->
  forall pc d, reachable_depth v E d0 p pc d -> 0 <= d <= S.
Proof. intros v E S d0 p m H pc d Hr. exact (proj1 (annot_invariant v E S d0 p m H pc d Hr)). Qed.

(** 4. Paths never leave instruction boundaries: with the jump clause, every offset a path reaches is the entry,
       the exit, or the first unit of an instruction inside the code. *)
Theorem paths_stay_on_boundaries : forall v E d0 len p, jumps_land v len p ->
  forall pc d, reachable_depth v E d0 p pc d ->
  pc = 0 \/ pc = exit_pc \/ (0 <= pc < len /\ exists j, instr_at p pc j).
Proof. exact reachable_on_boundary. Qed.

(** 5. Known finding C14-linetable-format-310 (known/C14.json): push_lnotab writes co_lnotab byte pairs for every target.
       Refutation witness: function [g] of the program in Witness.v compiled for 3.10 is in the class, satisfies every
       other clause, and its instruction at offset 20 has no line. *)
Theorem lines_refuted_310 :
  exists v E c, Known_C14 v c = true /\ valid_nolines v E c = true /\ ~ structurally_valid v E c.
Proof.
  exists py310, ex310_g_eff, ex310_g. split; [reflexivity|]. split; [vm_compute; reflexivity|].
  intros (p & Hd & _ & _ & _ & _ & _ & Hl). apply lines_ok_iff in Hl.
  assert (Hf : match decode py310 (co_code ex310_g) with Some q => lines_ok py310 ex310_g q | None => false end = false)
    by (vm_compute; reflexivity).
  rewrite Hd, Hl in Hf. discriminate.
Qed.

(** 6. The generated opcode tables are well formed: opcode numbers unique per version, EXTENDED_ARG is no jump and has
       no cache, unconditional jumps are jumps, jump opcodes have no inline cache entries (the jump-target rule relies
       on it). Finite, by computation over gen/PyOps.v. *)
Definition table_wf (v : pyver) : bool :=
  let ops := pv_ops v in
  forallb (fun o => match lookup_op ops (oi_op o) with
                    | Some o' => (oi_jmp o' =? oi_jmp o) && (oi_flow o' =? oi_flow o) && (oi_idx o' =? oi_idx o) && (oi_cache o' =? oi_cache o)
                    | None => false end) ops &&
  forallb (fun o => (if oi_flow o =? 1 then negb (oi_jmp o =? 0) else true) &&
                    (if negb (oi_jmp o =? 0) then oi_cache o =? 0 else true) &&
                    (0 <=? oi_cache o) && (0 <=? oi_op o) && (oi_op o <? 256)) ops &&
  match lookup_op ops (pv_ext v) with Some o => (oi_jmp o =? 0) && (oi_cache o =? 0) && (oi_flow o =? 0) | None => false end.

Theorem pyops_wellformed : forallb table_wf [py37; py38; py39; py310; py311] = true.
Proof. vm_compute. reflexivity. Qed.

(** Non-vacuity: real code objects emitted by erg are accepted (module code with a for-loop, EXTENDED_ARG-prefixed
    jumps, nested calls; 44 distinct (opcode, arg) pairs), for the three targets whose line table format erg writes,
    and everything but the line clause also for 3.11 (relative backward jump, inline caches). *)
Example valid_code_ex39 : valid_code py39 ex39_module_eff ex39_module = true.
Proof. vm_compute. reflexivity. Qed.
Example valid_code_ex38 : valid_code py38 ex38_module_eff ex38_module = true.
Proof. vm_compute. reflexivity. Qed.
Example valid_nolines_ex311 : valid_nolines py311 ex311_module_eff ex311_module = true.
Proof. vm_compute. reflexivity. Qed.
(* the loop is really there: offset 128 (FOR_ITER, reached by the back edge) is reachable with depth 1 *)
Example reachable_ex39 : exists p, decode py39 (co_code ex39_module) = Some p /\ p <> [] /\
  depth_bounded py39 ex39_module_eff (co_stacksize ex39_module) 0 p.
Proof.
  destruct (valid_code_sound py39 ex39_module_eff ex39_module valid_code_ex39) as [p [Hd [Hne [_ [Hdep _]]]]].
  exists p. split; [exact Hd|]. split; [exact Hne|]. apply Hdep. reflexivity.
Qed.
(* and the validator is not trivially true: one slot less of stack and the same object is rejected *)
Example stacksize_too_small_rejected :
  valid_code py39 ex39_module_eff
    (mkco (co_code ex39_module) 4 (co_nconsts ex39_module) (co_nnames ex39_module) (co_nlocals ex39_module)
          (co_nfree ex39_module) (co_firstlineno ex39_module) (co_linetable ex39_module) (co_nlines ex39_module) 0 true false 0) = false.
Proof. vm_compute. reflexivity. Qed.
