(** C14 -- soundness of the validator of Model.v with respect to Spec.v *)
From Coq Require Import ZArith List Bool Lia FMapPositive.
From ErgV Require Import CodeValid.Model CodeValid.Spec.
Import ListNotations.
Open Scope Z_scope.

Lemma check_edge_spec S m lo hi t e :
  check_edge S m lo hi (t, e) = true ->
  0 <= lo + e /\ hi + e <= S /\
  (t = exit_pc \/ exists lo' hi', aget m t = Some (lo', hi') /\ lo' <= lo + e /\ hi + e <= hi').
Proof.
  intros H. unfold check_edge in H. cbn [fst snd] in H.
  rewrite !andb_true_iff, !Z.leb_le in H. destruct H as [[H1 H2] H3].
  split; [exact H1|]. split; [exact H2|].
  destruct (Z.eqb_spec t exit_pc) as [Et|_]; [left; exact Et|right].
  destruct (aget m t) as [[lo' hi']|]; [|discriminate].
  rewrite andb_true_iff, !Z.leb_le in H3.
  exists lo', hi'. split; [reflexivity|exact H3].
Qed.

Lemma check_instr_spec v E S m i lo hi :
  check_instr v E S m i = true -> aget m (i_off i) = Some (lo, hi) ->
  exists es, edges v E i = Some es /\ forall te, In te es -> check_edge S m lo hi te = true.
Proof.
  intros H Ha. unfold check_instr in H. rewrite Ha in H.
  destruct (edges v E i) as [es|]; [|discriminate].
  exists es. split; [reflexivity|]. apply forallb_forall. exact H.
Qed.

Lemma check_annot_parts v E S d0 p m : check_annot v E S d0 p m = true ->
  0 <= d0 <= S /\
  (exists lo hi, aget m 0 = Some (lo, hi) /\ lo <= d0 <= hi) /\
  (forall i, In i p -> 0 <= i_off i) /\
  (forall i, In i p -> check_instr v E S m i = true).
Proof.
  intros H. unfold check_annot in H.
  rewrite !andb_true_iff, !forallb_forall, !Z.leb_le in H. destruct H as [[[HS He] Hn] Hi].
  split; [exact HS|]. split; [|split; [|exact Hi]].
  - destruct (aget m 0) as [[lo hi]|]; [|discriminate].
    rewrite andb_true_iff, !Z.leb_le in He. exists lo, hi. split; [reflexivity|exact He].
  - intros i Hin. apply Z.leb_le, Hn, Hin.
Qed.

Section Annot.
  Variables (v : pyver) (E : effects) (S : Z) (d0 : Z) (p : list instr) (m : annot).
  Hypothesis Hchk : check_annot v E S d0 p m = true.

  Lemma chk_S : 0 <= d0 <= S.
  Proof. exact (proj1 (check_annot_parts v E S d0 p m Hchk)). Qed.
  Lemma chk_entry : exists lo hi, aget m 0 = Some (lo, hi) /\ lo <= d0 <= hi.
  Proof. exact (proj1 (proj2 (check_annot_parts v E S d0 p m Hchk))). Qed.
  Lemma chk_nonneg : forall i, In i p -> 0 <= i_off i.
  Proof. exact (proj1 (proj2 (proj2 (check_annot_parts v E S d0 p m Hchk)))). Qed.
  Lemma chk_instr : forall i, In i p -> check_instr v E S m i = true.
  Proof. exact (proj2 (proj2 (proj2 (check_annot_parts v E S d0 p m Hchk)))). Qed.
End Annot.

(** The invariant: a depth reached at an instruction lies in the interval the annotation gives its offset. *)
Lemma annot_invariant v E S d0 p m : check_annot v E S d0 p m = true ->
  forall pc d, reachable_depth v E d0 p pc d ->
  0 <= d <= S /\
  (forall i, instr_at p pc i -> exists lo hi, aget m pc = Some (lo, hi) /\ lo <= d <= hi).
Proof.
  intros Hchk.
  destruct (check_annot_parts _ _ _ _ _ _ Hchk) as (HS & (lo0 & hi0 & Ha0 & Hd0) & Hnn & Hci).
  induction 1 as [|pc d i es t e Hr IH Hat He Hin].
  - split; [exact HS|]. intros i _. exists lo0, hi0. split; assumption.
  - destruct (proj2 IH i Hat) as (lo & hi & Ha & Hd). destruct Hat as [Hip Hoff]. subst pc.
    destruct (check_instr_spec _ _ _ _ _ _ _ (Hci i Hip) Ha) as (es' & He' & Hes).
    rewrite He in He'. injection He' as <-.
    destruct (check_edge_spec _ _ _ _ _ _ (Hes _ Hin)) as (H1 & H2 & H3).
    split; [lia|]. intros j [Hjp Hjo].
    destruct H3 as [Hx|(lo' & hi' & Ha' & Hl & Hh)].
    + (* an instruction offset is not [exit_pc] *)
      pose proof (Hnn j Hjp). unfold exit_pc in Hx. lia.
    + exists lo', hi'. split; [exact Ha'|lia].
Qed.

Lemma annot_progress v E S d0 p m : check_annot v E S d0 p m = true ->
  forall pc d i, reachable_depth v E d0 p pc d -> instr_at p pc i -> exists es, edges v E i = Some es.
Proof.
  intros Hchk pc d i Hr Hat.
  destruct (proj2 (annot_invariant _ _ _ _ _ _ Hchk pc d Hr) i Hat) as (lo & hi & Ha & _).
  destruct Hat as [Hip Hoff]. subst pc.
  pose proof (chk_instr _ _ _ _ _ _ Hchk i Hip) as Hci.
  destruct (check_instr_spec _ _ _ _ _ _ _ Hci Ha) as (es & He & _).
  exists es. exact He.
Qed.

Lemma depth_ok_sound v E S d0 p : depth_ok v E S d0 p = true -> depth_bounded v E S d0 p.
Proof.
  intros H. unfold depth_ok in H.
  destruct (compute_annot v E S d0 p) as [m| |]; try discriminate.
  split.
  - intros pc d Hr. exact (proj1 (annot_invariant v E S d0 p m H pc d Hr)).
  - exact (annot_progress v E S d0 p m H).
Qed.

Lemma akey_inj a b : 0 <= a -> 0 <= b -> akey a = akey b -> a = b.
Proof.
  intros Ha Hb H. unfold akey in H.
  apply Z2Pos.inj in H; lia.
Qed.

Lemma offs_map_find : forall p t,
  0 <= t -> (forall i, In i p -> 0 <= i_off i) ->
  PositiveMap.find (akey t) (offs_map p) <> None ->
  exists j, In j p /\ i_off j = t.
Proof.
  induction p as [|a p IH]; intros t Ht Hn Hf.
  - rewrite PositiveMap.gempty in Hf. congruence.
  - cbn [offs_map fold_right] in Hf.
    destruct (Pos.eq_dec (akey t) (akey (i_off a))) as [Heq|Hne].
    + apply akey_inj in Heq; [|exact Ht|apply Hn; left; reflexivity].
      exists a. split; [left; reflexivity|symmetry; exact Heq].
    + rewrite PositiveMap.gso in Hf by exact Hne.
      destruct (IH t Ht (fun i Hi => Hn i (or_intror Hi)) Hf) as [j [Hj Ho]].
      exists j. split; [right; exact Hj|exact Ho].
Qed.

Lemma jumps_ok_sound : forall v len p, jumps_ok v len p = true -> jumps_land v len p.
Proof.
  intros v len p H i t Hi Ht. unfold jumps_ok in H.
  rewrite andb_true_iff, !forallb_forall in H. destruct H as [Hn Hj].
  specialize (Hj i Hi). rewrite forallb_forall in Hj. specialize (Hj t Ht).
  unfold boundary_fast in Hj. rewrite !andb_true_iff, Z.leb_le, Z.ltb_lt in Hj.
  destruct Hj as [[H0 Hf] Hl].
  split; [lia|]. apply offs_map_find.
  - exact H0.
  - intros k Hk. apply Z.leb_le, Hn, Hk.
  - destruct (PositiveMap.find (akey t) (offs_map p)); [discriminate|discriminate Hf].
Qed.

Lemma edges_targets v E i es t e :
  edges v E i = Some es -> In (t, e) es -> t = exit_pc \/ In t (targets v i).
Proof.
  intros He Hin. unfold edges in He. unfold targets.
  destruct (lookup_op (pv_ops v) (i_op i)) as [oi|]; [|discriminate].
  destruct (oi_flow oi =? 3); [discriminate|].
  destruct (eff_lookup E (i_op i) (i_arg i)) as [[en ej]|]; [|discriminate].
  injection He as He. subst es.
  apply in_app_or in Hin. destruct Hin as [Hin|Hin].
  - destruct (oi_flow oi =? 0).
    + destruct Hin as [Hin|[]]. injection Hin as Ht _. right. apply in_or_app. left. left. exact Ht.
    + destruct (oi_flow oi =? 2).
      * destruct Hin as [Hin|[]]. injection Hin as Ht _. left. symmetry. exact Ht.
      * destruct Hin.
  - destruct (jump_target v oi i) as [t'|].
    + destruct Hin as [Hin|[]]. injection Hin as Ht _. right. apply in_or_app. right. left. exact Ht.
    + destruct Hin.
Qed.

Lemma reachable_on_boundary v E d0 len p :
  jumps_land v len p -> forall pc d, reachable_depth v E d0 p pc d ->
  pc = 0 \/ pc = exit_pc \/ (0 <= pc < len /\ exists j, instr_at p pc j).
Proof.
  intros Hj pc d H. destruct H as [|pc d i es t e Hr Hat He Hin].
  - left. reflexivity.
  - right. destruct (edges_targets v E i es t e He Hin) as [Hx|Ht].
    + left. exact Hx.
    + right. destruct Hat as [Hip _]. exact (Hj i t Hip Ht).
Qed.

Lemma index_ok1_sound v c i : index_ok1 v c i = true -> operand_in_range v c i.
Proof.
  unfold index_ok1, operand_in_range.
  destruct (lookup_op (pv_ops v) (i_op i)) as [oi|]; [|discriminate].
  intros H. exists oi. split; [reflexivity|]. cbv zeta in *. revert H.
  destruct (Z.eqb_spec (oi_idx oi) 0) as [Ek|_]; [tauto|].
  destruct (Z.eqb_spec (oi_idx oi) 1) as [Ek|_]; [rewrite Z.ltb_lt; tauto|].
  destruct (Z.eqb_spec (oi_idx oi) 2) as [Ek|_]; [rewrite Z.ltb_lt; tauto|].
  destruct (Z.eqb_spec (oi_idx oi) 3) as [Ek|_]; [rewrite Z.ltb_lt; tauto|].
  destruct (Z.eqb_spec (oi_idx oi) 4) as [Ek|_]; [rewrite Z.ltb_lt; tauto|].
  destruct (Z.eqb_spec (oi_idx oi) 5) as [Ek|_]; [rewrite Z.ltb_lt; tauto|].
  destruct (Z.eqb_spec (oi_idx oi) 6) as [Ek|_]; [rewrite Z.ltb_lt; tauto|].
  discriminate.
Qed.

Lemma index_ok_sound v c p : index_ok v c p = true -> indices_in_range v c p.
Proof.
  intros H i Hi. unfold index_ok in H. rewrite forallb_forall in H.
  apply index_ok1_sound, H, Hi.
Qed.

Lemma line_ok1_iff v c i : line_ok1 v c i = true <-> line_in_file v c i.
Proof.
  unfold line_ok1, line_in_file.
  destruct (line_at v c (i_opoff i)) as [l| |].
  - rewrite andb_true_iff, !Z.leb_le. split.
    + intros H. exists l. split; [reflexivity|exact H].
    + intros [l' [Hl H]]. injection Hl as <-. exact H.
  - split; [discriminate|intros [l [Hl _]]; discriminate].
  - split; [discriminate|intros [l [Hl _]]; discriminate].
Qed.

Lemma lines_ok_iff v c p : lines_ok v c p = true <-> lines_in_file v c p.
Proof.
  unfold lines_ok, lines_in_file. rewrite forallb_forall.
  split; intros H i Hi; apply line_ok1_iff, H, Hi.
Qed.

Lemma lines_ok_sound : forall v c p, lines_ok v c p = true -> lines_in_file v c p.
Proof. intros v c p. apply lines_ok_iff. Qed.

Lemma valid_nolines_sound_l v E c : valid_nolines v E c = true -> structurally_valid_nolines v E c.
Proof.
  intros H. unfold valid_nolines in H. unfold structurally_valid_nolines.
  destruct (decode v (co_code c)) as [p|]; [|discriminate].
  rewrite !andb_true_iff in H. destruct H as [[[[Hne Hexc] Hdep] Hjmp] Hidx].
  exists p. split; [reflexivity|].
  split; [destruct p; [discriminate|discriminate]|].
  split; [apply Z.eqb_eq; exact Hexc|].
  split; [intros Hc; rewrite Hc in Hdep; apply depth_ok_sound; exact Hdep|].
  split; [apply jumps_ok_sound; exact Hjmp|apply index_ok_sound; exact Hidx].
Qed.

Lemma valid_code_sound_l v E c : valid_code v E c = true -> structurally_valid v E c.
Proof.
  intros H. unfold valid_code in H. apply andb_true_iff in H. destruct H as [Hn Hl].
  apply valid_nolines_sound_l in Hn. destruct Hn as (p & Hd & Hne & Hx & Hdep & Hj & Hi).
  rewrite Hd in Hl. apply lines_ok_sound in Hl.
  exists p. repeat (split; [assumption|]). exact Hl.
Qed.
