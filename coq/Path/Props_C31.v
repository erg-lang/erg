(** C31 — module path normalisation identifies only identical files.

    [norm cs p] is the model of NormalizedPathBuf::new (Model.v) for the path string [p], [cs] is
    erg_common::consts::CASE_SENSITIVE; every theorem holds for both values of [cs] and for paths
    of any length.  [resolve cs cwd p] (Spec.v) is the file [p] names from directory [cwd]
    (".." at the root stays at the root; symbolic links ignored; names compared up to ASCII case
    when [cs = false]); the theorems hold for EVERY [cwd], whatever its depth.
    [Known_C31 p] is the known failing class (known/C31.json): the path contains the Windows
    verbatim marker  \\?\ , which normalize_path deletes on every platform. *)
From Coq Require Import ZArith List Bool String.
From ErgV Require Import Path.Model Path.Spec Path.Proofs.
Import ListNotations.
Open Scope Z_scope.
Open Scope string_scope.

(** 1. normalisation is idempotent (as strings, hence as NormalizedPathBuf values) *)
Theorem norm_idem : forall cs p,
  Known_C31 p = false -> norm cs (norm cs p) = norm cs p.
Proof.
  intros cs p H. rewrite (norm_nf cs p H), norm_str_of by (apply ok_nf_of; exact H).
  unfold nf_of. rewrite casefold_idem. reflexivity.
Qed.

Example norm_idem_ex :
  Known_C31 (path "a/../../B//./c/") = false /\
  norm true (path "a/../../B//./c/") = path "../B/c" /\
  norm false (path "a/../../B//./c/") = path "../b/c" /\
  norm true (path "/../x/./y/../../..") = path "/".
Proof. vm_compute. repeat split. Qed.

(** 2. the normal form names the same file as the path, from every directory *)
Theorem norm_preserves_file : forall cs p cwd,
  Known_C31 p = false -> resolve cs cwd (norm cs p) = resolve cs cwd p.
Proof.
  intros cs p cwd H. unfold resolve. rewrite components_norm by exact H.
  unfold nf_of. rewrite walk_casefold, walk_reduce. reflexivity.
Qed.

(** 3. two paths are the same module (NormalizedPathBuf ==, i.e. PathBuf ==, i.e. equal component
       lists of the normal forms) only if they are the same file, from every directory *)
Theorem norm_sound : forall cs p q,
  Known_C31 p = false -> Known_C31 q = false ->
  components (norm cs p) = components (norm cs q) ->
  forall cwd, resolve cs cwd p = resolve cs cwd q.
Proof.
  intros cs p q Hp Hq E cwd.
  rewrite <- (norm_preserves_file cs p cwd Hp), <- (norm_preserves_file cs q cwd Hq).
  unfold resolve. rewrite E. reflexivity.
Qed.

(** the same with equality of the normal-form strings as the hypothesis *)
Corollary norm_sound_str : forall cs p q,
  Known_C31 p = false -> Known_C31 q = false ->
  norm cs p = norm cs q ->
  forall cwd, resolve cs cwd p = resolve cs cwd q.
Proof. intros cs p q Hp Hq E. apply norm_sound; [exact Hp|exact Hq|rewrite E; reflexivity]. Qed.

(** the same for the executable equality the harness observes *)
Theorem same_module_same_file : forall cs p q,
  Known_C31 p = false -> Known_C31 q = false ->
  same_module cs p q = true ->
  forall cwd, resolve cs cwd p = resolve cs cwd q.
Proof. intros cs p q Hp Hq H. apply norm_sound; [exact Hp|exact Hq|]. apply comps_eqb_spec. exact H. Qed.

Example norm_sound_ex :
  let p := path "x/../../a" in let q := path ".././a/" in
  p <> q /\ Known_C31 p = false /\ Known_C31 q = false /\ same_module true p q = true /\
  resolve true [path "u"; path "v"] p = [path "u"; path "a"] /\
  (* the hypothesis is not always true: different files are different modules *)
  same_module true (path "../a") (path "a") = false /\
  same_module true (path "a") (path "A") = false /\ same_module false (path "a") (path "A") = true.
Proof. vm_compute. repeat split; discriminate. Qed.

(** 4. leading ".." components of a relative path are never discarded *)
Theorem norm_keeps_leading_parents : forall cs p,
  Known_C31 p = false -> has_root p = false ->
  (leading_parents (components p) <= leading_parents (components (norm cs p)))%nat.
Proof.
  intros cs p HK HR. rewrite components_norm by exact HK. rewrite leading_comps_of.
  apply (leading_fold (components p) 0). apply components_no_root. exact HR.
Qed.

Example norm_keeps_leading_parents_ex :
  has_root (path "../../a/../..") = false /\
  leading_parents (components (path "../../a/../..")) = 2%nat /\
  norm true (path "../../a/../..") = path "../../..".
Proof. vm_compute. repeat split. Qed.

(** 5. shape of normal forms: optional root, then only "..", then only names; no ".." after a root *)
Theorem norm_shape : forall cs p,
  Known_C31 p = false -> normal_shape (components (norm cs p)) = true.
Proof. intros cs p H. rewrite components_norm by exact H. apply normal_shape_comps_of. Qed.

(** [norm_nofix] is the model of cheap_canonicalize_path popping on an empty buffer (known/C31.json, status fixed):
    for it "../a" and "a" are the same module. *)
Theorem norm_nofix_sound_refuted :
  exists p q cwd, Known_C31 p = false /\ Known_C31 q = false /\
    norm_nofix true p = norm_nofix true q /\ resolve true cwd p <> resolve true cwd q.
Proof.
  exists (path "../a"), (path "a"), [path "d"]. vm_compute. repeat split; discriminate.
Qed.

Theorem norm_nofix_keeps_leading_parents_refuted :
  exists p, Known_C31 p = false /\ has_root p = false /\
    (leading_parents (components (norm_nofix true p)) < leading_parents (components p))%nat.
Proof. exists (path "../a"). vm_compute. repeat split; auto. Qed.

(** The known failing class (status finding): without the guard [Known_C31 p = false] the
    statements are false of the faithful model, because  \\?\  is deleted from file names. *)
Theorem norm_idem_known_refuted :
  exists p, Known_C31 p = true /\ norm true (norm true p) <> norm true p.
Proof. exists (path "\\\\?\?\"). vm_compute. split; [reflexivity|discriminate]. Qed.

Theorem norm_sound_known_refuted :
  exists p q cwd, Known_C31 p = true /\ Known_C31 q = false /\
    norm true p = norm true q /\ resolve true cwd p <> resolve true cwd q.
Proof.
  exists (path "\\?\a"), (path "a"), []. vm_compute. repeat split; discriminate.
Qed.
