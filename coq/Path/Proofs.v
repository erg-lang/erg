(** C31.  The buffer of cheap_canonicalize_path is at every point of the loop the string [str_of n] of a normal
    form [n]: from the root or k levels up, then names.  On strings [render r st] made of pieces, push/pop are
    push/pop on the pieces and [components] reads the pieces back, so the loop is [reduce] on component lists
    ([cheap_canon_nf]).  The rest is about component lists: a normal form is a fixed point of [reduce], every step
    of [reduce] is a step of the reference walk, and resolving a normal form has a closed form. *)
From Coq Require Import ZArith List Bool Arith Lia.
From ErgV Require Import Common.Lists Path.Model Path.Spec.
Import ListNotations.
Open Scope Z_scope.

Lemma str_eqbP : forall a b, reflect (a = b) (str_eqb a b).
Proof. intros a b. apply iff_reflect. symmetry. apply Common.Lists.zs_eqb_eq. Qed.

Lemma comp_eqb_spec : forall a b, comp_eqb a b = true -> a = b.
Proof.
  destruct a, b; simpl; intro H; try discriminate; try reflexivity.
  destruct (str_eqbP s s0); [congruence|discriminate].
Qed.

Lemma comps_eqb_spec : forall a b, comps_eqb a b = true -> a = b.
Proof.
  induction a as [|x a IH]; destruct b as [|y b]; simpl; intro H; try discriminate; [reflexivity|].
  apply andb_true_iff in H as [H1 H2]. apply comp_eqb_spec in H1. apply IH in H2. congruence.
Qed.

Definition sepfree (s : str) : bool := forallb (fun c => negb (is_sep c)) s.

(** a piece that [components] turns into a component *)
Definition valid_seg (x : str) : Prop := sepfree x = true /\ x <> [] /\ x <> dot.

(** a piece that [components] turns into [Normal] *)
Definition is_name (x : str) : Prop := valid_seg x /\ x <> dotdot.

Lemma valid_dotdot : valid_seg dotdot.
Proof. repeat split; discriminate. Qed.

Lemma split_nonempty : forall s, split_sep s <> [].
Proof.
  induction s as [|c r IH]; simpl; [discriminate|].
  destruct (is_sep c); [discriminate|]. destruct (split_sep r); discriminate.
Qed.

Lemma split_sepfree_id : forall x, sepfree x = true -> split_sep x = [x].
Proof.
  induction x as [|c r IH]; simpl; intro H; [reflexivity|].
  apply andb_true_iff in H as [H1 H2]. apply negb_true_iff in H1. rewrite H1.
  rewrite (IH H2). reflexivity.
Qed.

Lemma split_app_sep : forall x r, sepfree x = true -> split_sep (x ++ 47 :: r) = x :: split_sep r.
Proof.
  induction x as [|c x IH]; intros r H; simpl.
  - reflexivity.
  - apply andb_true_iff in H as [H1 H2]. apply negb_true_iff in H1. rewrite H1.
    rewrite (IH r H2). reflexivity.
Qed.

Lemma join_cons : forall x t, t <> [] -> join (x :: t) = x ++ SEP :: join t.
Proof. intros x t H. destruct t; [congruence|reflexivity]. Qed.

Lemma split_join : forall segs, Forall (fun x => sepfree x = true) segs -> segs <> [] ->
  split_sep (join segs) = segs.
Proof.
  induction segs as [|x t IH]; intros HF HN; [congruence|].
  inversion HF as [|? ? Hx Ht].
  destruct t as [|y t'].
  - apply split_sepfree_id; assumption.
  - rewrite join_cons by discriminate. unfold SEP.
    rewrite split_app_sep by assumption. rewrite IH; [reflexivity|assumption|discriminate].
Qed.

Lemma split_all_sepfree : forall s, Forall (fun x => sepfree x = true) (split_sep s).
Proof.
  induction s as [|c r IH]; simpl.
  - constructor; [reflexivity|constructor].
  - destruct (is_sep c) eqn:E.
    + constructor; [reflexivity|assumption].
    + destruct (split_sep r) as [|x xs]; [constructor; [simpl; rewrite E; reflexivity|constructor]|].
      inversion IH. constructor; [|assumption]. simpl. rewrite E. assumption.
Qed.

Lemma join_split : forall s, join (split_sep s) = s.
Proof.
  induction s as [|c r IH]; simpl; [reflexivity|].
  pose proof (split_nonempty r) as HN.
  destruct (is_sep c) eqn:E.
  - apply Z.eqb_eq in E. subst c. rewrite join_cons by assumption. rewrite IH. reflexivity.
  - destruct (split_sep r) as [|x xs]; [congruence|].
    destruct xs as [|y ys].
    + simpl in *. congruence.
    + rewrite join_cons in IH |- * by discriminate. rewrite <- IH. reflexivity.
Qed.

Lemma join_snoc : forall st x, st <> [] -> join (st ++ [x]) = join st ++ SEP :: x.
Proof.
  induction st as [|a t IH]; intros x HN; [congruence|].
  destruct t as [|b t'].
  - reflexivity.
  - rewrite <- app_comm_cons. rewrite (join_cons a (b :: t')), (join_cons a ((b :: t') ++ [x])) by discriminate.
    rewrite IH by discriminate. rewrite <- app_assoc. reflexivity.
Qed.

Lemma parse_single_name : forall x, x <> [] -> x <> dot -> x <> dotdot -> parse_single x = Some (Normal x).
Proof.
  intros x Hn Hd Hdd. unfold parse_single.
  destruct (str_eqbP x []); [contradiction|]. destruct (str_eqbP x dot); [contradiction|].
  destruct (str_eqbP x dotdot); [contradiction|reflexivity].
Qed.

Lemma parse_single_some : forall x c, parse_single x = Some c ->
  c = Parent \/ (c = Normal x /\ x <> [] /\ x <> dot /\ x <> dotdot).
Proof.
  intros x c. unfold parse_single.
  destruct (str_eqbP x []); [discriminate|]. destruct (str_eqbP x dot); [discriminate|].
  destruct (str_eqbP x dotdot); intro H; inversion H; auto.
Qed.

Lemma is_none_seg_valid : forall x, valid_seg x -> is_none_seg x = false.
Proof.
  intros x (_ & Hn & Hd). unfold is_none_seg.
  destruct (str_eqbP x dotdot) as [->|Hdd]; [reflexivity|]. rewrite parse_single_name by assumption. reflexivity.
Qed.

Definition seg_comps (x : str) : list comp := opt_list (parse_single x).

Lemma body_comps_nil : body_comps [] = [].
Proof. reflexivity. Qed.

Lemma valid_sepfree_all : forall st, Forall valid_seg st -> Forall (fun x => sepfree x = true) st.
Proof. intros st HF. eapply Forall_impl; [|exact HF]. intros a (H & _). exact H. Qed.

Lemma body_comps_join : forall st, Forall valid_seg st -> body_comps (join st) = flat_map seg_comps st.
Proof.
  intros st HF. destruct st as [|x t]; [apply body_comps_nil|].
  unfold body_comps. rewrite split_join; [reflexivity|apply valid_sepfree_all; assumption|discriminate].
Qed.

Lemma body_comps_in : forall s c, In c (body_comps s) ->
  c = Parent \/ exists x, c = Normal x /\ In x (split_sep s) /\ x <> [] /\ x <> dot /\ x <> dotdot.
Proof.
  intros s c H. apply in_flat_map in H as (x & Hx & Hc).
  destruct (parse_single x) as [c'|] eqn:E; [|contradiction]. destruct Hc as [<-|[]].
  apply parse_single_some in E as [E|(E & Hn)]; [left; exact E|right; eauto].
Qed.

(** abstract view of the buffer: rooted?, stack of pieces *)
Definition render (r : bool) (st : list str) : str := (if r then [47] else []) ++ join st.

Lemma valid_not_rooted : forall x, valid_seg x -> has_root x = false.
Proof.
  intros [|c x] (Hs & Hn & _); [congruence|].
  apply andb_true_iff in Hs as [Hc _]. apply negb_true_iff in Hc. exact Hc.
Qed.

Lemma has_root_join : forall st, Forall valid_seg st -> has_root (join st) = false.
Proof.
  intros [|x t] HF; [reflexivity|]. inversion HF as [|? ? Hx _].
  apply valid_not_rooted in Hx as Hr. destruct x as [|c x]; [destruct Hx as (_ & Hn & _); congruence|].
  destruct t; exact Hr.
Qed.

Lemma has_root_render : forall r st, Forall valid_seg st -> has_root (render r st) = r.
Proof.
  intros r st HF. unfold render. destruct r; [reflexivity|]. apply has_root_join; assumption.
Qed.

Lemma include_cur_dir_split : forall s, has_root s = false ->
  include_cur_dir s = str_eqb (hd [] (split_sep s)) dot.
Proof.
  intros [|c r] H; [reflexivity|]. unfold include_cur_dir. rewrite H. cbn [has_root] in H.
  cbn [split_sep]. rewrite H. destruct r as [|b r']; [cbn; rewrite andb_true_r; reflexivity|].
  cbn [split_sep]. destruct (is_sep b); [reflexivity|].
  pose proof (split_nonempty r'). destruct (split_sep r'); [congruence|reflexivity].
Qed.

Lemma include_cur_dir_join : forall st, Forall valid_seg st -> include_cur_dir (join st) = false.
Proof.
  intros st HF. rewrite include_cur_dir_split by (apply has_root_join; assumption).
  destruct st as [|x t]; [reflexivity|].
  rewrite split_join; [|apply valid_sepfree_all; assumption|discriminate].
  inversion HF as [|? ? (_ & _ & Hd) _]. cbn [hd]. destruct (str_eqbP x dot); [contradiction|reflexivity].
Qed.

Lemma include_cur_dir_render : forall r st, Forall valid_seg st -> include_cur_dir (render r st) = false.
Proof. intros [|] st HF; [reflexivity|]. apply include_cur_dir_join. exact HF. Qed.

Lemma components_render : forall r st, Forall valid_seg st ->
  components (render r st) = (if r then [Root] else []) ++ flat_map seg_comps st.
Proof.
  intros r st HF. unfold components. rewrite has_root_render, include_cur_dir_render by assumption.
  destruct r.
  - cbn [app]. f_equal. apply body_comps_join. exact HF.
  - apply body_comps_join. exact HF.
Qed.

Lemma join_last_char : forall st, Forall valid_seg st -> st <> [] ->
  exists s c, join st = s ++ [c] /\ is_sep c = false.
Proof.
  intros st HF HN. destruct (exists_last HN) as (t & y & E). subst st.
  apply Forall_app in HF as [Ht Hy]. inversion Hy as [|? ? Hy' _]; subst.
  destruct Hy' as (Hs & Hn & _).
  destruct (exists_last Hn) as (y0 & c & E). subst y.
  unfold sepfree in Hs. rewrite forallb_app in Hs. apply andb_true_iff in Hs as [_ Hc]. simpl in Hc.
  rewrite andb_true_r in Hc. apply negb_true_iff in Hc.
  destruct t as [|a t'].
  - exists y0, c. auto.
  - rewrite join_snoc by discriminate. exists (join (a :: t') ++ SEP :: y0), c.
    rewrite <- app_assoc. auto.
Qed.

Lemma push_render : forall r st x, Forall valid_seg st -> valid_seg x ->
  push (render r st) x = render r (st ++ [x]).
Proof.
  intros r st x HF Hx. unfold push. rewrite valid_not_rooted by assumption.
  destruct st as [|a t].
  - destruct r; reflexivity.
  - destruct (join_last_char (a :: t) HF) as (s & c & E & Hc); [discriminate|].
    assert (HB : render r (a :: t) = ((if r then [47] else []) ++ s) ++ [c]).
    { unfold render. rewrite E. apply app_assoc. }
    rewrite HB at 1. rewrite rev_unit. rewrite Hc.
    unfold render. rewrite join_snoc by discriminate.
    rewrite <- app_assoc. reflexivity.
Qed.

Lemma push_root : forall buf, push buf [47] = render true [].
Proof. reflexivity. Qed.

Lemma drop_none_valid : forall l, Forall valid_seg l -> drop_none l = l.
Proof.
  intros l HF. destruct l as [|x t]; [reflexivity|]. inversion HF.
  simpl. rewrite is_none_seg_valid by assumption. reflexivity.
Qed.

Lemma parent_render : forall r st x, Forall valid_seg st -> valid_seg x ->
  parent (render r (st ++ [x])) = Some (render r st).
Proof.
  intros r st x HF Hx.
  assert (HF' : Forall valid_seg (st ++ [x])) by (apply Forall_app; split; [assumption|constructor; [assumption|constructor]]).
  unfold parent. rewrite has_root_render, include_cur_dir_render by assumption.
  replace (skipn _ _) with (join (st ++ [x])) by (destruct r; reflexivity).
  replace (firstn _ _) with (if r then [47] else []) by (destruct r; reflexivity).
  rewrite split_join; [|apply valid_sepfree_all; assumption|destruct st; discriminate].
  rewrite rev_app_distr. simpl. rewrite is_none_seg_valid by assumption.
  rewrite drop_none_valid by (apply Forall_rev; assumption).
  rewrite rev_involutive. reflexivity.
Qed.

Lemma pop_render : forall r st x, Forall valid_seg st -> valid_seg x ->
  pop (render r (st ++ [x])) = render r st.
Proof. intros. unfold pop. rewrite parent_render by assumption. reflexivity. Qed.

Definition clean (x : str) : Prop := Known_C31 x = false.

Lemma replace_verbatim_id : forall s, clean s -> replace_verbatim s = s.
Proof.
  induction s as [|a t IH]; intro H; [reflexivity|].
  unfold clean in H. apply orb_false_iff in H as [H1 H2].
  cbn [replace_verbatim]. rewrite H1. rewrite (IH H2).
  destruct t as [|b [|c [|d r]]]; reflexivity.
Qed.

Lemma starts_app_sep : forall y r, starts_verbatim (y ++ 47 :: r) = starts_verbatim y.
Proof.
  intros [|a [|b [|c [|d y]]]] r; cbn [app]; [| | | |reflexivity].
  - destruct r as [|? [|? [|? ?]]]; reflexivity.
  - destruct r as [|? [|? ?]]; try reflexivity. cbn. destruct (a =? 92); reflexivity.
  - destruct r as [|? ?]; try reflexivity. cbn. destruct (a =? 92); destruct (b =? 92); reflexivity.
  - cbn. destruct (a =? 92); destruct (b =? 92); destruct (c =? 63); reflexivity.
Qed.

(** the marker has no separator in it, so it lies inside one piece *)
Lemma Known_app_sep : forall x r, Known_C31 (x ++ 47 :: r) = Known_C31 x || Known_C31 r.
Proof.
  induction x as [|c x IH]; intro r; cbn [app Known_C31].
  - rewrite (starts_app_sep [] r : starts_verbatim (47 :: r) = false). reflexivity.
  - rewrite (starts_app_sep (c :: x) r : starts_verbatim (c :: x ++ 47 :: r) = _), IH, orb_assoc. reflexivity.
Qed.

Lemma clean_join : forall st, clean (join st) <-> Forall clean st.
Proof.
  unfold clean. induction st as [|x t IH]; [split; constructor|].
  rewrite Forall_cons_iff, <- IH. destruct t as [|y t'].
  - tauto.
  - rewrite join_cons by discriminate. unfold SEP. rewrite Known_app_sep. apply orb_false_iff.
Qed.

Lemma clean_tl : forall p, clean p -> clean (tl p).
Proof. intros [|c r] H; [exact H|]. unfold clean in H. apply orb_false_iff in H. apply H. Qed.

Lemma clean_render : forall r st, Forall clean st -> clean (render r st).
Proof.
  intros r st HC. apply clean_join in HC. destruct r; [|exact HC].
  unfold clean, render. cbn [app Known_C31]. rewrite (starts_app_sep [] (join st) : starts_verbatim (47 :: join st) = false). exact HC.
Qed.

Definition on_names (P : str -> Prop) (c : comp) : Prop :=
  match c with Normal x => P x | _ => True end.

Definition comp_in (p : str) (c : comp) : Prop :=
  match c with
  | Root => has_root p = true
  | Normal x => is_name x /\ (clean p -> clean x)
  | _ => True
  end.

Lemma components_spec : forall p, Forall (comp_in p) (components p).
Proof.
  intro p.
  assert (body : forall s, (clean p -> clean s) -> Forall (comp_in p) (body_comps s)).
  { intros s Hs. apply Forall_forall. intros c Hc.
    apply body_comps_in in Hc as [->|(x & -> & Hx & Hn & Hd & Hdd)]; [exact I|]. split.
    - pose proof (split_all_sepfree s) as HS. rewrite Forall_forall in HS.
      repeat split; auto.
    - intro HK. apply Hs in HK. rewrite <- (join_split s) in HK. apply clean_join in HK.
      rewrite Forall_forall in HK. auto. }
  unfold components. destruct (has_root p) eqn:HR.
  - constructor; [exact HR|]. apply body, clean_tl.
  - destruct (include_cur_dir p); [constructor; [exact I|apply body, clean_tl]|apply body; auto].
Qed.

Lemma components_names : forall p, Forall (on_names is_name) (components p).
Proof.
  intro p. eapply Forall_impl; [|apply components_spec].
  intros c H. destruct c; try exact I. apply H.
Qed.

Lemma components_clean : forall p, clean p -> Forall (on_names clean) (components p).
Proof.
  intros p HK. eapply Forall_impl; [|apply components_spec].
  intros c H. destruct c; try exact I. apply H. exact HK.
Qed.

Lemma components_no_root : forall p, has_root p = false -> Forall (fun c => c <> Root) (components p).
Proof.
  intros p HR. eapply Forall_impl; [|apply components_spec].
  intros c H E. subst c. congruence.
Qed.

(** code points that are not ASCII letters *)
Definition caseless (k : Z) : Prop := k < 65 \/ 122 < k \/ (90 < k /\ k < 97).

Lemma lower_char_fix : forall c k, caseless k -> (lower_char c =? k) = (c =? k).
Proof.
  intros c k Hk. unfold caseless in Hk. unfold lower_char.
  destruct (Z.leb_spec 65 c), (Z.leb_spec c 90); cbn [andb]; try reflexivity.
  destruct (Z.eqb_spec (c + 32) k), (Z.eqb_spec c k); try reflexivity; lia.
Qed.

Lemma lower_sep : forall c, is_sep (lower_char c) = is_sep c.
Proof. intro c. unfold is_sep. apply lower_char_fix. unfold caseless. lia. Qed.

Lemma lower_char_idem : forall c, lower_char (lower_char c) = lower_char c.
Proof.
  intro c. unfold lower_char.
  destruct ((65 <=? c) && (c <=? 90)) eqn:E; [|rewrite E; reflexivity].
  apply andb_true_iff in E as [E1 E2]. apply Z.leb_le in E1. apply Z.leb_le in E2.
  destruct (Z.leb_spec 65 (c + 32)), (Z.leb_spec (c + 32) 90); cbn [andb]; lia.
Qed.

Lemma to_lower_idem : forall s, to_lower (to_lower s) = to_lower s.
Proof. intro s. unfold to_lower. rewrite map_map. apply map_ext. apply lower_char_idem. Qed.

Lemma to_lower_join : forall st, to_lower (join st) = join (map to_lower st).
Proof.
  induction st as [|x t IH]; [reflexivity|].
  destruct t as [|y t']; [reflexivity|].
  cbn [map] in *. rewrite (join_cons x), (join_cons (to_lower x)) by discriminate. rewrite <- IH.
  unfold to_lower. rewrite map_app. reflexivity.
Qed.

Lemma to_lower_render : forall r st, to_lower (render r st) = render r (map to_lower st).
Proof.
  intros r st. unfold render, to_lower at 1. rewrite map_app. fold (to_lower (join st)).
  rewrite to_lower_join. destruct r; reflexivity.
Qed.

Lemma sepfree_lower : forall x, sepfree (to_lower x) = sepfree x.
Proof. induction x as [|c x IH]; [reflexivity|]. simpl. rewrite lower_sep. f_equal. exact IH. Qed.

Lemma to_lower_dots : forall k x, to_lower x = repeat 46 k -> x = repeat 46 k.
Proof.
  induction k as [|k IH]; intros [|c x] E; try discriminate; [reflexivity|].
  injection E as Ec Ex. cbn [repeat]. f_equal; [|apply IH; exact Ex].
  apply Z.eqb_eq. rewrite <- (lower_char_fix c 46) by (unfold caseless; lia). apply Z.eqb_eq. exact Ec.
Qed.

Lemma is_name_lower : forall x, is_name x -> is_name (to_lower x).
Proof.
  intros x ((Hs & Hn & Hd) & Hdd). repeat split.
  - rewrite sepfree_lower. exact Hs.
  - destruct x; [congruence|discriminate].
  - intro E. apply Hd. exact (to_lower_dots 1 x E).
  - intro E. apply Hdd. exact (to_lower_dots 2 x E).
Qed.

Lemma starts_lower : forall s, starts_verbatim (to_lower s) = starts_verbatim s.
Proof.
  intro s. destruct s as [|a [|b [|c [|d r]]]]; try reflexivity.
  cbn [to_lower map starts_verbatim].
  rewrite !lower_char_fix by (unfold caseless; lia). reflexivity.
Qed.

Lemma Known_lower : forall s, Known_C31 (to_lower s) = Known_C31 s.
Proof.
  induction s as [|c r IH]; [reflexivity|].
  change (to_lower (c :: r)) with (lower_char c :: to_lower r).
  cbn [Known_C31]. rewrite IH. f_equal.
  change (lower_char c :: to_lower r) with (to_lower (c :: r)). apply starts_lower.
Qed.

(** [(FromRoot, rns)] stands for "/" followed by the names [rev rns], [(Up k, rns)] for ".." k times followed by
    the names: the names are held last first, as the loop pushes and pops them. *)
Inductive start := FromRoot | Up (k : nat).
Definition nf := (start * list str)%type.

Definition rooted (n : nf) : bool := match fst n with FromRoot => true | Up _ => false end.
Definition ups (n : nf) : nat := match fst n with FromRoot => O | Up k => k end.

Definition comps_of (n : nf) : list comp :=
  (if rooted n then [Root] else []) ++ repeat Parent (ups n) ++ map Normal (rev (snd n)).

Definition pieces (n : nf) : list str := repeat dotdot (ups n) ++ rev (snd n).
Definition str_of (n : nf) : str := render (rooted n) (pieces n).

(** cheap_canonicalize_path's loop body on normal forms *)
Definition step (n : nf) (c : comp) : nf :=
  match c with
  | Root => (FromRoot, [])
  | Cur => n
  | Parent =>
    match snd n with
    | _ :: t => (fst n, t)
    | [] => (match fst n with FromRoot => FromRoot | Up k => Up (S k) end, [])
    end
  | Normal x => (fst n, x :: snd n)
  end.

Definition reduce (cs : list comp) : nf := fold_left step cs (Up O, []).

(** normalize_path on normal forms *)
Definition casefold (cs : bool) (n : nf) : nf := (fst n, if cs then snd n else map to_lower (snd n)).

Lemma comps_of_name : forall h rns x, comps_of (h, x :: rns) = comps_of (h, rns) ++ [Normal x].
Proof. intros. unfold comps_of. cbn [snd rev]. rewrite map_app, !app_assoc. reflexivity. Qed.

Lemma comps_of_up : forall k, comps_of (Up (S k), []) = comps_of (Up k, []) ++ [Parent].
Proof. intro k. unfold comps_of. rewrite !app_nil_r. apply repeat_cons. Qed.

Lemma pieces_name : forall h rns x, pieces (h, x :: rns) = pieces (h, rns) ++ [x].
Proof. intros. unfold pieces. apply app_assoc. Qed.

Lemma pieces_up : forall k, pieces (Up (S k), []) = pieces (Up k, []) ++ [dotdot].
Proof. intro k. unfold pieces. rewrite !app_nil_r. apply repeat_cons. Qed.

Lemma pieces_Forall : forall (P : str -> Prop) n, P dotdot -> Forall P (snd n) -> Forall P (pieces n).
Proof.
  intros P n Hd Hn. apply Forall_app. split; [|apply Forall_rev; exact Hn].
  apply Forall_forall. intros x Hx. apply repeat_spec in Hx. subst x. exact Hd.
Qed.

Lemma pieces_valid : forall n, Forall is_name (snd n) -> Forall valid_seg (pieces n).
Proof.
  intros n H. apply pieces_Forall; [apply valid_dotdot|].
  eapply Forall_impl; [|exact H]. intros x [Hx _]. exact Hx.
Qed.

Lemma components_str_of : forall n, Forall is_name (snd n) -> components (str_of n) = comps_of n.
Proof.
  intros n H. unfold str_of. rewrite components_render by (apply pieces_valid; assumption).
  unfold comps_of, pieces. rewrite flat_map_app. f_equal. f_equal.
  - induction (ups n) as [|k IH]; [reflexivity|]. cbn [repeat flat_map]. rewrite IH. reflexivity.
  - apply Forall_rev in H. induction H as [|x l [(_ & Hn & Hd) Hdd] _ IH]; [reflexivity|].
    cbn [flat_map map]. unfold seg_comps at 1. rewrite parse_single_name by assumption. rewrite IH. reflexivity.
Qed.

Lemma has_root_str_of : forall n, Forall is_name (snd n) -> has_root (str_of n) = rooted n.
Proof. intros n H. apply has_root_render, pieces_valid. exact H. Qed.

Lemma last_is_normal_str_of : forall n, Forall is_name (snd n) ->
  last_is_normal (str_of n) = match snd n with [] => false | _ :: _ => true end.
Proof.
  intros n H. unfold last_is_normal. rewrite components_str_of by assumption.
  unfold comps_of. rewrite !rev_app_distr, <- map_rev, rev_involutive, rev_repeat.
  destruct n as [[|[|k]] [|x t]]; reflexivity.
Qed.

Lemma canon_step_str_of : forall n c, Forall is_name (snd n) -> on_names is_name c ->
  canon_step (str_of n) c = str_of (step n c).
Proof.
  intros [h rns] c Hn Hc. pose proof (pieces_valid _ Hn) as Hv. destruct c; cbn [canon_step step fst snd].
  - apply push_root.
  - reflexivity.
  - rewrite last_is_normal_str_of, has_root_str_of by assumption.
    destruct rns as [|x t].
    + destruct h as [|k]; [reflexivity|].
      unfold str_of. rewrite pieces_up. apply push_render; [exact Hv|apply valid_dotdot].
    + inversion Hn as [|? ? [Hx _] Ht]. unfold str_of. rewrite pieces_name.
      apply pop_render; [apply pieces_valid; exact Ht|exact Hx].
  - destruct Hc as [Hx _]. unfold str_of. rewrite pieces_name. apply push_render; assumption.
Qed.

Lemma step_names : forall (P : str -> Prop) n c, Forall P (snd n) -> on_names P c -> Forall P (snd (step n c)).
Proof.
  intros P [h rns] c Hn Hc. destruct c.
  - constructor.
  - exact Hn.
  - destruct rns; [constructor|]. exact (Forall_inv_tail Hn).
  - constructor; assumption.
Qed.

Lemma fold_names : forall (P : str -> Prop) cs n, Forall P (snd n) -> Forall (on_names P) cs ->
  Forall P (snd (fold_left step cs n)).
Proof.
  induction cs as [|c cs IH]; intros n Hn Hcs; [exact Hn|].
  inversion Hcs. apply IH; [apply step_names|]; assumption.
Qed.

Lemma fold_sim : forall cs n, Forall is_name (snd n) -> Forall (on_names is_name) cs ->
  fold_left canon_step cs (str_of n) = str_of (fold_left step cs n).
Proof.
  induction cs as [|c cs IH]; intros n Hn Hcs; [reflexivity|].
  inversion Hcs. cbn [fold_left]. rewrite canon_step_str_of by assumption.
  apply IH; [apply step_names|]; assumption.
Qed.

Theorem cheap_canon_nf : forall p, cheap_canon p = str_of (reduce (components p)).
Proof. intro p. apply (fold_sim (components p) (Up O, [])); [constructor|apply components_names]. Qed.

Definition nf_of (cs : bool) (p : str) : nf := casefold cs (reduce (components p)).

Definition ok (n : nf) : Prop := Forall is_name (snd n) /\ Forall clean (snd n).

Lemma ok_casefold : forall cs n, ok n -> ok (casefold cs n).
Proof.
  intros cs n [Hn Hc]. destruct cs; [split; assumption|]. split; apply Forall_map.
  - eapply Forall_impl; [|exact Hn]. apply is_name_lower.
  - eapply Forall_impl; [|exact Hc]. intros x Hx. unfold clean. rewrite Known_lower. exact Hx.
Qed.

Lemma ok_reduce : forall p, clean p -> ok (reduce (components p)).
Proof.
  intros p H. split; apply fold_names; try constructor; [apply components_names|apply components_clean; exact H].
Qed.

Lemma ok_nf_of : forall cs p, clean p -> ok (nf_of cs p).
Proof. intros cs p H. apply ok_casefold, ok_reduce, H. Qed.

Lemma normalize_str_of : forall cs n, ok n -> normalize_path cs (str_of n) = str_of (casefold cs n).
Proof.
  intros cs n [Hn Hc]. unfold normalize_path. rewrite replace_verbatim_id.
  - destruct cs; [destruct n; reflexivity|].
    unfold str_of. rewrite to_lower_render. unfold pieces. rewrite map_app, map_repeat, map_rev. reflexivity.
  - apply clean_render, pieces_Forall; [reflexivity|assumption].
Qed.

Lemma fold_parents : forall k j, fold_left step (repeat Parent k) (Up j, []) = (Up (j + k), []).
Proof.
  induction k as [|k IH]; intro j; cbn [repeat fold_left].
  - rewrite Nat.add_0_r. reflexivity.
  - cbn [step fst snd]. rewrite IH, Nat.add_succ_r. reflexivity.
Qed.

Lemma fold_normals : forall l h rns, fold_left step (map Normal l) (h, rns) = (h, rev l ++ rns).
Proof.
  induction l as [|x l IH]; intros h rns; [reflexivity|].
  cbn [map fold_left step fst snd rev]. rewrite IH, <- app_assoc. reflexivity.
Qed.

Theorem reduce_comps_of : forall n, reduce (comps_of n) = n.
Proof.
  intros [h rns]. unfold reduce, comps_of. rewrite !fold_left_app.
  replace (fold_left step (repeat Parent (ups (h, rns))) _) with (h, @nil str).
  - rewrite fold_normals, rev_involutive, app_nil_r. reflexivity.
  - destruct h as [|k]; [reflexivity|symmetry; apply (fold_parents k 0)].
Qed.

Theorem norm_nf : forall cs p, clean p -> norm cs p = str_of (nf_of cs p).
Proof.
  intros cs p H. unfold norm. rewrite cheap_canon_nf. apply normalize_str_of, ok_reduce, H.
Qed.

Theorem norm_str_of : forall cs n, ok n -> norm cs (str_of n) = str_of (casefold cs n).
Proof.
  intros cs n H. unfold norm. rewrite cheap_canon_nf, components_str_of, reduce_comps_of by apply H.
  apply normalize_str_of, H.
Qed.

Lemma components_norm : forall cs p, clean p -> components (norm cs p) = comps_of (nf_of cs p).
Proof. intros cs p H. rewrite norm_nf by assumption. apply components_str_of, ok_nf_of, H. Qed.

Lemma casefold_idem : forall cs n, casefold cs (casefold cs n) = casefold cs n.
Proof.
  intros cs n. unfold casefold. cbn [fst snd]. destruct cs; [reflexivity|].
  rewrite map_map. f_equal. apply map_ext. apply to_lower_idem.
Qed.

Lemma walk_app : forall d a b, walk d (a ++ b) = walk (walk d a) b.
Proof. intros. unfold walk. apply fold_left_app. Qed.

Lemma walk_snoc : forall d a c, walk d (a ++ [c]) = walk1 (walk d a) c.
Proof. intros. rewrite walk_app. reflexivity. Qed.

Lemma walk_normals : forall l d, walk d (map Normal l) = d ++ l.
Proof.
  induction l as [|x l IH]; intro d; [symmetry; apply app_nil_r|].
  change (walk d (map Normal (x :: l))) with (walk (d ++ [x]) (map Normal l)).
  rewrite IH, <- app_assoc. reflexivity.
Qed.

Lemma walk_comps_of : forall d n, walk d (comps_of n) = walk d (comps_of (fst n, [])) ++ rev (snd n).
Proof.
  intros d n. unfold comps_of, rooted, ups.
  rewrite app_nil_r, !app_assoc, walk_app. apply walk_normals.
Qed.

Lemma walk_step : forall d n c, walk d (comps_of (step n c)) = walk1 (walk d (comps_of n)) c.
Proof.
  intros d [h rns] c. destruct c; cbn [step fst snd].
  - reflexivity.
  - reflexivity.
  - destruct rns as [|x t].
    + destruct h as [|k]; [reflexivity|]. rewrite comps_of_up. apply walk_snoc.
    + rewrite comps_of_name, walk_snoc. cbn [walk1]. rewrite removelast_last. reflexivity.
  - rewrite comps_of_name. apply walk_snoc.
Qed.

Lemma walk_fold : forall d cs n, walk d (comps_of (fold_left step cs n)) = walk (walk d (comps_of n)) cs.
Proof.
  intros d cs. induction cs as [|c cs IH]; intro n; [reflexivity|].
  cbn [fold_left]. rewrite IH, walk_step. reflexivity.
Qed.

Theorem walk_reduce : forall d cs, walk d (comps_of (reduce cs)) = walk d cs.
Proof. intros d cs. apply (walk_fold d cs (Up O, [])). Qed.

Lemma walk_casefold : forall cs d n,
  map (fold_name cs) (walk d (comps_of (casefold cs n))) = map (fold_name cs) (walk d (comps_of n)).
Proof.
  intros cs d n. destruct cs; [destruct n; reflexivity|].
  rewrite (walk_comps_of d n), (walk_comps_of d (casefold false n)). cbn [casefold fst snd].
  change (fold_name false) with to_lower. rewrite <- map_rev, !map_app, map_map.
  f_equal. apply map_ext. apply to_lower_idem.
Qed.

Theorem normal_shape_comps_of : forall n, normal_shape (comps_of n) = true.
Proof.
  intros [h rns]. unfold comps_of, rooted, ups. cbn [fst snd]. generalize (rev rns) as l. intro l.
  assert (HN : forallb is_normal (map Normal l) = true) by (induction l; [reflexivity|assumption]).
  assert (HP : forall k, parents_then_normals (repeat Parent k ++ map Normal l) = true).
  { induction k as [|k IH]; [|exact IH]. destruct l; [reflexivity|exact HN]. }
  destruct h as [|[|k]]; [exact HN|destruct l; [reflexivity|exact HN]|exact (HP (S k))].
Qed.

Lemma leading_comps_of : forall n, leading_parents (comps_of n) = ups n.
Proof.
  intros [h rns]. unfold comps_of, rooted, ups. cbn [fst snd]. destruct h as [|k]; [reflexivity|].
  induction k as [|k IH]; [destruct (rev rns); reflexivity|].
  cbn [repeat app leading_parents] in *. rewrite IH. reflexivity.
Qed.

Lemma ups_step : forall n c, c <> Root -> (ups n <= ups (step n c))%nat.
Proof.
  intros [h rns] c Hc. destruct c; [congruence|reflexivity| |reflexivity].
  destruct rns; [|reflexivity]. destruct h; cbn; lia.
Qed.

Lemma ups_fold : forall cs n, Forall (fun c => c <> Root) cs -> (ups n <= ups (fold_left step cs n))%nat.
Proof.
  induction cs as [|c cs IH]; intros n H; [reflexivity|]. inversion H.
  cbn [fold_left]. rewrite <- IH by assumption. apply ups_step. assumption.
Qed.

(** leading ".." are never popped: each is pushed on a buffer that holds no name *)
Lemma leading_fold : forall cs k, Forall (fun c => c <> Root) cs ->
  (k + leading_parents cs <= ups (fold_left step cs (Up k, [])))%nat.
Proof.
  induction cs as [|c cs IH]; intros k H; [cbn; lia|]. inversion H as [|? ? Hc Hcs].
  destruct c; [congruence| | |]; cbn [leading_parents].
  - rewrite Nat.add_0_r. apply (ups_fold (Cur :: cs) (Up k, [])). exact H.
  - rewrite Nat.add_succ_r. apply (IH (S k)). exact Hcs.
  - rewrite Nat.add_0_r. apply (ups_fold (Normal s :: cs) (Up k, [])). exact H.
Qed.
