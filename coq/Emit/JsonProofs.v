(** C18.  A printed constant is described by [printed t jv]: the text [t] is read back as [jv] by
    [pvalue] in front of any continuation that cannot prolong a number.  Arrays and objects are handled once,
    over lists of such texts; the loops of the generator are instances of one traversal [collect].  What the
    generator does at each level, constant, binding, module, is one statement [outcome]. *)
From Coq Require Import ZArith List Bool Lia.
From ErgV Require Import Common.Lists Emit.Text Emit.TextProofs Emit.Json Emit.JsonSpec.
Import ListNotations.
Open Scope Z_scope.

(** what may follow a printed number: nothing that [pnumber] would still take *)
Definition safe (rest : text) : bool :=
  match rest with
  | [] => true
  | c :: _ => negb (is_digit c || (c =? 46) || (c =? 101) || (c =? 69))
  end.
Definition stops (rest : text) : bool := match rest with [] => true | c :: _ => negb (is_digit c) end.

Lemma safe_inv : forall rest, safe rest = true ->
  stops rest = true /\ pfrac rest = Some ([], rest) /\ pexp rest = Some (0, rest).
Proof.
  intros [|c r] H; [repeat split; reflexivity|]. cbn [safe] in H. apply negb_true_iff in H.
  rewrite !orb_false_iff in H. destruct H as [[[Hd H46] H101] H69].
  unfold stops, pfrac, pexp. rewrite Hd, H46, H101, H69. repeat split.
Qed.

Lemma is_digit_char : forall d, is_digit_val d = true -> is_digit (48 + d) = true /\ 48 + d - 48 = d.
Proof.
  intros d H. unfold is_digit_val in H. apply andb_true_iff in H. destruct H as [A B].
  apply Z.leb_le in A. apply Z.leb_le in B. split; [|lia].
  unfold is_digit. apply andb_true_iff. split; apply Z.leb_le; lia.
Qed.

Lemma span_digits_chars : forall ds rest, forallb is_digit_val ds = true -> stops rest = true ->
  span_digits (digit_chars ds ++ rest) = (ds, rest).
Proof.
  induction ds as [|d ds IH]; intros rest Hd Hr.
  - cbn. destruct rest as [|c r]; [reflexivity|]. cbn. apply negb_true_iff in Hr. rewrite Hr. reflexivity.
  - cbn [forallb] in Hd. apply andb_true_iff in Hd. destruct Hd as [H1 H2].
    cbn [digit_chars map app span_digits]. destruct (is_digit_char _ H1) as [A B].
    rewrite A. fold (digit_chars ds). rewrite (IH rest H2 Hr). rewrite B. reflexivity.
Qed.

Lemma canon_digits_inv : forall ds, canon_digits ds = true ->
  forallb is_digit_val ds = true /\ exists c t, digit_chars ds = c :: t /\ 48 <= c <= 57.
Proof.
  intros ds H. unfold canon_digits in H. apply andb_true_iff in H. destruct H as [A B].
  split; [assumption|]. destruct ds as [|d r]; [discriminate|].
  eexists _, _. split; [reflexivity|]. exact (Forall_inv (digit_chars_range _ A)).
Qed.

Lemma pfrac_print : forall fp rest, forallb is_digit_val fp = true -> safe rest = true ->
  pfrac (match fp with [] => [] | _ => 46 :: digit_chars fp end ++ rest) = Some (fp, rest).
Proof.
  intros fp rest Hfp Hs. destruct (safe_inv _ Hs) as (Hstop & Hfrac & _).
  destruct fp as [|f fp']; [exact Hfrac|].
  cbn [app pfrac]. change (46 =? 46) with true. cbv iota.
  rewrite (span_digits_chars (f :: fp') rest Hfp Hstop). reflexivity.
Qed.

Lemma pnumber_print : forall neg ip fp rest,
  canon_digits ip = true -> forallb is_digit_val fp = true -> safe rest = true ->
  pnumber (float_to_string neg ip fp ++ rest) =
  Some (JNum neg (digits_val (ip ++ fp)) (- Z.of_nat (length fp)), rest).
Proof.
  intros neg ip fp rest Hip Hfp Hs.
  destruct (canon_digits_inv _ Hip) as (Hall & c & t & E & Hc).
  set (tail := match fp with [] => [] | _ => 46 :: digit_chars fp end ++ rest).
  assert (Hsign : psign (float_to_string neg ip fp ++ rest) = (neg, digit_chars ip ++ tail)).
  { unfold float_to_string, tail. rewrite <- !app_assoc. destruct neg; [reflexivity|].
    rewrite E. cbn [app psign]. rewrite (proj2 (Z.eqb_neq c 45)) by lia. reflexivity. }
  assert (Htail : stops tail = true).
  { unfold tail. destruct fp; [apply safe_inv; assumption|reflexivity]. }
  unfold pnumber. rewrite Hsign, (span_digits_chars _ _ Hall Htail), Hip. cbn [negb].
  unfold tail. rewrite (pfrac_print _ _ Hfp Hs).
  destruct (safe_inv _ Hs) as (_ & _ & He). rewrite He. reflexivity.
Qed.

Definition ocons (c : Z) (x : option (text * text)) : option (text * text) :=
  match x with Some (t, r) => Some (c :: t, r) | None => None end.

Lemma hex_val_digit : forall d, 0 <= d < 16 -> hex_val (hex_digit d) = Some d.
Proof.
  intros d H. unfold hex_val, hex_digit. destruct (Z.ltb_spec d 10).
  - destruct (Z.leb_spec 48 (48 + d)), (Z.leb_spec (48 + d) 57); try lia. cbn [andb]. f_equal. lia.
  - destruct (Z.leb_spec 48 (87 + d)), (Z.leb_spec (87 + d) 57); try lia. cbn [andb].
    destruct (Z.leb_spec 97 (87 + d)), (Z.leb_spec (87 + d) 102); try lia. cbn [andb]. f_equal. lia.
Qed.

Lemma pstring_plain : forall c X, (c =? 34) = false -> (c =? 92) = false -> (c <? 32) = false ->
  (1114111 <? c) = false -> pstring (c :: X) = ocons c (pstring X).
Proof.
  intros c X H1 H2 H3 H4. cbn [pstring]. rewrite H1, H2, H3, H4. reflexivity.
Qed.

(** [pstring X] is generalised before the case split on the lookahead [X]: with [X] in constructor form,
    comparing two copies of [pstring X] by conversion unfolds the parser at every level. *)
Lemma pstring_u4 : forall a b c d u X, hex4 a b c d = Some u -> is_high_surr u = false ->
  pstring (92 :: 117 :: a :: b :: c :: d :: X) = ocons u (pstring X).
Proof.
  intros a b c d u X Hh Hs. cbn [pstring Z.eqb Pos.eqb]. rewrite Hh, Hs. cbn [andb].
  unfold ocons. generalize (pstring X). intros p.
  destruct X as [|? [|? [|? [|? [|? [|? ?]]]]]]; reflexivity.
Qed.

Lemma pstring_char : forall c X, valid_cp c = true -> pstring (json_str_char c ++ X) = ocons c (pstring X).
Proof.
  intros c X Hc. unfold valid_cp in Hc. apply andb_true_iff in Hc. destruct Hc as [Hc0 Hc1].
  apply Z.leb_le in Hc0. apply Z.leb_le in Hc1. unfold json_str_char.
  destruct (Z.eqb_spec c 34) as [->|H34]; [reflexivity|].
  destruct (Z.eqb_spec c 92) as [->|H92]; [reflexivity|].
  destruct (Z.ltb_spec c 32) as [H32|H32]; cbn [app].
  - apply pstring_u4.
    + unfold hex4. rewrite !hex_val_digit.
      * cbn. f_equal. rewrite (Z.div_mod c 16) at 3 by lia. lia.
      * apply Z.mod_pos_bound. lia.
      * split; [apply Z.div_pos|apply Z.div_lt_upper_bound]; lia.
    + unfold is_high_surr. apply andb_false_iff. left. apply Z.leb_gt. lia.
  - apply pstring_plain; [apply Z.eqb_neq|apply Z.eqb_neq|apply Z.ltb_ge|apply Z.ltb_ge]; lia.
Qed.

Lemma pstring_json_str : forall s rest, valid_text s = true ->
  pstring (flat_map json_str_char s ++ 34 :: rest) = Some (s, rest).
Proof. apply (escaped_body pstring json_str_char valid_cp); [reflexivity|exact pstring_char]. Qed.

Lemma skip_ws_app : forall w s, forallb is_ws w = true -> skip_ws (w ++ s) = skip_ws s.
Proof.
  induction w as [|c w IH]; intros s H; [reflexivity|].
  cbn [forallb] in H. apply andb_true_iff in H. destruct H as [A B].
  cbn [app skip_ws]. rewrite A. apply IH. assumption.
Qed.

Lemma skip_ws_head : forall c s, is_ws c = false -> skip_ws (c :: s) = c :: s.
Proof. intros c s H. cbn. rewrite H. reflexivity. Qed.

Lemma pvalue_ws : forall w fuel s, forallb is_ws w = true -> pvalue fuel (w ++ s) = pvalue fuel s.
Proof.
  intros w fuel s H. destruct fuel; [reflexivity|]. cbn [pvalue]. rewrite skip_ws_app by assumption. reflexivity.
Qed.

Lemma pelems_ws : forall w fuel s, forallb is_ws w = true -> pelems fuel (w ++ s) = pelems fuel s.
Proof.
  intros w fuel s H. destruct fuel; [reflexivity|]. cbn [pelems]. rewrite pvalue_ws by assumption. reflexivity.
Qed.

Lemma pmembers_ws : forall w fuel s, forallb is_ws w = true -> pmembers fuel (w ++ s) = pmembers fuel s.
Proof.
  intros w fuel s H. destruct fuel; [reflexivity|]. cbn [pmembers]. rewrite skip_ws_app by assumption. reflexivity.
Qed.

Lemma pvalue_ws1 : forall c fuel s, is_ws c = true -> pvalue fuel (c :: s) = pvalue fuel s.
Proof. intros c fuel s H. apply (pvalue_ws [c]). cbn. rewrite H. reflexivity. Qed.
Lemma pelems_ws1 : forall c fuel s, is_ws c = true -> pelems fuel (c :: s) = pelems fuel s.
Proof. intros c fuel s H. apply (pelems_ws [c]). cbn. rewrite H. reflexivity. Qed.

Lemma safe_ws_app : forall w c r, forallb is_ws w = true -> safe (c :: r) = true -> safe (w ++ c :: r) = true.
Proof.
  intros [|x w] c r H Hs; [exact Hs|].
  cbn [forallb] in H. apply andb_true_iff in H. destruct H as [A _].
  unfold is_ws in A. rewrite !orb_true_iff, !Z.eqb_eq in A. destruct A as [[[->| ->]| ->]| ->]; reflexivity.
Qed.

Definition printed (t : text) (jv : jvalue) : Prop :=
  forall fuel rest, (length t <= fuel)%nat -> safe rest = true -> pvalue fuel (t ++ rest) = Some (jv, rest).

(** [t] is not empty, so one unit of fuel is always there *)
Lemma word_printed : forall t jv, t <> [] ->
  (forall f rest, safe rest = true -> pvalue (S f) (t ++ rest) = Some (jv, rest)) -> printed t jv.
Proof.
  intros t jv Hne H [|f] rest Hfuel Hs; [|apply H, Hs]. destruct t; [congruence|cbn in Hfuel; lia].
Qed.

Lemma printed_json_parse : forall t jv, printed t jv -> json_denotes t jv.
Proof.
  intros t jv H. unfold json_denotes, json_parse.
  specialize (H (S (length t)) [] ltac:(lia) eq_refl). rewrite app_nil_r in H. rewrite H. reflexivity.
Qed.

(** what the parser accepts begins, after whitespace, with something other than the closing bracket: this is how
    it tells the first element from the end of an empty array or object *)
Lemma pvalue_head : forall f s x, pvalue f s = Some x -> exists c r, skip_ws s = c :: r /\ (c =? 93) = false.
Proof.
  intros [|f] s x H; [discriminate|]. cbn [pvalue] in H.
  destruct (skip_ws s) as [|c r]; [discriminate|]. exists c, r. split; [reflexivity|].
  destruct (Z.eqb_spec c 93) as [->|]; [discriminate H|reflexivity].
Qed.

Lemma pelems_head : forall f s x, pelems f s = Some x -> exists c r, skip_ws s = c :: r /\ (c =? 93) = false.
Proof.
  intros [|f] s x H; [discriminate|]. cbn [pelems] in H.
  destruct (pvalue f s) eqn:E; [|discriminate]. exact (pvalue_head f s _ E).
Qed.

Lemma pmembers_head : forall f s x, pmembers f s = Some x -> exists c r, skip_ws s = c :: r /\ (c =? 125) = false.
Proof.
  intros [|f] s x H; [discriminate|]. cbn [pmembers] in H.
  destruct (skip_ws s) as [|c r]; [discriminate|]. exists c, r. split; [reflexivity|].
  destruct (Z.eqb_spec c 125) as [->|]; [discriminate H|reflexivity].
Qed.

Lemma pelems_items : forall ts jvs, Forall2 printed ts jvs -> ts <> [] ->
  forall fuel rest, lt (length (join [44; 32] ts)) fuel ->
  pelems fuel (join [44; 32] ts ++ 93 :: rest) = Some (jvs, rest).
Proof.
  induction 1 as [|t jv ts jvs Hx HF IH]; intros Hne fuel rest Hfuel; [congruence|].
  destruct fuel as [|f]; [lia|].
  inversion HF as [|t2 jv2 ts' jvs' _ _ E1 E2]; subst.
  - cbn [join] in *. cbn [pelems].
    rewrite (Hx f (93 :: rest)) by (try reflexivity; lia). reflexivity.
  - rewrite join_cons2 in *. rewrite !app_length in Hfuel. cbn [length] in Hfuel.
    rewrite <- !app_assoc. cbn [pelems].
    rewrite (Hx f ([44; 32] ++ join [44; 32] (t2 :: ts') ++ 93 :: rest)) by (try reflexivity; lia).
    cbn [app]. rewrite skip_ws_head by reflexivity. change (44 =? 44) with true. cbv iota.
    rewrite pelems_ws1 by reflexivity.
    rewrite (IH ltac:(discriminate) f rest) by lia. reflexivity.
Qed.

Lemma array_parses : forall ts jvs, Forall2 printed ts jvs -> printed (91 :: join [44; 32] ts ++ [93]) (JArr jvs).
Proof.
  intros ts jvs HF fuel rest Hfuel Hs.
  destruct fuel as [|f]; [cbn in Hfuel; lia|].
  cbn [length] in Hfuel. rewrite app_length in Hfuel. cbn [length] in Hfuel.
  cbn [app pvalue]. rewrite skip_ws_head by reflexivity. cbn [Z.eqb Pos.eqb].
  rewrite <- app_assoc. cbn [app].
  destruct ts as [|t ts].
  - inversion HF. cbn [join app]. rewrite skip_ws_head by reflexivity. reflexivity.
  - pose proof (pelems_items _ _ HF ltac:(discriminate) f rest ltac:(lia)) as E.
    destruct (pelems_head _ _ _ E) as (c & r & -> & ->). rewrite E. reflexivity.
Qed.

Definition member (mt : text) (kv : text * jvalue) : Prop :=
  exists tv, mt = pair_text (json_str (fst kv)) tv /\ valid_text (fst kv) = true /\ printed tv (snd kv).

Lemma member_head : forall mt kv, member mt kv -> exists J, mt = 34 :: J.
Proof. intros mt kv (tv & -> & _). eexists. reflexivity. Qed.

Lemma pmembers_member : forall mt kv f rest, member mt kv -> (length mt <= f)%nat -> safe rest = true ->
  pmembers (S f) (mt ++ rest) =
  match skip_ws rest with
  | c :: r =>
    if c =? 44 then match pmembers f r with Some (l, r') => Some (kv :: l, r') | None => None end
    else if c =? 125 then Some ([kv], r) else None
  | [] => None
  end.
Proof.
  intros mt [k jv] f rest (tv & -> & Hk & Hx) Hlen Hs. cbn [fst snd] in *.
  unfold pair_text, json_str in *. cbn [app length] in *. rewrite !app_length in Hlen. cbn [length] in Hlen.
  rewrite <- !app_assoc. cbn [pmembers app].
  rewrite skip_ws_head by reflexivity. change (negb (34 =? 34)) with false. cbv iota.
  rewrite pstring_json_str by assumption.
  rewrite skip_ws_head by reflexivity. change (negb (58 =? 58)) with false. cbv iota.
  rewrite pvalue_ws1 by reflexivity. rewrite (Hx f rest) by (assumption || lia). reflexivity.
Qed.

Lemma pmembers_items : forall w w2, forallb is_ws w = true -> forallb is_ws w2 = true ->
  forall mts kvs, Forall2 member mts kvs -> mts <> [] ->
  forall fuel rest, lt (length (join (44 :: w) mts)) fuel ->
  pmembers fuel (join (44 :: w) mts ++ w2 ++ 125 :: rest) = Some (kvs, rest).
Proof.
  intros w w2 Hw Hw2.
  induction 1 as [|mt kv mts kvs Hx HF IH]; intros Hne fuel rest Hfuel; [congruence|].
  destruct fuel as [|f]; [lia|].
  inversion HF as [|mt2 kv2 mts' kvs' _ _ E1 E2]; subst.
  - cbn [join] in *. rewrite (pmembers_member _ _ _ _ Hx) by (try apply safe_ws_app; auto; lia).
    rewrite skip_ws_app by assumption. rewrite skip_ws_head by reflexivity. reflexivity.
  - rewrite join_cons2 in *. rewrite !app_length in Hfuel. cbn [length] in Hfuel.
    rewrite <- !app_assoc. rewrite (pmembers_member _ _ _ _ Hx) by (try reflexivity; lia).
    cbn [app]. rewrite skip_ws_head by reflexivity. change (44 =? 44) with true. cbv iota.
    rewrite pmembers_ws by assumption.
    rewrite (IH ltac:(discriminate) f rest) by lia. reflexivity.
Qed.

(** an object with whitespace [w0] after the opening brace: [{k: v, k: v}] inside a value,
    [{\nk: v,\nk: v\n}] for a module *)
Lemma object_parses : forall w0 w w2,
  forallb is_ws w0 = true -> forallb is_ws w = true -> forallb is_ws w2 = true ->
  forall mts kvs, Forall2 member mts kvs ->
  printed (123 :: w0 ++ join (44 :: w) mts ++ w2 ++ [125]) (JObj kvs).
Proof.
  intros w0 w w2 H0 Hw H2 mts kvs HF fuel rest Hfuel Hs.
  destruct fuel as [|f]; [cbn in Hfuel; lia|].
  cbn [length] in Hfuel. rewrite !app_length in Hfuel. cbn [length] in Hfuel.
  cbn [app pvalue]. rewrite skip_ws_head by reflexivity. cbn [Z.eqb Pos.eqb].
  rewrite <- !app_assoc. rewrite skip_ws_app, pmembers_ws by assumption.
  destruct mts as [|mt mts].
  - inversion HF. cbn [join app]. rewrite skip_ws_app by assumption. cbn [app]. rewrite skip_ws_head by reflexivity. reflexivity.
  - pose proof (pmembers_items w w2 Hw H2 _ _ HF ltac:(discriminate) f rest ltac:(lia)) as E. cbn [app] in *.
    destruct (pmembers_head _ _ _ E) as (c & r & -> & ->). rewrite E. reflexivity.
Qed.

(** What a printer that may decline does: [o] is its answer for an input that stands for [y], [b] says whether the
    input has a printed form, [w] whether it is well formed.  "It answers exactly when [b]" and "the answer to a well-formed
    input is [Q]-related to [y]" are one relation, closed under [option_map] and [collect]: every level from constants
    to modules is specified by one statement of this form. *)
Definition outcome {T B} (Q : T -> B -> Prop) (w b : bool) (o : option T) (y : B) : Prop :=
  match o with Some t => b = true /\ (w = true -> Q t y) | None => b = false end.

Lemma outcome_some : forall {T B} (Q : T -> B -> Prop) w b o y, outcome Q w b o y -> (o <> None <-> b = true).
Proof. intros T B Q w b [t|] y; cbn; [intros [-> _]|intros ->]; split; congruence. Qed.

Lemma outcome_map : forall {T T' B B'} (Q : T -> B -> Prop) (Q' : T' -> B' -> Prop) (h : T -> T') (k : B -> B'),
  (forall t y, Q t y -> Q' (h t) (k y)) ->
  forall w b o y, outcome Q w b o y -> outcome Q' w b (option_map h o) (k y).
Proof. intros T T' B B' Q Q' h k H w b [t|] y; cbn; [intros [-> Hq]; auto|auto]. Qed.

(** [xs.iter().map(f).collect::<Option<Vec<_>>>()]; [f] stays outside the fixpoint, so that the loops
    inside [value_to_json] and [transpile_expr] are instances by conversion *)
Section Collect.
  Context {A : Type} (f : A -> option text).
  Fixpoint collect (l : list A) : option (list text) :=
    match l with [] => Some [] | x :: r => opt_cons (f x) (collect r) end.
End Collect.

Lemma collect_outcome : forall {A B} (f : A -> option text) (w b : A -> bool) (g : A -> B) Q l,
  Forall (fun x => outcome Q (w x) (b x) (f x) (g x)) l ->
  outcome (Forall2 Q) (forallb w l) (forallb b l) (collect f l) (map g l).
Proof.
  intros A B f w b g Q l H. induction H as [|x l Hx _ IH]; cbn [collect forallb map]; [split; constructor|].
  destruct (f x) as [t|]; cbn in Hx; [destruct Hx as [-> Hq]|rewrite Hx; reflexivity].
  destruct (collect f l) as [ts|]; cbn in IH |- *; [destruct IH as [-> IH]|exact IH].
  split; [reflexivity|]. intros Hw. apply andb_true_iff in Hw. destruct Hw. auto.
Qed.

Lemma collect_ext : forall {A} (f g : A -> option text) l,
  Forall (fun x => f x = g x) l -> collect f l = collect g l.
Proof. intros A f g l H. induction H as [|x l Hx _ IH]; cbn [collect]; congruence. Qed.

Lemma collect_map : forall {A B} (f : B -> option text) (h : A -> B) l,
  collect f (map h l) = collect (fun x => f (h x)) l.
Proof. intros A B f h l. induction l as [|x l IH]; cbn [collect map]; congruence. Qed.

(** the loop over the pairs of a record or a dict, in the form the generator's code takes *)
Definition collect2 {K V : Type} (F : K -> V -> option text) : list (K * V) -> option (list text) :=
  fix go l := match l with [] => Some [] | (k, x) :: r => opt_cons (F k x) (go r) end.

Lemma collect2_collect : forall {K V} (F : K -> V -> option text) l,
  collect2 F l = collect (fun kv => F (fst kv) (snd kv)) l.
Proof. intros K V F l. induction l as [|[k x] l IH]; cbn [collect2 collect fst snd]; congruence. Qed.

Definition array_text (ts : list text) : text := 91 :: join [44; 32] ts ++ [93].
Definition object_text (ts : list text) : text := 123 :: join [44; 32] ts ++ [125].
Definition member_json (k : text) : option text -> option text := option_map (pair_text (json_str k)).
Definition dict_member (kv : value * value) : option text :=
  match fst kv with VStr k => member_json k (value_to_json (snd kv)) | _ => None end.

Lemma value_to_json_record : forall l, value_to_json (VRecord l) =
  option_map object_text (collect (fun kv => member_json (fst kv) (value_to_json (snd kv))) l).
Proof.
  intros l. rewrite <- (collect2_collect (fun k x => member_json k (value_to_json x))). reflexivity.
Qed.

Fixpoint dict_json (l : list (value * value)) : option (list text) :=
  match l with
  | [] => Some []
  | (VStr k, x) :: r => opt_cons (member_json k (value_to_json x)) (dict_json r)
  | _ :: _ => None
  end.
Lemma value_to_json_dict : forall l, value_to_json (VDict l) = option_map object_text (collect dict_member l).
Proof.
  intros l. change (value_to_json (VDict l)) with (option_map object_text (dict_json l)). f_equal.
  induction l as [|[k x] l IH]; [reflexivity|]. cbn [dict_json collect]. rewrite <- IH.
  destruct k; reflexivity.
Qed.

Section value_ind'.
  Variable P : value -> Prop.
  Hypothesis HInt : forall z, P (VInt z).
  Hypothesis HFloat : forall n ip fp, P (VFloat n ip fp).
  Hypothesis HNonFinite : P VFloatNonFinite.
  Hypothesis HStr : forall s, P (VStr s).
  Hypothesis HBool : forall b, P (VBool b).
  Hypothesis HNone : P VNone.
  Hypothesis HOther : P VOther.
  Hypothesis HList : forall l, Forall P l -> P (VList l).
  Hypothesis HTuple : forall l, Forall P l -> P (VTuple l).
  Hypothesis HRecord : forall l, Forall (fun kv => P (snd kv)) l -> P (VRecord l).
  Hypothesis HDict : forall l, Forall (fun kv => P (fst kv) /\ P (snd kv)) l -> P (VDict l).
  Fixpoint value_ind' (v : value) : P v :=
    match v with
    | VInt z => HInt z
    | VFloat n ip fp => HFloat n ip fp
    | VFloatNonFinite => HNonFinite
    | VStr s => HStr s
    | VBool b => HBool b
    | VNone => HNone
    | VOther => HOther
    | VList l => HList l (Forall_all value_ind' l)
    | VTuple l => HTuple l (Forall_all value_ind' l)
    | VRecord l => HRecord l (Forall_all (fun kv => value_ind' (snd kv)) l)
    | VDict l => HDict l (Forall_all (fun kv => conj (value_ind' (fst kv)) (value_ind' (snd kv))) l)
    end.
End value_ind'.

(** a sign or a digit can only begin a number: every other comparison in [pvalue] fails *)
Lemma pvalue_number : forall c t rest f, (c = 45 \/ 48 <= c <= 57) ->
  pvalue (S f) ((c :: t) ++ rest) = pnumber ((c :: t) ++ rest).
Proof.
  intros c t rest f Hc. cbn [app pvalue skip_ws]. unfold is_ws.
  rewrite !(proj2 (Z.eqb_neq _ _)) by lia. cbn [orb strip_prefix].
  rewrite !(proj2 (Z.eqb_neq _ _)) by lia. reflexivity.
Qed.

Lemma number_printed : forall neg ip fp, canon_digits ip = true -> forallb is_digit_val fp = true ->
  printed (float_to_string neg ip fp) (JNum neg (digits_val (ip ++ fp)) (- Z.of_nat (length fp))).
Proof.
  intros neg ip fp Hip Hfp.
  destruct (canon_digits_inv _ Hip) as (_ & d & r & E & Hd).
  assert (Hhead : exists c t, float_to_string neg ip fp = c :: t /\ (c = 45 \/ 48 <= c <= 57)).
  { unfold float_to_string. rewrite E. destruct neg; cbn [app].
    - eexists _, _. split; [reflexivity|]. left. reflexivity.
    - eexists _, _. split; [reflexivity|]. right. exact Hd. }
  destruct Hhead as (c & t & Et & Hc). apply word_printed.
  - rewrite Et. discriminate.
  - intros f rest Hs. rewrite Et, pvalue_number by assumption. rewrite <- Et. apply pnumber_print; assumption.
Qed.

Lemma int_to_string_float : forall z, int_to_string z = float_to_string (z <? 0) (nat_digits (Z.abs z)) [].
Proof.
  intros z. unfold int_to_string, float_to_string. destruct (z <? 0) eqn:E.
  - apply Z.ltb_lt in E. rewrite Z.abs_neq by lia. cbn [app]. rewrite app_nil_r. reflexivity.
  - apply Z.ltb_ge in E. rewrite Z.abs_eq by lia. cbn [app]. rewrite app_nil_r. reflexivity.
Qed.

Lemma string_printed : forall s, valid_text s = true -> printed (json_str s) (JStr s).
Proof.
  intros s Hs. apply word_printed; [discriminate|]. intros f rest _.
  unfold json_str. cbn [app pvalue]. rewrite skip_ws_head by reflexivity. change (34 =? 34) with true. cbv iota.
  rewrite <- app_assoc. cbn [app]. rewrite pstring_json_str by exact Hs. reflexivity.
Qed.

Lemma member_outcome : forall k w b o jv, outcome printed w b o jv ->
  outcome member (valid_text k && w) b (member_json k o) (k, jv).
Proof.
  intros k w b [t|] jv; cbn; [|auto]. intros [-> H]. split; [reflexivity|]. intros Hw.
  apply andb_true_iff in Hw. destruct Hw. exists t. auto.
Qed.

(** the well-formedness, the printability and the value of a container are, by conversion, the [forallb]s and the
    [map] that [collect_outcome] yields *)
Lemma value_outcome : forall v, outcome printed (wf_value v) (jsonable v) (value_to_json v) (abs_value v).
Proof.
  induction v using value_ind'; cbn [jsonable abs_value wf_value]; try reflexivity;
    try (split; [reflexivity|intros Hwf]).
  - cbn [value_to_json]. rewrite int_to_string_float.
    destruct (nat_digits_spec (Z.abs z) (Z.abs_nonneg z)) as [Hv Hc].
    pose proof (number_printed (z <? 0) (nat_digits (Z.abs z)) [] Hc eq_refl) as B.
    rewrite app_nil_r, Hv in B. exact B.
  - apply andb_true_iff in Hwf. destruct Hwf as [A B]. apply number_printed; assumption.
  - apply string_printed, Hwf.
  - destruct b; (apply word_printed; [discriminate|reflexivity]).
  - apply word_printed; [discriminate|reflexivity].
  - exact (outcome_map _ printed array_text JArr array_parses _ _ _ _ (collect_outcome _ _ _ _ _ _ H)).
  - exact (outcome_map _ printed array_text JArr array_parses _ _ _ _ (collect_outcome _ _ _ _ _ _ H)).
  - rewrite value_to_json_record.
    apply (outcome_map _ printed object_text JObj (object_parses [] [32] [] eq_refl eq_refl eq_refl)).
    apply (collect_outcome _ _ _ (fun kv => (fst kv, abs_value (snd kv)))).
    eapply Forall_impl; [|exact H]. intros [k x]. apply member_outcome.
  - rewrite value_to_json_dict.
    apply (outcome_map _ printed object_text JObj (object_parses [] [32] [] eq_refl eq_refl eq_refl)).
    apply (collect_outcome _ _ _ (fun kv => (key_text (fst kv), abs_value (snd kv)))).
    eapply Forall_impl; [|exact H]. intros [k x] [_ Hx]. unfold dict_member. cbn [fst snd] in *.
    destruct k; try reflexivity. exact (member_outcome s _ _ _ _ Hx).
Qed.

Lemma jsonable_spec : forall v, value_to_json v <> None <-> jsonable v = true.
Proof. intros v. exact (outcome_some _ _ _ _ _ (value_outcome v)). Qed.

Section expr_ind'.
  Variable P : expr -> Prop.
  Hypothesis HLit : forall tok v, P (ELit tok v).
  Hypothesis HAcc : forall b s, P (EAcc b s).
  Hypothesis HOther : forall v, P (EOther v).
  Hypothesis HList : forall l, Forall P l -> P (EList l).
  Hypothesis HTuple : forall l, Forall P l -> P (ETuple l).
  Hypothesis HRecord : forall l, Forall (fun kv => P (snd kv)) l -> P (ERecord l).
  Hypothesis HDict : forall l, Forall (fun kv => P (fst kv) /\ P (snd kv)) l -> P (EDict l).
  Fixpoint expr_ind' (e : expr) : P e :=
    match e with
    | ELit tok v => HLit tok v
    | EAcc b s => HAcc b s
    | EOther v => HOther v
    | EList l => HList l (Forall_all expr_ind' l)
    | ETuple l => HTuple l (Forall_all expr_ind' l)
    | ERecord l => HRecord l (Forall_all (fun kv => expr_ind' (snd kv)) l)
    | EDict l => HDict l (Forall_all (fun kv => conj (expr_ind' (fst kv)) (expr_ind' (snd kv))) l)
    end.
End expr_ind'.

Lemma transpile_expr_record : forall l, transpile_expr (ERecord l) =
  option_map object_text (collect (fun kv => member_json (fst kv) (transpile_expr (snd kv))) l).
Proof.
  intros l. rewrite <- (collect2_collect (fun k x => member_json k (transpile_expr x))). reflexivity.
Qed.
Lemma transpile_expr_dict : forall l, transpile_expr (EDict l) =
  option_map object_text
    (collect (fun kv => match transpile_expr (fst kv), transpile_expr (snd kv) with
                        | Some a, Some b => Some (pair_text a b) | _, _ => None end) l).
Proof.
  intros l. rewrite <- (collect2_collect (fun k x => match transpile_expr k, transpile_expr x with
                                                    | Some a, Some b => Some (pair_text a b) | _, _ => None end)).
  reflexivity.
Qed.

Lemma exprs_values : forall l,
  Forall (fun e => wf_expr e = true -> transpile_expr e = value_to_json (expr_val e)) l ->
  forallb wf_expr l = true ->
  option_map array_text (collect transpile_expr l) = option_map array_text (collect value_to_json (map expr_val l)).
Proof.
  intros l H Hwf. rewrite collect_map. f_equal. apply collect_ext.
  refine (Forall_forallb_impl _ _ _ l _ Hwf H). auto.
Qed.

Lemma transpile_expr_value : forall e, wf_expr e = true -> transpile_expr e = value_to_json (expr_val e).
Proof.
  induction e using expr_ind'; intros Hwf; cbn [wf_expr expr_val] in *.
  - reflexivity.
  - destruct b; [reflexivity|discriminate].
  - destruct v; reflexivity.
  - exact (exprs_values l H Hwf).
  - exact (exprs_values l H Hwf).
  - rewrite value_to_json_record, collect_map, transpile_expr_record.
    f_equal. apply collect_ext. refine (Forall_forallb_impl _ _ _ l _ Hwf H).
    intros [k x] Hb Hx. cbn [fst snd] in *. rewrite (Hx Hb). reflexivity.
  - rewrite value_to_json_dict, collect_map, transpile_expr_dict.
    f_equal. apply collect_ext. refine (Forall_forallb_impl _ _ _ l _ Hwf H).
    intros [k x] Hb [Hk Hx]. unfold dict_member. cbn [fst snd] in *.
    apply andb_true_iff in Hb. destruct Hb as [Hb Hs]. apply andb_true_iff in Hb. destruct Hb as [Bk Bx].
    rewrite (Hk Bk), (Hx Bx). destruct (expr_val k); try discriminate. cbn [value_to_json].
    destruct (value_to_json (expr_val x)); reflexivity.
Qed.

Definition nonnil (t : text) : bool := match t with [] => false | _ => true end.

Lemma transpile_chunks_join : forall m code, transpile_chunks code m =
  option_map (fun ts => join [44; 10] (filter nonnil (code :: ts))) (collect transpile_chunk m).
Proof.
  induction m as [|c m IH]; intros code.
  - destruct code; reflexivity.
  - cbn [transpile_chunks collect]. destruct (transpile_chunk c) as [[|x ex]|]; [| |reflexivity].
    + rewrite IH. destruct (collect transpile_chunk m); [|reflexivity]. destruct code; reflexivity.
    + rewrite IH. destruct (collect transpile_chunk m) as [ts|]; [|reflexivity].
      destruct code as [|y code]; [reflexivity|].
      cbn [opt_cons option_map filter nonnil app]. f_equal.
      apply (join_app_cons [44; 10] (y :: code) (x :: ex)).
Qed.

Lemma transpile_join : forall m, transpile m =
  option_map (fun ts => [123; 10] ++ join [44; 10] (filter nonnil ts) ++ [10; 125]) (collect transpile_chunk m).
Proof.
  intros m. unfold transpile. rewrite transpile_chunks_join. destruct (collect transpile_chunk m); reflexivity.
Qed.

(** what the text of a chunk is to the module's object: a member, or nothing *)
Definition chunk_text (t : text) (c : chunk) : Prop :=
  match c with
  | CDef true name body => member t (name, abs_value (expr_val body))
  | _ => t = []
  end.

(** the hypothesis is what the first half needs: an unbound accessor is printed and has no value *)
Lemma chunk_outcome : forall c, wf_chunk c = true ->
  outcome chunk_text (wf_chunk c) (chunk_jsonable c) (transpile_chunk c) c.
Proof.
  intros [[] name body|e] Hwf; [| |discriminate]; cbn [transpile_chunk chunk_jsonable]; [|split; reflexivity].
  cbn [wf_chunk] in *. apply andb_true_iff in Hwf. destruct Hwf as [Hwf _].
  apply andb_true_iff in Hwf. destruct Hwf as [_ He]. rewrite (transpile_expr_value _ He), He, andb_true_r.
  exact (member_outcome name _ _ _ _ (value_outcome (expr_val body))).
Qed.

Lemma chunk_texts_members : forall ts m, Forall2 chunk_text ts m -> Forall2 member (filter nonnil ts) (module_obj m).
Proof.
  induction 1 as [|t c ts m Hc _ IH]; [constructor|].
  destruct c as [[] name body|e]; cbn [chunk_text module_obj] in *; [|subst t; exact IH..].
  destruct (member_head _ _ Hc) as [J ->]. constructor; assumption.
Qed.

Theorem transpile_outcome : forall m, wf_module m = true ->
  match transpile m with
  | Some t => forallb chunk_jsonable m = true /\ json_denotes t (JObj (module_obj m))
  | None => forallb chunk_jsonable m = false
  end.
Proof.
  intros m Hwf. rewrite transpile_join.
  pose proof (collect_outcome transpile_chunk wf_chunk chunk_jsonable (fun c => c) chunk_text m) as H.
  rewrite map_id in H.
  specialize (H (proj2 (Forall_forall _ _) (fun c Hc => chunk_outcome c (proj1 (forallb_forall _ _) Hwf c Hc)))).
  destruct (collect transpile_chunk m) as [ts|]; [|exact H]. destruct H as [Hb H]. split; [exact Hb|].
  apply printed_json_parse.
  exact (object_parses [10] [10] [10] eq_refl eq_refl eq_refl _ _ (chunk_texts_members ts m (H Hwf))).
Qed.

Section jvalue_ind'.
  Variable P : jvalue -> Prop.
  Hypothesis HNull : P JNull.
  Hypothesis HBool : forall b, P (JBool b).
  Hypothesis HNum : forall n m e, P (JNum n m e).
  Hypothesis HStr : forall s, P (JStr s).
  Hypothesis HArr : forall l, Forall P l -> P (JArr l).
  Hypothesis HObj : forall l, Forall (fun kv => P (snd kv)) l -> P (JObj l).
  Fixpoint jvalue_ind' (v : jvalue) : P v :=
    match v with
    | JNull => HNull
    | JBool b => HBool b
    | JNum n m e => HNum n m e
    | JStr s => HStr s
    | JArr l => HArr l (Forall_all jvalue_ind' l)
    | JObj l => HObj l (Forall_all (fun kv => jvalue_ind' (snd kv)) l)
    end.
End jvalue_ind'.

Lemma jvalue_eqb_spec : forall a b, jvalue_eqb a b = true <-> a = b.
Proof.
  induction a using jvalue_ind'; intros b0.
  - destruct b0; cbn; split; congruence.
  - destruct b0; cbn; try (split; congruence). rewrite Bool.eqb_true_iff. split; congruence.
  - destruct b0; cbn; try (split; congruence).
    rewrite !andb_true_iff, Bool.eqb_true_iff, !Z.eqb_eq. split; [intros [[? ?] ?]; congruence|].
    intros E; inversion E; auto.
  - destruct b0; cbn; try (split; congruence). rewrite text_eqb_spec. split; congruence.
  - destruct b0 as [| | | |l2|]; try (cbn; split; congruence).
    transitivity (l = l2); [|split; congruence]. cbn [jvalue_eqb].
    apply (list_eqb_spec jvalue_eqb); [intros [|x r1] [|y r2]; reflexivity|exact H].
  - destruct b0 as [| | | | |l2]; try (cbn; split; congruence).
    transitivity (l = l2); [|split; congruence]. cbn [jvalue_eqb].
    apply (list_eqb_spec (fun p q => text_eqb (fst p) (fst q) && jvalue_eqb (snd p) (snd q))).
    + intros [|[k1 x] r1] [|[k2 y] r2]; reflexivity.
    + eapply Forall_impl; [|exact H]. intros [k x] Hx [k2 y]. cbn [fst snd] in *.
      rewrite andb_true_iff, text_eqb_spec, Hx. split; [intros [-> ->]; reflexivity|intros E; inversion E; auto].
Qed.

Definition w_bool : module := [CDef true [98] (ELit [84; 114; 117; 101] (VBool true))].
Definition w_none : module := [CDef true [110] (ELit [78; 111; 110; 101] VNone)].
Definition w_quote : module := [CDef true [115] (ELit [34; 113; 34; 120; 34] (VStr [113; 34; 120]))].
Definition w_underscore : module := [CDef true [97] (ELit [49; 95; 48; 48; 48] (VInt 1000))].
Definition w_private : module := [CDef true [97] (ELit [49] (VInt 1)); CDef false [98] (ELit [50] (VInt 2))].

Definition refuted_by (m : module) : Prop :=
  wf_module m = true /\ forallb chunk_jsonable m = true /\
  exists t, transpile_nofix m = Some t /\ json_parse t = None.

Lemma refuted_by_eval : forall m,
  wf_module m && forallb chunk_jsonable m &&
  match transpile_nofix m with
  | Some t => match json_parse t with None => true | Some _ => false end
  | None => false
  end = true -> refuted_by m.
Proof.
  intros m H. apply andb_true_iff in H. destruct H as [H Ht]. apply andb_true_iff in H. destruct H as [Hw Hj].
  unfold refuted_by. destruct (transpile_nofix m) as [t|]; [|discriminate].
  destruct (json_parse t) eqn:Ep; [discriminate|]. eauto.
Qed.
