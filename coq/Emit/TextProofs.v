From Coq Require Import ZArith List Bool Lia.
From ErgV Require Import Common.Lists Emit.Text.
Import ListNotations.
Open Scope Z_scope.

Lemma join_cons2 : forall sep (x y : text) l, join sep (x :: y :: l) = x ++ sep ++ join sep (y :: l).
Proof. reflexivity. Qed.

Lemma join_app_cons : forall sep (a b : text) l, join sep ((a ++ sep ++ b) :: l) = a ++ sep ++ join sep (b :: l).
Proof. intros sep a b [|y l]; cbn [join]; rewrite <- ?app_assoc; reflexivity. Qed.

Lemma join_snoc : forall sep (l : list text) x, l <> [] -> join sep (l ++ [x]) = join sep l ++ sep ++ x.
Proof.
  induction l as [|a [|b l'] IH]; intros x Hne; [congruence|reflexivity|].
  cbn [app] in *. rewrite !join_cons2, IH by discriminate. rewrite <- !app_assoc. reflexivity.
Qed.

Lemma list_eqb_spec : forall {A} (eqb : A -> A -> bool) (go : list A -> list A -> bool),
  (forall l1 l2, go l1 l2 = match l1, l2 with
                            | [], [] => true
                            | x :: r1, y :: r2 => eqb x y && go r1 r2
                            | _, _ => false
                            end) ->
  forall l, Forall (fun x => forall y, eqb x y = true <-> x = y) l -> forall l2, go l l2 = true <-> l = l2.
Proof.
  intros A eqb go Hgo l H. induction H as [|x l Hx _ IH]; intros [|y l2]; rewrite Hgo; try (split; congruence).
  rewrite andb_true_iff, Hx, IH. split; [intros [-> ->]; reflexivity|intros E; inversion E; auto].
Qed.

Lemma text_eqb_spec : forall a b, text_eqb a b = true <-> a = b.
Proof. exact Common.Lists.zs_eqb_eq. Qed.

Lemma app_hom_flat_map : forall F : text -> text, F [] = [] -> (forall a b, F (a ++ b) = F a ++ F b) ->
  forall s, F s = flat_map (fun x => F [x]) s.
Proof.
  intros F Hnil Happ. induction s as [|x s IH]; [exact Hnil|].
  change (x :: s) with ([x] ++ s). rewrite Happ, IH. reflexivity.
Qed.

(** Both targets' string literals are instances: [pstring] with [json_str_char], [py_body] with the table of
    [escape_str]. *)
Lemma escaped_body : forall (p : text -> option (text * text)) (esc : Z -> text) (ok : Z -> bool),
  (forall rest, p (34 :: rest) = Some ([], rest)) ->
  (forall c X, ok c = true ->
     p (esc c ++ X) = match p X with Some (t, r) => Some (c :: t, r) | None => None end) ->
  forall s rest, forallb ok s = true -> p (flat_map esc s ++ 34 :: rest) = Some (s, rest).
Proof.
  intros p esc ok Hquote Hstep. induction s as [|c s IH]; intros rest Hs.
  - apply Hquote.
  - cbn [forallb] in Hs. apply andb_true_iff in Hs. destruct Hs as [Hc Hs].
    cbn [flat_map]. rewrite <- app_assoc, (Hstep c _ Hc), (IH rest Hs). reflexivity.
Qed.

Lemma digit_chars_range : forall ds, forallb is_digit_val ds = true -> Forall (fun c => 48 <= c <= 57) (digit_chars ds).
Proof.
  intros ds H. apply Forall_map, Forall_forall. intros d Hd. apply (proj1 (forallb_forall _ _) H) in Hd.
  unfold is_digit_val in Hd. apply andb_true_iff in Hd. destruct Hd as [A B].
  apply Z.leb_le in A. apply Z.leb_le in B. lia.
Qed.

Lemma digits_val_acc : forall l a, fold_left (fun a d => 10 * a + d) l a = a * 10 ^ Z.of_nat (length l) + digits_val l.
Proof.
  unfold digits_val. induction l as [|d l IH]; intros a.
  - cbn. lia.
  - cbn [fold_left length]. rewrite IH. rewrite (IH (10 * 0 + d)).
    rewrite Nat2Z.inj_succ, Z.pow_succ_r by lia. lia.
Qed.

Lemma digits_val_snoc : forall l d, digits_val (l ++ [d]) = 10 * digits_val l + d.
Proof.
  intros. unfold digits_val. rewrite fold_left_app. reflexivity.
Qed.

Lemma canon_digits_snoc : forall l d, canon_digits l = true -> hd 0 l <> 0 -> is_digit_val d = true ->
  canon_digits (l ++ [d]) = true.
Proof.
  intros l d Hc Hh Hd. unfold canon_digits in *.
  apply andb_true_iff in Hc. destruct Hc as [Ha _].
  rewrite forallb_app, Ha. cbn [forallb]. rewrite Hd.
  destruct l as [|x [|y l]]; [contradiction Hh; reflexivity| |]; cbn [app hd andb] in *;
    apply negb_true_iff, Z.eqb_neq; exact Hh.
Qed.

(** the third part is what lets the induction append the next digit *)
Lemma dec_digits_spec : forall fuel n, 0 <= n < 2 ^ Z.of_nat fuel -> (0 < fuel)%nat ->
  digits_val (dec_digits fuel n) = n /\ canon_digits (dec_digits fuel n) = true /\
  (n <> 0 -> hd 0 (dec_digits fuel n) <> 0).
Proof.
  induction fuel as [|f IH]; intros n Hn Hf; [lia|].
  cbn [dec_digits]. destruct (Z.ltb_spec n 10) as [E|E].
  - split; [|split].
    + unfold digits_val. cbn. lia.
    + unfold canon_digits, is_digit_val. cbn [forallb].
      rewrite (proj2 (Z.leb_le 0 n)), (proj2 (Z.leb_le n 9)) by lia. reflexivity.
    + intros Hz. exact Hz.
  - assert (Hq : 10 * (n / 10) <= n < 10 * (n / 10) + 10).
    { pose proof (Z.div_mod n 10 ltac:(lia)). pose proof (Z.mod_pos_bound n 10 ltac:(lia)). lia. }
    assert (Hf0 : (0 < f)%nat).
    { destruct f; [|lia]. cbn in Hn. lia. }
    rewrite Nat2Z.inj_succ, Z.pow_succ_r in Hn by lia.
    destruct (IH (n / 10) ltac:(lia) Hf0) as (Hv & Hc & Hh). specialize (Hh ltac:(lia)).
    assert (Hm : is_digit_val (n mod 10) = true).
    { unfold is_digit_val. apply andb_true_iff. split; apply Z.leb_le; pose proof (Z.mod_pos_bound n 10); lia. }
    rewrite digits_val_snoc, Hv.
    split; [|split].
    + symmetry. apply Z.div_mod. lia.
    + apply canon_digits_snoc; assumption.
    + intros _. destruct (dec_digits f (n / 10)); [discriminate Hc|exact Hh].
Qed.

Lemma nat_digits_spec : forall n, 0 <= n ->
  digits_val (nat_digits n) = n /\ canon_digits (nat_digits n) = true.
Proof.
  intros n Hn. unfold nat_digits.
  assert (H : 0 <= n < 2 ^ Z.of_nat (S (Z.to_nat (Z.log2 n)))).
  { split; [assumption|]. rewrite Nat2Z.inj_succ, Z2Nat.id by apply Z.log2_nonneg.
    destruct (Z.eq_dec n 0) as [->|Hz]. cbn; lia.
    apply Z.log2_spec. lia. }
  destruct (dec_digits_spec _ _ H) as (A & B & _). lia. auto.
Qed.

