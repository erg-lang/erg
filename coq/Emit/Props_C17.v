(** C17 — property theorems for the LITERAL and NAME level of the Python transpile target.

    The property itself ("the transpiled script behaves like the bytecode") is a statement about whole
    programs; this development proves it only for how string literals and names are printed
    (REGISTRY: proof (partial)). Statement- and expression-level translation is tied by the differential part
    of checks/c17.py only.

    Full statement, NOT proved here:
      forall p : program, transpile p = Some script -> valid_python script /\ run_python script = run_bytecode (compile p). *)
From Coq Require Import ZArith List Bool.
From ErgV Require Import Emit.Text Emit.Py Emit.PySpec Emit.PyProofs.
Import ListNotations.
Open Scope Z_scope.

(** For ALL strings (every list of code points: quotes, backslashes, braces, NUL and other control characters,
    non-BMP) the expression printed for the literal is the call of Str on one Python short string literal (double
    quotes) that denotes exactly that string. *)
Theorem str_lit_roundtrip : forall tok s, py_lit_denotes (transpile_lit tok (LStr s)) s.
Proof. intros tok s. unfold py_lit_denotes, py_lit_parse. cbn. rewrite py_body_esc. reflexivity. Qed.

Theorem str_body_roundtrip : forall s, py_str_lit_denotes (34 :: escape_str s ++ [34]) s.
Proof. intros s. unfold py_str_lit_denotes, py_str_parse. cbn. rewrite py_body_esc. reflexivity. Qed.

(** The code as found: the literal printed for the string a, quotation mark, b, backslash, c (token text
    included its delimiters, quotation mark and backslash were not escaped) does not denote it. *)
Theorem str_lit_nofix_refuted :
  py_lit_parse (transpile_lit_nofix (34 :: w_c17 ++ [34]) (LStr w_c17)) <> Some w_c17.
Proof. vm_compute. discriminate. Qed.

(** Name mangling. Full statement (FALSE, see [mangle_refuted]):
      forall a b, mangle a = mangle b -> same_var a b.
    Proved on the fragment [plain]: alphanumeric base names (no underscore) with an optional procedure mark,
    public, or private and defined at a source position (line >= 1): two variables get the same Python name
    only if they are the same variable. *)
Theorem mangle_injective_partial : forall a b, plain a = true -> plain b = true ->
  mangle a = mangle b -> same_var a b.
Proof.
  intros a b Pa Pb. exact (mangle_injective a b (plain_simple a Pa) (plain_simple b Pb)).
Qed.

(** Outside the fragment it fails: the public name x_L1 and the private variable x defined at line 1, column 0
    are both printed as x_L1 (known finding C17-mangle-collision; replayed by the check:
    the program  x = 1 / .x_L1 = 2 / print! x  prints 1 as bytecode and 2 as transpiled script). *)
Theorem mangle_refuted : ~ same_var n_pub_xL1 n_priv_x /\ mangle n_pub_xL1 = mangle n_priv_x /\
  Known_C17_mangle [n_pub_xL1; n_priv_x] = true.
Proof.
  split; [|split; vm_compute; reflexivity]. unfold same_var. cbn. intros [H _]. discriminate.
Qed.

Example ex_str_lit :
  transpile_lit [] (LStr [97; 34; 98; 92; 99; 10; 0; 49; 123; 128512]) =
  [83; 116; 114; 40; 34; 97; 92; 34; 98; 92; 92; 99; 92; 110; 92; 120; 48; 48; 49; 123; 128512; 34; 41] /\
  py_lit_parse (transpile_lit [] (LStr [97; 34; 98; 92; 99; 10; 0; 49; 123; 128512])) =
  Some [97; 34; 98; 92; 99; 10; 0; 49; 123; 128512].
Proof. vm_compute. split; reflexivity. Qed.

Example ex_mangle :
  let f := {| e_public := false; e_base := [102]; e_proc := true; e_line := 3; e_col := 4 |} in
  let g := {| e_public := true; e_base := [102]; e_proc := false; e_line := 0; e_col := 0 |} in
  plain f = true /\ plain g = true /\
  mangle f = [102; 95; 95; 101; 114; 103; 95; 112; 114; 111; 99; 95; 95; 95; 76; 51; 95; 67; 52] /\ mangle g = [102] /\
  Known_C17_mangle [f; g] = false.
Proof. vm_compute. repeat split; reflexivity. Qed.
