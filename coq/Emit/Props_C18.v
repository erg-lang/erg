(** C18.  Model: Emit/Json.v ([transpile] = JsonGenerator as it is, [transpile_nofix] = the code that prints token
    texts, known/C18.json).
    Specification: Emit/JsonSpec.v ([json_parse], the RFC 8259 grammar; [json_denotes t v := json_parse t = Some v];
    [module_obj m] = the object mapping every public binding to the JSON value of its constant). *)
From Coq Require Import ZArith List Bool.
From ErgV Require Import Emit.Text Emit.Json Emit.JsonSpec Emit.JsonProofs.
Import ListNotations.
Open Scope Z_scope.

(** The property. For EVERY module of bindings (public or private, in any order) whose initialisers are
    constants of the listed kinds — numbers, strings over all code points, booleans, None, lists, tuples,
    records, string-keyed dicts, nested without bound, also reached through a bound name — and have a JSON
    form ([chunk_jsonable]: floats finite), the generator produces a text, that text is a JSON text in the
    sense of RFC 8259, and it denotes exactly the object { name_i : value_i } of the public bindings. *)
Theorem json_valid_and_faithful : forall m,
  wf_module m = true -> forallb chunk_jsonable m = true ->
  exists t, transpile m = Some t /\ json_denotes t (JObj (module_obj m)).
Proof.
  intros m Hwf Hj. pose proof (transpile_outcome m Hwf) as H.
  destruct (transpile m) as [t|]; [exists t; split; [reflexivity|apply H]|congruence].
Qed.

(** The generator declines (NotConstExpr error, no output) exactly when some public binding has no JSON form
    (non-finite float, type/function, non-string key inside a bound constant). *)
Theorem json_declines_iff : forall m, wf_module m = true ->
  (transpile m = None <-> forallb chunk_jsonable m = false).
Proof.
  intros m Hwf. pose proof (transpile_outcome m Hwf) as H.
  destruct (transpile m); [destruct H as [-> _]|]; split; congruence.
Qed.

(** Strings on their own: every string over all code points (quotes, backslashes, control characters,
    non-BMP) is printed as a JSON string denoting exactly that string. *)
Theorem json_str_roundtrip : forall s, valid_text s = true -> json_denotes (json_str s) (JStr s).
Proof. intros s Hv. exact (printed_json_parse _ _ (string_printed s Hv)). Qed.

(** The executable judge used by the check decides the specification. *)
Theorem judge_spec : forall m out, judge m out = true <-> json_denotes out (JObj (module_obj m)).
Proof.
  intros m out. unfold judge, json_denotes. destruct (json_parse out) as [v|].
  - rewrite jvalue_eqb_spec. split; congruence.
  - split; discriminate.
Qed.

(** The code as it was found violates the property: a boolean, None, a string containing a quote, a number
    written with an underscore, and a module ending in a private binding each give a text that is not JSON
    (replayed against the implementation: /verif/known/C18.json). *)
Theorem json_nofix_refuted :
  refuted_by w_bool /\ refuted_by w_none /\ refuted_by w_quote /\ refuted_by w_underscore /\ refuted_by w_private.
Proof. split; [|split; [|split; [|split]]]; apply refuted_by_eval; vm_compute; reflexivity. Qed.

(** non-vacuity: a module with a private binding, a string with quote, backslash, newline and a non-BMP
    character, a negative float, a nested record/list/tuple/dict and a reference to a bound constant meets
    the hypotheses, is printed, and the judge accepts the output *)
Definition ex_module : module :=
  [ CDef false [112] (ELit [49] (VInt 1));
    CDef true [115] (ELit [] (VStr [97; 34; 92; 10; 128512; 0]));
    CDef true [102] (ELit [] (VFloat true [1; 0] [2; 5]));
    CDef true [114] (ERecord [([120], EList [ETuple [ELit [] (VBool true); ELit [] VNone]; ETuple []]);
                              ([100], EDict [(ELit [] (VStr [107; 34]), ELit [] (VInt (-7)))])]);
    CDef true [113] (EAcc (Some (VTuple [VInt 0; VRecord [([97], VStr [9])]])) [112]);
    CDef false [122] (ELit [] VFloatNonFinite) ].
Example ex_module_ok :
  wf_module ex_module = true /\ forallb chunk_jsonable ex_module = true /\
  match transpile ex_module with Some t => judge ex_module t = true | None => False end.
Proof. vm_compute. repeat split; reflexivity. Qed.

Example ex_declined : wf_module [CDef true [120] (ELit [] VFloatNonFinite)] = true /\
  transpile [CDef true [120] (ELit [] VFloatNonFinite)] = None.
Proof. vm_compute. split; reflexivity. Qed.

(** The known-finding class is not empty and is exactly "begins or ends with two quotation marks" on the
    witnesses; ordinary strings (also with one quote at an end, or quotes inside) are outside it. *)
Example known_class_examples :
  known_c18_str [97; 34; 34] = true /\ known_c18_str [34; 34; 120] = true /\ known_c18_str [34] = true /\
  known_c18_str [97; 34] = false /\ known_c18_str [34; 97; 34; 98; 34] = false /\ known_c18_str [] = false.
Proof. vm_compute. repeat split; reflexivity. Qed.
