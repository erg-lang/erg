From Coq Require Import ZArith List Bool Lia.
From ErgV Require Import Emit.Text Emit.TextProofs Emit.Py Emit.PySpec.
Import ListNotations.
Open Scope Z_scope.

Lemma replace_char_app : forall c to a b, replace_char c to (a ++ b) = replace_char c to a ++ replace_char c to b.
Proof. intros. unfold replace_char. apply flat_map_app. Qed.

Lemma replace_char_single : forall c to x, replace_char c to [x] = if x =? c then to else [x].
Proof. intros. unfold replace_char. cbn. rewrite app_nil_r. reflexivity. Qed.

Lemma replace_char_neq : forall c to x, x <> c -> replace_char c to [x] = [x].
Proof. intros c to x H. rewrite replace_char_single, (proj2 (Z.eqb_neq x c) H). reflexivity. Qed.

Lemma escape_str_app : forall a b, escape_str (a ++ b) = escape_str a ++ escape_str b.
Proof. intros a b. unfold escape_str. rewrite !replace_char_app. reflexivity. Qed.

Definition esc_char (c : Z) : text :=
  if c =? 92 then [92; 92] else if c =? 34 then [92; 34] else if c =? 10 then [92; 110]
  else if c =? 13 then [92; 114] else if c =? 9 then [92; 116] else if c =? 0 then [92; 120; 48; 48] else [c].

Lemma escape_str_chars : forall s, escape_str s = flat_map esc_char s.
Proof.
  intros s. rewrite (app_hom_flat_map escape_str eq_refl escape_str_app). apply flat_map_ext. intros x.
  unfold esc_char, escape_str. rewrite replace_char_single.
  destruct (x =? 92) eqn:E92; [reflexivity|].
  rewrite replace_char_single. destruct (x =? 34) eqn:E34; [reflexivity|].
  rewrite replace_char_single. destruct (x =? 10) eqn:E10; [reflexivity|].
  rewrite replace_char_single. destruct (x =? 13) eqn:E13; [reflexivity|].
  rewrite replace_char_single. destruct (x =? 9) eqn:E9; [reflexivity|].
  rewrite replace_char_single. destruct (x =? 0) eqn:E0; reflexivity.
Qed.

Lemma py_body_char : forall c X, py_body (esc_char c ++ X) = ocons c (py_body X).
Proof.
  intros c X. unfold esc_char.
  destruct (Z.eqb_spec c 92) as [->|H92]; [reflexivity|].
  destruct (Z.eqb_spec c 34) as [->|H34]; [reflexivity|].
  destruct (Z.eqb_spec c 10) as [->|H10]; [reflexivity|].
  destruct (Z.eqb_spec c 13) as [->|H13]; [reflexivity|].
  destruct (Z.eqb_spec c 9) as [->|H9]; [reflexivity|].
  destruct (Z.eqb_spec c 0) as [->|H0]; [reflexivity|].
  cbn [app py_body]. rewrite !(proj2 (Z.eqb_neq _ _)) by assumption. reflexivity.
Qed.

Lemma py_body_esc : forall s rest, py_body (escape_str s ++ 34 :: rest) = Some (s, rest).
Proof.
  intros s rest. rewrite escape_str_chars.
  apply (escaped_body py_body esc_char (fun _ => true)); [reflexivity|intros c X _; apply py_body_char|].
  induction s; auto.
Qed.

Definition w_c17 : text := [97; 34; 98; 92; 99].          (* a, quotation mark, b, backslash, c *)

Lemma rns_app : forall a b,
  replace_non_symbolic (a ++ b) = replace_non_symbolic a ++ replace_non_symbolic b.
Proof. intros a b. unfold replace_non_symbolic. rewrite !replace_char_app. reflexivity. Qed.

(** characters other than the underscore, with which everything that mangling appends to a name begins, and
    those that [replace_non_symbolic] rewrites *)
Definition inert (c : Z) : bool := negb (existsb (Z.eqb c) [95; 36; 33; 37; 47; 42; 45; 43; 32; 39]).

Lemma inert_neq : forall c, inert c = true ->
  c <> 95 /\ c <> 36 /\ c <> 33 /\ c <> 37 /\ c <> 47 /\ c <> 42 /\ c <> 45 /\ c <> 43 /\ c <> 32 /\ c <> 39.
Proof. intros c H. repeat split; intros ->; discriminate H. Qed.

Lemma inert_95 : forall c, inert c = true -> (c =? 95) = false.
Proof. intros c H. apply Z.eqb_neq, (inert_neq c H). Qed.

Lemma is_alnum_range : forall c, is_alnum c = true -> (48 <= c <= 57) \/ (97 <= c <= 122) \/ (65 <= c <= 90).
Proof.
  intros c H. unfold is_alnum in H.
  apply orb_true_iff in H. destruct H as [H|H]; [apply orb_true_iff in H; destruct H as [H|H]|];
    apply andb_true_iff in H; destruct H as [A B]; apply Z.leb_le in A; apply Z.leb_le in B; lia.
Qed.

Lemma alnum_inert : forall c, is_alnum c = true -> inert c = true.
Proof.
  intros c H. apply is_alnum_range in H. unfold inert. cbn [existsb].
  rewrite !(proj2 (Z.eqb_neq _ _)) by lia. reflexivity.
Qed.

Lemma rns_inert : forall c, inert c = true -> replace_non_symbolic [c] = [c].
Proof.
  intros c H. destruct (inert_neq c H) as (_ & H1 & H2 & H3 & H4 & H5 & H6 & H7 & H8 & H9).
  unfold replace_non_symbolic. rewrite !replace_char_neq by assumption. reflexivity.
Qed.

Definition proc_text : text := [95; 95; 101; 114; 103; 95; 112; 114; 111; 99; 95; 95].
Lemma rns_base : forall base (proc : bool), forallb inert base = true ->
  replace_non_symbolic (base ++ if proc then [33] else []) = base ++ if proc then proc_text else [].
Proof.
  intros base proc H. rewrite rns_app.
  assert (G : replace_non_symbolic base = base).
  { induction base as [|c b IH]; [reflexivity|]. cbn [forallb] in H. apply andb_true_iff in H. destruct H as [A B].
    change (c :: b) with ([c] ++ b). rewrite rns_app, (rns_inert c A), (IH B). reflexivity. }
  rewrite G. destruct proc; reflexivity.
Qed.

Definition tail95 (t : text) : Prop := t = [] \/ exists r, t = 95 :: r.

Fixpoint upto95 (s : text) : text :=
  match s with [] => [] | c :: r => if c =? 95 then [] else c :: upto95 r end.

Lemma upto95_app : forall b t, ~ In 95 b -> tail95 t -> upto95 (b ++ t) = b.
Proof.
  induction b as [|c b IH]; intros t Hb Ht.
  - destruct Ht as [->|[r ->]]; reflexivity.
  - cbn [app upto95]. destruct (Z.eqb_spec c 95) as [->|_]; [contradiction Hb; left; reflexivity|].
    rewrite IH by (try assumption; intros Hin; apply Hb; right; exact Hin). reflexivity.
Qed.

Lemma split_no95 : forall b1 b2 t1 t2, ~ In 95 b1 -> ~ In 95 b2 -> tail95 t1 -> tail95 t2 ->
  b1 ++ t1 = b2 ++ t2 -> b1 = b2 /\ t1 = t2.
Proof.
  intros b1 b2 t1 t2 H1 H2 T1 T2 E.
  assert (Eb : b1 = b2) by (rewrite <- (upto95_app b1 t1 H1 T1), E; apply upto95_app; assumption).
  subst b2. split; [reflexivity|]. apply app_inv_head in E. exact E.
Qed.

Lemma inert_no95 : forall b, forallb inert b = true -> ~ In 95 b.
Proof. intros b H Hin. apply (proj1 (forallb_forall _ _) H) in Hin. discriminate Hin. Qed.

Lemma digit_chars_no95 : forall ds, forallb is_digit_val ds = true -> ~ In 95 (digit_chars ds).
Proof. intros ds H Hin. apply (proj1 (Forall_forall _ _) (digit_chars_range ds H)) in Hin. lia. Qed.

Lemma digit_chars_inj : forall a b, digit_chars a = digit_chars b -> a = b.
Proof.
  induction a as [|x a IH]; intros [|y b] H; try discriminate; [reflexivity|].
  cbn [digit_chars map] in H. assert (Hx : 48 + x = 48 + y) by congruence.
  assert (Hr : map (fun d => 48 + d) a = map (fun d => 48 + d) b) by congruence.
  f_equal; [lia|apply IH; exact Hr].
Qed.

Lemma dec_string : forall n, 0 <= n -> int_to_string n = digit_chars (nat_digits n) /\
  ~ In 95 (int_to_string n).
Proof.
  intros n Hn. unfold int_to_string. replace (n <? 0) with false by (symmetry; apply Z.ltb_ge; lia).
  split; [reflexivity|]. apply digit_chars_no95.
  destruct (nat_digits_spec n Hn) as [_ C]. unfold canon_digits in C. apply andb_true_iff in C. tauto.
Qed.

Lemma dec_string_inj : forall n m, 0 <= n -> 0 <= m -> int_to_string n = int_to_string m -> n = m.
Proof.
  intros n m Hn Hm E. destruct (dec_string n Hn) as [A _]. destruct (dec_string m Hm) as [B _].
  rewrite A, B in E. apply digit_chars_inj in E.
  destruct (nat_digits_spec n Hn) as [V1 _]. destruct (nat_digits_spec m Hm) as [V2 _]. congruence.
Qed.

Definition suffix (line col : Z) : text :=
  [95; 76] ++ int_to_string line ++ if col =? 0 then [] else [95; 67] ++ int_to_string col.

Definition tail (e : ename) : text :=
  (if e_proc e then proc_text else []) ++ if e_public e then [] else suffix (e_line e) (e_col e).

Lemma tail95_tail : forall e, tail95 (tail e).
Proof.
  intros e. unfold tail. destruct (e_proc e); [right; eexists; reflexivity|].
  destruct (e_public e); [left; reflexivity|right; eexists; reflexivity].
Qed.

(** the fragment on which mangling is injective; a private variable is defined at a source position
    (line >= 1), so that what is appended for it is [suffix] *)
Definition simple (e : ename) : Prop :=
  forallb inert (e_base e) = true /\ (e_public e = false -> 1 <= e_line e /\ 0 <= e_col e).

Lemma plain_simple : forall e, plain e = true -> simple e.
Proof.
  intros e H. unfold plain in H. apply andb_true_iff in H. destruct H as [H Hpos].
  apply andb_true_iff in H. destruct H as [Hal _]. split.
  - rewrite forallb_forall in *. intros c Hc. apply alnum_inert, Hal, Hc.
  - intros Hp. rewrite Hp in Hpos. cbn [orb] in Hpos. apply andb_true_iff in Hpos. destruct Hpos as [A B].
    apply Z.leb_le in A, B. auto.
Qed.

Lemma mangle_simple : forall e, simple e -> mangle e = e_base e ++ tail e.
Proof.
  intros [pub base proc line col] (Hin & Hpos). unfold tail. cbn [e_public e_base e_proc e_line e_col] in *.
  unfold mangle, transpile_name, e_name. cbn [e_public e_base e_proc e_line e_col].
  rewrite (rns_base base proc Hin).
  assert (Hu : text_eqb (base ++ (if proc then proc_text else [])) [95] = false).
  { destruct base as [|c b]; [destruct proc; reflexivity|]. cbn in Hin. apply andb_true_iff in Hin. destruct Hin as [A _].
    cbn [app text_eqb]. rewrite (inert_95 c A). reflexivity. }
  rewrite Hu. destruct pub; cbn [orb].
  - rewrite app_nil_r. reflexivity.
  - destruct (Hpos eq_refl) as [Hl _].
    replace (line =? 0) with false by (symmetry; apply Z.eqb_neq; lia). cbn [andb].
    unfold suffix. rewrite <- app_assoc. destruct (col =? 0); [rewrite app_nil_r|]; reflexivity.
Qed.

Lemma suffix_inj : forall l1 c1 l2 c2, 1 <= l1 -> 0 <= c1 -> 1 <= l2 -> 0 <= c2 ->
  suffix l1 c1 = suffix l2 c2 -> l1 = l2 /\ c1 = c2.
Proof.
  intros l1 c1 l2 c2 H1 H2 H3 H4 E. unfold suffix in E. cbn [app] in E. inversion E as [E'].
  destruct (dec_string l1 ltac:(lia)) as [_ N1]. destruct (dec_string l2 ltac:(lia)) as [_ N2].
  assert (T : forall c, tail95 (if c =? 0 then [] else 95 :: 67 :: int_to_string c)).
  { intros c. destruct (c =? 0); [left; reflexivity|right; eexists; reflexivity]. }
  destruct (split_no95 _ _ _ _ N1 N2 (T c1) (T c2) E') as [A B].
  split; [apply dec_string_inj; auto; lia|].
  destruct (c1 =? 0) eqn:Z1, (c2 =? 0) eqn:Z2; try discriminate.
  - apply Z.eqb_eq in Z1. apply Z.eqb_eq in Z2. lia.
  - inversion B. apply dec_string_inj; auto.
Qed.

(** the procedure mark begins with two underscores, the position with an underscore and an L *)
Lemma tail_inj : forall a b, simple a -> simple b -> tail a = tail b ->
  e_proc a = e_proc b /\ e_public a = e_public b /\
  (e_public a = false -> e_line a = e_line b /\ e_col a = e_col b).
Proof.
  intros [pa ba ra la ca] [pb bb rb lb cb] (_ & Pa) (_ & Pb) Et. unfold tail in Et.
  cbn [e_public e_base e_proc e_line e_col] in *.
  assert (Hr : ra = rb /\ (if pa then [] else suffix la ca) = (if pb then [] else suffix lb cb)).
  { destruct ra, rb.
    - split; [reflexivity|]. apply app_inv_head in Et. exact Et.
    - exfalso. destruct pb; cbn in Et; [discriminate|]. unfold suffix in Et. discriminate.
    - exfalso. destruct pa; cbn in Et; [discriminate|]. unfold suffix in Et. discriminate.
    - split; [reflexivity|exact Et]. }
  destruct Hr as [-> Es].
  destruct pa, pb; try (unfold suffix in Es; cbn in Es; discriminate).
  - repeat split; discriminate.
  - destruct (Pa eq_refl) as [A1 A2], (Pb eq_refl) as [B1 B2].
    destruct (suffix_inj la ca lb cb A1 A2 B1 B2 Es). repeat split; auto.
Qed.

(** the Python name splits at its first underscore into the base name and what mangling appended *)
Theorem mangle_injective : forall a b, simple a -> simple b -> mangle a = mangle b -> same_var a b.
Proof.
  intros a b Pa Pb E. rewrite (mangle_simple a Pa), (mangle_simple b Pb) in E.
  destruct (split_no95 _ _ _ _ (inert_no95 _ (proj1 Pa)) (inert_no95 _ (proj1 Pb)) (tail95_tail a) (tail95_tail b) E)
    as [Eb Et].
  destruct (tail_inj a b Pa Pb Et) as (Ep & Epub & Epos).
  unfold same_var, e_name. rewrite Eb, Ep. auto.
Qed.

(** a collision outside the fragment: the public name x_L1 and the private x defined at line 1, column 0 *)
Definition n_pub_xL1 : ename := {| e_public := true; e_base := [120; 95; 76; 49]; e_proc := false; e_line := 2; e_col := 1 |}.
Definition n_priv_x : ename := {| e_public := false; e_base := [120]; e_proc := false; e_line := 1; e_col := 0 |}.
