(** An identifier token's location is exactly its text in the source.  [Lexer.ProofsNext.lex_pos_faithful_lemma] gives the
    line/column of the first character of every token; this file, for tokens of kind Symbol: the content is the source text
    verbatim, has no line break, and col_end = col_begin + number of characters ([lex_symbols_verbatim]); the
    range from the position of the first character, as long as the content, lies inside the source and covers
    the content ([verbatim_loc_exact]). *)
From Coq Require Import ZArith List Bool Arith Lia.
From ErgV Require Import Common.Lists.
Require Import ErgV.Lexer.Model ErgV.Lexer.Spec ErgV.Lexer.Proofs ErgV.Lexer.ProofsSub ErgV.Lexer.ProofsNext .
Require Import ErgV.Diag.Model ErgV.Diag.Spec ErgV.Diag.Proofs .
Import ListNotations.
Open Scope Z_scope.

(** a state-free logic for "which items can come out" *)
Definition wpi {A} (m : M A) (Q : A -> Prop) : Prop :=
  forall st, match m st with Ok (a, _) => Q a | _ => True end.

Lemma wpi_bind {A B} (m : M A) (f : A -> M B) (Q : B -> Prop) :
  (forall a, wpi (f a) Q) -> wpi (bind m f) Q.
Proof. intros H st. unfold bind. destruct (m st) as [[a st']| |]; auto. apply H. Qed.
Lemma wpi_seq {A B} (m : M A) (f : A -> M B) (Q1 : A -> Prop) (Q : B -> Prop) :
  wpi m Q1 -> (forall a, Q1 a -> wpi (f a) Q) -> wpi (bind m f) Q.
Proof. intros H1 H st. unfold bind. specialize (H1 st). destruct (m st) as [[a st']| |]; auto. apply H. exact H1. Qed.
Lemma wpi_ret {A} (a : A) (Q : A -> Prop) : Q a -> wpi (ret a) Q.
Proof. intros H st. exact H. Qed.
Lemma wpi_stuck {A} (Q : A -> Prop) : wpi (@panic A) Q /\ wpi (@out_of_fuel A) Q.
Proof. split; intros st; exact I. Qed.

Lemma wpi_emit k c g : wpi (emit_singleline_token k c g) (fun t => tk_kind t = k).
Proof. intros st. reflexivity. Qed.
Lemma wpi_emit_multi k cb c g : wpi (emit_multiline_token true k cb c g) (fun t => tk_kind t = k).
Proof. intros st. reflexivity. Qed.

Definition ns_item (it : item) : Prop := match it with ITok t => tk_kind t <> Symbol | IErr _ _ => True end.
Definition ns_step (s : step) : Prop := match s with SItem it => ns_item it | _ => True end.

(* [wi]: no Symbol token comes out, along the syntax of the program; at a leaf ([ns_leaf]) the kind of the token
   emitted is known; a call of another function is closed by its lemma, from the context or the database [ns] *)
Ltac ns_leaf :=
  cbn [ns_item ns_step]; try exact I;
  match goal with
  | K : tk_kind ?t = _ |- tk_kind ?t <> Symbol =>
    rewrite K;
    first [ discriminate
          | match goal with |- int_or_nat ?n <> _ => unfold int_or_nat; destruct (opt_is (hd_error n) 45 && negb (is_zero n)); discriminate end
          | match goal with |- quote_kind ?q <> _ => destruct q; discriminate end
          | assumption ]
  end.

Ltac wi1 :=
  cbv zeta;
  lazymatch goal with
  | |- wpi (bind (emit_singleline_token _ _ _) _) _ => eapply wpi_seq; [apply wpi_emit | cbv beta; intros ? ?]
  | |- wpi (bind (emit_multiline_token _ _ _ _ _) _) _ => eapply wpi_seq; [apply wpi_emit_multi | cbv beta; intros ? ?]
  | |- wpi (bind _ _) _ => apply wpi_bind; intros ?
  | |- wpi (ret _) _ => apply wpi_ret
  | |- wpi (ok_tok _) _ => apply wpi_ret
  | |- wpi (err_tok _ _) _ => apply wpi_ret
  | |- wpi out_of_fuel _ => apply wpi_stuck
  | |- wpi panic _ => apply wpi_stuck
  | |- wpi (if ?b then _ else _) _ => destruct b
  | |- wpi (match ?x with _ => _ end) _ => destruct x
  | |- wpi (accept _ _ _) _ => unfold accept
  | |- wpi (reject _ _ _ _) _ => unfold reject
  | |- wpi (invalid_unicode_character _ _) _ => unfold invalid_unicode_character
  end.

Create HintDb ns.
Ltac wi := repeat first [ wi1 | solve [ns_leaf] | solve [auto with ns] ].

Section NS.
Variable xc : Z -> bool.

Lemma lex_exponent_ns m g : wpi (lex_exponent true m g) ns_item.
Proof. unfold lex_exponent. wi. Qed.
Hint Resolve lex_exponent_ns : ns.

Lemma lex_ratio_ns m g : wpi (lex_ratio true m g) ns_item.
Proof. unfold lex_ratio. wi. Qed.
Hint Resolve lex_ratio_ns : ns.

Lemma lex_radix_ns k p m g : k <> Symbol -> wpi (lex_radix true k p m g) ns_item.
Proof. intros K. unfold lex_radix. wi. Qed.

Lemma lex_num_dot_ns m g : wpi (lex_num_dot xc true m g) ns_item.
Proof. unfold lex_num_dot. wi. Qed.
Hint Resolve lex_num_dot_ns : ns.

Lemma lex_num_loop_ns g : forall n m, wpi (lex_num_loop xc true n m g) ns_item.
Proof.
  induction n as [|n IH]; intros m; cbn [lex_num_loop]; wi;
    try (apply lex_radix_ns; discriminate).
Qed.

Lemma lex_num_ns c g : wpi (lex_num xc true c g) ns_item.
Proof. unfold lex_num. wi. apply lex_num_loop_ns. Qed.

Lemma lex_single_str_loop_ns g : forall n s, wpi (lex_single_str_loop true true n s g) ns_item.
Proof. induction n as [|n IH]; intros s; cbn [lex_single_str_loop]; wi. Qed.

Lemma lex_multi_line_str_loop_ns g q cb : forall n s, wpi (lex_multi_line_str_loop true true n q cb s g) ns_item.
Proof. induction n as [|n IH]; intros s; cbn [lex_multi_line_str_loop]; wi. Qed.

Lemma lex_interpolation_mid_loop_ns g : forall n s, wpi (lex_interpolation_mid_loop true true n s g) ns_item.
Proof. induction n as [|n IH]; intros s; cbn [lex_interpolation_mid_loop]; wi. Qed.

Lemma lex_single_str_ns g : wpi (lex_single_str true true g) ns_item.
Proof. unfold lex_single_str. wi. apply lex_single_str_loop_ns. Qed.
Lemma lex_multi_line_str_ns q g : wpi (lex_multi_line_str true true q g) ns_item.
Proof. unfold lex_multi_line_str. wi. apply lex_multi_line_str_loop_ns. Qed.
Lemma lex_interpolation_mid_ns g : wpi (lex_interpolation_mid true true g) ns_item.
Proof. unfold lex_interpolation_mid. wi. apply lex_interpolation_mid_loop_ns. Qed.

Lemma by_fix_ns ki kp cont ill g : ki <> Symbol -> kp <> Symbol -> wpi (by_fix ki kp cont ill g) ns_step.
Proof. intros A B. unfold by_fix. wi. Qed.
End NS.

Lemma wpi_lift (m : M item) : wpi m ns_item -> wpi (lift m) ns_step.
Proof. intros H. unfold lift. eapply wpi_seq; [exact H|]. intros i Hi. apply wpi_ret. exact Hi. Qed.

(** a partial-correctness logic with the state *)
Definition pwp {A} (m : M A) (Q : A -> lstate -> Prop) (st : lstate) : Prop :=
  match m st with Ok (a, st') => Q a st' | _ => True end.
Lemma pwp_bind {A B} (m : M A) (f : A -> M B) (Q : B -> lstate -> Prop) st :
  pwp m (fun a st' => pwp (f a) Q st') st -> pwp (bind m f) Q st.
Proof. unfold pwp, bind. destruct (m st) as [[a st']| |]; auto. Qed.
Lemma pwp_bind_gets {A B} (f : lstate -> A) (k : A -> M B) (Q : B -> lstate -> Prop) st :
  pwp (k (f st)) Q st -> pwp (bind (gets f) k) Q st.
Proof. exact (fun H => H). Qed.
Lemma pwp_mono {A} (m : M A) (Q Q' : A -> lstate -> Prop) st :
  pwp m Q st -> (forall a st', Q a st' -> Q' a st') -> pwp m Q' st.
Proof. unfold pwp. destruct (m st) as [[a st']| |]; auto. Qed.
Lemma pwp_seq {A B} (m : M A) (f : A -> M B) (Q1 : A -> lstate -> Prop) (Q : B -> lstate -> Prop) st :
  pwp m Q1 st -> (forall a st', Q1 a st' -> pwp (f a) Q st') -> pwp (bind m f) Q st.
Proof. intros H1 H. apply pwp_bind. eapply pwp_mono; [exact H1|exact H]. Qed.
Lemma pwp_of_wpi {A} (m : M A) (Q : A -> Prop) st : wpi m Q -> pwp m (fun a _ => Q a) st.
Proof. intros H. exact (H st). Qed.
Lemma wp_pwp {A} (m : M A) (Q1 Q2 : A -> lstate -> Prop) st : wp m Q1 st -> pwp m Q2 st -> wp m Q2 st.
Proof. unfold wp, pwp. destruct (m st) as [[a st']| |]; [auto|contradiction..]. Qed.
Lemma pwp_consume st (Q : option Z -> lstate -> Prop) :
  (forall st', match post st with c :: r => post st' = r -> Q (Some c) st' | [] => post st' = [] -> Q None st' end) ->
  pwp (consume true) Q st.
Proof.
  intros H. unfold pwp, consume. destruct (post st) as [|c r] eqn:E.
  - apply H. reflexivity.
  - apply H. cbn [andb]. destruct (c =? 10); reflexivity.
Qed.

Definition nonl (w : list Z) : Prop := Forall (fun c => c <> 10) w.

Lemma nonl_snoc w c : nonl w -> c <> 10 -> nonl (w ++ [c]).
Proof. intros N C. apply Forall_app. split; [exact N|]. constructor; [exact C|constructor]. Qed.

Lemma list_eqb_eq a : forall b, list_eqb a b = true -> a = b.
Proof. intros b. apply Common.Lists.zs_eqb_eq. Qed.

Lemma definable_nonl op : is_definable_operator op = true -> nonl op.
Proof.
  unfold is_definable_operator. intros H. apply existsb_exists in H as (x & Hin & Hx).
  apply list_eqb_eq in Hx. subst x.
  assert (A : forallb (fun o => forallb (fun c => negb (c =? 10)) o) definable_operators = true) by reflexivity.
  rewrite forallb_forall in A. specialize (A _ Hin). rewrite forallb_forall in A.
  unfold nonl. rewrite Forall_forall. intros c Hc E. specialize (A _ Hc). subst c. discriminate.
Qed.

Lemma skipn_rev_app (p q : list Z) : skipn (Z.to_nat (zlen p)) (rev p ++ q) = q.
Proof. apply skipn_app_exact. unfold zlen. rewrite Nat2Z.id. apply rev_length. Qed.

Definition verbatim (src : list Z) (t : token) : Prop :=
  tk_col_end t = tk_col t + zlen (tk_content t) /\ nonl (tk_content t) /\
  exists rest, skipn (Z.to_nat (tk_start t)) src = tk_content t ++ rest.

Section D.
Variable src : list Z.
Variable xs xc : Z -> bool.
Hypothesis xc_nl : xc 10 = false.

(* an exit with an error item meets these by [intros t [=]] *)
Definition sym_item (it : item) : Prop := forall t, it = ITok t -> verbatim src t.
Definition sym_step (s : step) : Prop := forall t, s = SItem (ITok t) -> tk_kind t = Symbol -> verbatim src t.

Lemma pwp_ns (m : M step) st : wpi m ns_step -> pwp m (fun s _ => sym_step s) st.
Proof.
  intros H. eapply pwp_mono; [apply pwp_of_wpi; exact H|]. intros s _ N t -> K. destruct (N K).
Qed.

Lemma lift_sym (m : M item) st : pwp m (fun it _ => sym_item it) st -> pwp (lift m) (fun s _ => sym_step s) st.
Proof.
  intros H. unfold lift. eapply pwp_seq; [exact H|].
  intros it st' Hi t [= ->] _. apply Hi. reflexivity.
Qed.

Section G.
Variable g : Z.

(** the accumulator [s], in which the functions that build a Symbol token collect its text, is the source text
    from index [g], where the token starts, up to the cursor; every consume keeps this, and at the emit it says
    that the content is the source text *)
Definition reads (s : list Z) (st : lstate) : Prop := skipn (Z.to_nat g) src = s ++ post st.

Lemma consume_reads {B} s st (k : option Z -> M B) (Q : B -> lstate -> Prop) :
  reads s st ->
  (forall st', match post st with
               | c :: _ => reads (s ++ [c]) st' -> pwp (k (Some c)) Q st'
               | [] => pwp (k None) Q st'
               end) ->
  pwp (bind (consume true) k) Q st.
Proof.
  intros R H. apply pwp_bind, pwp_consume. intros st'. specialize (H st').
  destruct (post st) as [|c r] eqn:E; intros E'; [exact H|].
  apply H. unfold reads in *. rewrite R, E, E', <- app_assoc. reflexivity.
Qed.

Lemma mk_token_verbatim k s ln cl st : reads s st -> nonl s -> verbatim src (mk_token k s ln cl g).
Proof. intros R N. split; [reflexivity|]. split; [exact N|]. exists (post st). exact R. Qed.

Lemma ok_tok_reads k s st :
  reads s st -> nonl s -> pwp (t <- emit_singleline_token k s g ;; ok_tok t) (fun it _ => sym_item it) st.
Proof. intros R N t [= <-]. eapply mk_token_verbatim; eassumption. Qed.

Lemma accept_reads k s st : reads s st -> nonl s -> pwp (accept k s g) (fun s _ => sym_step s) st.
Proof. intros R N t [= <-] _. eapply mk_token_verbatim; eassumption. Qed.

Lemma take_while_reads p : (forall c, p c = true -> c <> 10) -> forall n acc st,
  reads acc st -> nonl acc -> pwp (take_while true n p acc) (fun r st' => reads r st' /\ nonl r) st.
Proof.
  intros P. induction n as [|n IH]; intros acc st R N; [exact I|].
  cbn [take_while]. apply pwp_bind_gets. unfold peek_cur_ch.
  destruct (post st) as [|c r] eqn:E; cbn [hd_error]; [split; assumption|].
  destruct (p c) eqn:Pc; [|split; assumption].
  apply (consume_reads acc); [exact R|]. rewrite E. intros st' R'.
  apply IH; [exact R'|]. apply nonl_snoc; [exact N|]. apply P. exact Pc.
Qed.

(** the optional `!` that ends a procedure name *)
Lemma bang_reads a b st : reads b st -> nonl b -> a = b ++ [33] ->
  pwp (if opt_is (peek_cur_ch st) 33 then consume true ;;; ret a else ret b) (fun s st' => reads s st' /\ nonl s) st.
Proof.
  intros R N ->. unfold peek_cur_ch. destruct (post st) as [|d r] eqn:E; cbn [hd_error opt_is]; [split; assumption|].
  destruct (Z.eqb_spec d 33) as [->|_]; [|split; assumption].
  apply (consume_reads b); [exact R|]. rewrite E. intros st' R'.
  split; [exact R'|]. apply nonl_snoc; [exact N|discriminate].
Qed.

Lemma lex_symbol_post c st :
  c <> 10 -> reads [c] st -> pwp (lex_symbol xc true c g) (fun it _ => sym_item it) st.
Proof.
  intros C R. unfold lex_symbol. apply pwp_bind_gets.
  eapply pwp_seq; [apply take_while_reads; [|exact R|constructor; [exact C|constructor]]|].
  { intros d D ->. unfold is_valid_continue_symbol_ch in D. rewrite xc_nl in D. discriminate D. }
  intros cont st1 [R1 N1]. apply pwp_bind_gets.
  eapply pwp_seq; [apply bang_reads; [exact R1|exact N1|reflexivity]|].
  intros cont' st2 [R2 N2]. destruct cont'; [|apply ok_tok_reads; assumption].
  apply pwp_bind_gets. destruct (peek_cur_ch st2); [intros t [=]|exact I].
Qed.

Lemma lex_raw_ident_loop_post : forall n s st,
  reads s st -> nonl s -> pwp (lex_raw_ident_loop true n s g) (fun it _ => sym_item it) st.
Proof.
  induction n as [|n IH]; intros s st R N; [exact I|].
  cbn [lex_raw_ident_loop]. apply pwp_bind_gets. unfold peek_cur_ch.
  destruct (post st) as [|c r] eqn:E; cbn [hd_error]; [intros t [=]|].
  destruct (Z.eqb_spec c 10) as [->|C]; [intros t [=]|].
  destruct (Z.eqb_spec c 39) as [->|_]; (apply (consume_reads s); [exact R|]); rewrite E; intros st1 R1.
  - apply pwp_bind_gets.
    eapply pwp_seq; [apply bang_reads; [exact R1|apply nonl_snoc; [exact N|discriminate]|]|].
    { rewrite <- app_assoc. reflexivity. }
    intros s' st2 [R2 N2]. apply ok_tok_reads; assumption.
  - destruct (is_bidi c); [intros t [=]|]. apply IH; [exact R1|]. apply nonl_snoc; assumption.
Qed.

(* no test for a line break here: that there is none follows from the operator being a definable one *)
Lemma lex_backquote_loop_post : forall n op st,
  reads (96 :: op) st -> pwp (lex_backquote_loop true n op g) (fun s _ => sym_step s) st.
Proof.
  induction n as [|n IH]; intros op st R; [exact I|].
  cbn [lex_backquote_loop]. apply (consume_reads (96 :: op)); [exact R|].
  intros st1. destruct (post st) as [|c r]; [intros t [=]|]. intros R1.
  destruct (Z.eqb_spec c 96) as [->|_]; [|apply IH; exact R1].
  destruct (is_definable_operator op) eqn:ED; [|intros t [=]].
  apply accept_reads; [exact R1|]. constructor; [discriminate|].
  apply nonl_snoc; [apply definable_nonl; exact ED|discriminate].
Qed.

Hint Resolve lex_num_ns lex_ratio_ns lex_single_str_ns lex_multi_line_str_ns lex_interpolation_mid_ns : ns.
Hint Extern 1 (wpi (by_fix _ _ _ _ _) _) => apply by_fix_ns; discriminate : ns.
Hint Extern 1 (wpi (lift _) _) => apply wpi_lift : ns.

(* an arm that cannot produce a Symbol token *)
Ltac arm := solve [apply pwp_ns; wi].

(** Symbol tokens come out of three arms only: the raw identifier 'a b', the back-quoted operator and the
    identifier *)
Lemma dispatch_sv c st : reads [c] st -> pwp (dispatch xs xc true true c g) (fun s _ => sym_step s) st.
Proof.
  intros R. unfold dispatch. apply pwp_bind_gets. apply pwp_bind_gets.
  repeat (lazymatch goal with |- pwp (if ?b then _ else _) _ _ => destruct b eqn:? end; [arm|]).
  (* c = ' : raw identifier, doc comment or error *)
  destruct (c =? 39) eqn:E39.
  { apply Z.eqb_eq in E39. subst c.
    assert (RAW : pwp (lift (lex_raw_ident true g)) (fun s _ => sym_step s) st).
    { apply lift_sym. unfold lex_raw_ident. apply pwp_bind_gets.
      apply lex_raw_ident_loop_post; [exact R|]. constructor; [discriminate|constructor]. }
    destruct (peek_cur_ch st) as [c1|]; [|arm].
    destruct (peek_next_ch st) as [c2|].
    - destruct ((c1 =? 39) && (c2 =? 39)); [arm|]. destruct (c1 =? 39); [arm|exact RAW].
    - destruct (c1 =? 39); [arm|exact RAW]. }
  (* c = ` *)
  destruct (c =? 96) eqn:E96.
  { apply Z.eqb_eq in E96. subst c. apply pwp_bind_gets. apply lex_backquote_loop_post. exact R. }
  destruct (is_ascii_digit c); [arm|]. destruct (is_valid_start_symbol_ch xs c); [|arm].
  (* an identifier; the arm of the line break has been passed *)
  apply lift_sym. apply lex_symbol_post; [|exact R]. apply Z.eqb_neq. assumption.
Qed.
End G.

Lemma next_sym st : Inv src st -> wp (next xs xc true true) (fun s _ => sym_step s) st.
Proof.
  intros I. destruct (eof_dec (prev_kind st)) as [E|PE].
  { unfold next. ws. rewrite E. cbn [kind_eqb]. ws. intros t [=]. }
  apply (next_phases src); [exact I|exact PE| |].
  - intros it st' _ EA t [= ->] K. cbn [early] in EA. rewrite K in EA. destruct EA as [X|[X|[X|X]]]; discriminate X.
  - intros s3 c r QT SY E. pose proof QT as (I3 & _).
    eapply wp_pwp; [apply (dispatch_spec src) with (st0 := adv s3 c r); apply Good_refl, Inv_adv; assumption|].
    apply dispatch_sv. unfold reads. rewrite <- (inv_zip _ _ I3), skipn_rev_app, E, post_adv. reflexivity.
Qed.
End D.

Lemma lex_symbols_verbatim (xs xc : Z -> bool) src items t :
  xc 10 = false -> lex xs xc true true src = Ok items -> In t (tokens_of items) -> tk_kind t = Symbol ->
  verbatim (normalize_newline src) t.
Proof.
  intros X E Hin K. destruct (lex_ok xs xc src) as (items' & E' & R). rewrite E in E'. injection E' as <-.
  set (s := normalize_newline src) in *.
  assert (F : Forall (fun it => sym_step s (SItem it)) items).
  { apply (yields_Forall s xs xc) with (st := init s); [|exact R]. intros st it st' I N.
    pose proof (next_sym s xs xc X st I) as H. unfold wp in H. rewrite N in H. exact H. }
  unfold tokens_of in Hin. apply in_flat_map in Hin as (it & Hit & Ht).
  rewrite Forall_forall in F. destruct it as [u|e u]; [|destruct Ht].
  destruct Ht as [<-|[]]. exact (F _ Hit u eq_refl K).
Qed.

Lemma split_first : forall l cur, exists tail tl, split_nl_acc l cur = (rev cur ++ tail) :: tl.
Proof.
  induction l as [|c r IH]; intros cur; cbn [split_nl_acc].
  - exists [], []. rewrite app_nil_r. reflexivity.
  - destruct (c =? 10).
    + exists [], (split_nl_acc r []). rewrite app_nil_r. reflexivity.
    + destruct (IH (c :: cur)) as (tail & tl & E). exists (c :: tail), tl. rewrite E. cbn [rev]. rewrite <- app_assoc. reflexivity.
Qed.

Lemma split_head : forall w rest cur, nonl w ->
  exists tail tl, split_nl_acc (w ++ rest) cur = (rev cur ++ w ++ tail) :: tl.
Proof.
  induction w as [|c w IH]; intros rest cur N; cbn [app].
  - apply split_first.
  - inversion N as [|? ? C N']; subst. cbn [split_nl_acc]. apply Z.eqb_neq in C. rewrite C.
    destruct (IH rest (c :: cur) N') as (tail & tl & E). exists tail, tl. rewrite E. cbn [rev]. rewrite <- app_assoc. reflexivity.
Qed.

Lemma pos_lines : forall k src cur ln0 w rest ln cl,
  (k <= length src)%nat -> skipn k src = w ++ rest -> nonl w -> pos_scan src k ln0 (zlen cur) = (ln, cl) ->
  exists p tail,
    ln0 <= ln /\ nth_error (split_nl_acc src cur) (Z.to_nat (ln - ln0)) = Some (p ++ w ++ tail) /\ zlen p = cl.
Proof.
  induction k as [|k IH]; intros src cur ln0 w rest ln cl Hk Hs N PS.
  - cbn [skipn] in Hs. subst src. rewrite pos_scan_0 in PS. injection PS as <- <-.
    destruct (split_head w rest cur N) as (tail & tl & E). rewrite E, Z.sub_diag.
    exists (rev cur), tail. split; [lia|]. split; [reflexivity|]. apply zlen_rev.
  - destruct src as [|c r]; [cbn in Hk; lia|]. cbn [skipn] in Hs. cbn [length] in Hk.
    cbn [pos_scan split_nl_acc] in *. destruct (c =? 10).
    + destruct (IH r [] (ln0 + 1) w rest ln cl ltac:(lia) Hs N PS) as (p & tail & A & B & D).
      exists p, tail. split; [lia|]. split; [|assumption].
      replace (Z.to_nat (ln - ln0)) with (S (Z.to_nat (ln - (ln0 + 1)))) by lia. exact B.
    + rewrite <- (zlen_cons c) in PS. destruct (IH r (c :: cur) ln0 w rest ln cl ltac:(lia) Hs N PS) as (p & tail & H).
      exists p, tail. exact H.
Qed.

Lemma span_at_pos src k w rest ln cl :
  0 <= k <= zlen src -> skipn (Z.to_nat k) src = w ++ rest -> nonl w -> (ln, cl) = pos_of src k ->
  wf_loc (Range ln cl ln (cl + zlen w)) src /\ slice src (Range ln cl ln (cl + zlen w)) = Some w.
Proof.
  intros Hk Hs N PO.
  destruct (pos_lines (Z.to_nat k) src [] 1 w rest ln cl) as (p & tail & A & B & D);
    [unfold zlen in Hk; lia|exact Hs|exact N|symmetry; exact PO|].
  assert (HL : line_at src ln = p ++ w ++ tail) by (apply nth_error_nth; exact B).
  assert (HN : (Z.to_nat (ln - 1) < length (split_nl src))%nat)
    by (apply nth_error_Some; unfold split_nl; rewrite B; discriminate).
  pose proof (zlen_nonneg p). pose proof (zlen_nonneg w). pose proof (zlen_nonneg tail).
  split.
  - cbn [wf_loc]. unfold line_len, nlines, zlenl. rewrite HL, !zlen_app. lia.
  - rewrite slice_single by lia. replace (cl + zlen w - cl) with (zlen w) by lia.
    rewrite HL, <- D. unfold zlen. rewrite !Nat2Z.id, skipn_app_exact, firstn_app_exact by reflexivity. reflexivity.
Qed.

Lemma verbatim_loc_exact s t :
  verbatim s t -> 0 <= tk_start t <= zlen s -> (tk_line t, tk_col t) = pos_of s (tk_start t) ->
  token_loc t = Range (tk_line t) (tk_col t) (tk_line t) (tk_col t + zlen (tk_content t)) /\
  wf_loc (token_loc t) s /\
  slice s (token_loc t) = Some (tk_content t).
Proof.
  intros (CE & N & rest & SK) RG PO.
  destruct (span_at_pos s (tk_start t) (tk_content t) rest _ _ RG SK N PO) as [W S].
  assert (L0 : tk_line t <> 0) by (cbn [wf_loc] in W; lia).
  rewrite (token_loc_range t L0), CE. auto.
Qed.
