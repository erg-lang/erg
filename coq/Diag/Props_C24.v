(** C24 — Diagnostics point inside the source at the offending construct.

    Model: Diag/Model.v (crates/erg_common/error.rs: Location calculus, format_context /
    SubMessage::format_code_and_pointer arithmetic; crates/erg_common/io.rs: Input::reread_lines; token.rs:
    Token::loc) on top of the lexer model of C08 (Lexer/Model.v, the current code = switches [true true]).
    Spec: Diag/Spec.v ([wf_loc]: the lines exist and the columns lie within them; [slice]: the text a range covers).

    NOT proved here (sampled by the check only): that the lowering pass attaches to each error the location of the
    right syntax node. *)
From Coq Require Import ZArith List Bool Arith Lia.
Require Import ErgV.Lexer.Model ErgV.Lexer.Spec ErgV.Diag.Model ErgV.Diag.Spec ErgV.Diag.Proofs ErgV.Diag.ProofsIdent .
Import ListNotations.
Open Scope Z_scope.

(** Location::concat (the location of a compound construct: from the beginning of its first part to the end of its
    last part): parts that lie inside the text, the first beginning no later than the last ends, give a location
    inside the text (lines ordered, columns within their lines). *)
Theorem concat_wf : forall (l r : location) (src : list Z),
  wf_loc l src -> wf_loc r src -> begins_before_end l r -> wf_loc (concat l r) src.
Proof.
  intros l r src. destruct l, r; cbn [wf_loc concat ln_begin ln_end col_begin col_end begins_before_end];
    intros; try tauto; lia.
Qed.

Example concat_wf_example :
  let src := [120;32;61;32;49;32;43;10;32;32;34;97;34] in          (* x = 1 +  NEWLINE  two blanks "a" *)
  wf_loc (Range 1 4 1 5) src /\ wf_loc (Range 2 2 2 5) src /\ begins_before_end (Range 1 4 1 5) (Range 2 2 2 5) /\
  concat (Range 1 4 1 5) (Range 2 2 2 5) = Range 1 4 2 5.
Proof.
  cbv zeta. split; [apply wf_locb_iff; reflexivity|]. split; [apply wf_locb_iff; reflexivity|].
  split; [cbn; lia|reflexivity].
Qed.

(** the same for Location::left_main_concat and Location::stream (first and last element of a sequence of parts) *)
Theorem left_main_concat_wf : forall (l r : location) (src : list Z),
  wf_loc l src -> wf_loc r src -> begins_before_end l r -> wf_loc (left_main_concat l r) src.
Proof.
  intros l r src Hl Hr B. rewrite left_main_concat_eq. destruct (is_unknown r); [exact Hl|].
  apply concat_wf; assumption.
Qed.

Theorem stream_wf : forall (ls : list location) (src : list Z),
  Forall (fun l => wf_loc l src) ls ->
  (forall f r, ls = f :: r -> begins_before_end f (last ls Unknown)) ->
  wf_loc (stream ls) src.
Proof.
  intros ls src H B. destruct ls as [|f r]; [exact I|]. cbn [stream]. apply concat_wf.
  - inversion H; assumption.
  - rewrite Forall_forall in H. apply H. apply last_in. discriminate.
  - eapply B. reflexivity.
Qed.

Example stream_wf_example :
  stream [Range 1 0 1 1; Unknown; Range 1 4 1 7] = Range 1 0 1 7 /\
  wf_loc (stream [Range 1 0 1 1; Unknown; Range 1 4 1 7]) [120;32;61;32;122;122;122].
Proof. split; [reflexivity|]. apply wf_locb_iff. reflexivity. Qed.

(** Rendering never panics on a location whose lines are ordered and numbered from 1 — for EVERY source text (any
    characters: wide, combining, control characters, tabs), both kinds of input (a string / a file), every
    sub-message location; in particular on a location that lies inside the text. *)
Theorem render_no_panic_ordered : forall (k : ikind) (src : list Z) (sub core : location),
  ordered_loc (unknown_or sub core) -> render k src sub core <> Panic.
Proof.
  intros k src sub core H E. pose proof (render_outcome k src sub core) as R. rewrite E in R.
  exact (ordered_not_panics _ _ H R).
Qed.

Theorem render_no_panic : forall (k : ikind) (src : list Z) (sub core : location),
  wf_loc (unknown_or sub core) src -> render k src sub core <> Panic.
Proof. intros k src sub core H. apply render_no_panic_ordered. exact (wf_ordered _ _ H). Qed.

(** ErrorDisplay::show / fmt::Display of a whole error: all sub messages *)
Theorem show_no_panic : forall (k : ikind) (src : list Z) (subs : list location) (core : location),
  ordered_loc core -> Forall ordered_loc subs -> show k src subs core <> Panic.
Proof.
  intros k src subs core HC HS. unfold show.
  destruct subs; apply render_all_ordered; [exact HC|repeat constructor; exact HC|exact HC|exact HS].
Qed.

Example render_example :
  (* the line  s = "日本語" + zzz  with the range of zzz: one row, 12 blanks after the gutter blank, 3 marks *)
  let src := [115;32;61;32;34;26085;26412;35486;34;32;43;32;122;122;122;10] in
  wf_loc (Range 1 12 1 15) src /\
  render IStr src (Range 1 12 1 15) Unknown =
    Ok [ {| r_lineno := 1; r_code := [115;32;61;32;34;26085;26412;35486;34;32;43;32;122;122;122];
            r_blanks := 13; r_marks := 3 |} ].
Proof. cbv zeta. split; [apply wf_locb_iff; reflexivity|]. vm_compute. reflexivity. Qed.

(** What happens on ill-formed locations: the renderer panics exactly in these cases (line number 0: the
    power_assert! of Input::reread_lines, `ln_end - 1` on usize; end line before begin line: `ln_end - ln_begin`
    on usize in format_context, debug build). *)
Theorem render_panic_iff : forall (k : ikind) (src : list Z) (sub core : location),
  render k src sub core = Panic <-> panics k (unknown_or sub core).
Proof.
  intros k src sub core. pose proof (render_outcome k src sub core) as R.
  destruct (render k src sub core); [|tauto|contradiction]. split; [discriminate|contradiction].
Qed.

(** so "rendering never panics" does NOT hold for arbitrary locations; the witnesses are replayed on the real
    renderer by the check.  (The compiler never produces them as long as locations are built from token locations
    by concat in source order; concat_wf shows it for parts that lie inside the text.) *)
Theorem render_total_refuted :
  exists (l : location) (src : list Z),
    ~ ordered_loc l /\ render IStr src l Unknown = Panic /\ render IFile src l Unknown = Panic.
Proof. exists (Range 2 0 1 0), [97;10;98;10]. split; [cbn; lia|]. split; reflexivity. Qed.

Theorem render_line0_refuted :
  exists src : list Z, render IStr src (Line 0) Unknown = Panic /\ render IFile src (Line 0) Unknown = Panic.
Proof. exists [97;10]. split; reflexivity. Qed.

(** An identifier token's location is exactly its text: for every source text, every token of kind Symbol in the
    lexer's stream (identifiers, raw identifiers 'a b', back-quoted operators) has the single-line range
    line : col .. col + number of characters, that range lies inside the (newline-normalised) text, and the text
    sliced at the range is the token's content.  [xc] is unicode_xid's is_xid_continue (a parameter of the lexer
    model); a line break is not an identifier character. *)
Theorem ident_loc_exact : forall (xs xc : Z -> bool) (src : list Z) (items : list item) (t : token),
  xc 10 = false ->
  lex xs xc true true src = Ok items -> In t (tokens_of items) -> tk_kind t = Symbol ->
  let s := normalize_newline src in
  token_loc t = Range (tk_line t) (tk_col t) (tk_line t) (tk_col t + zlen (tk_content t)) /\
  wf_loc (token_loc t) s /\
  slice s (token_loc t) = Some (tk_content t).
Proof.
  intros xs xc src items t X E Hin K s.
  destruct (ErgV.Lexer.ProofsNext.lex_pos_faithful_lemma xs xc src items E) as [PF _].
  destruct (PF t Hin) as [RG PO].
  exact (verbatim_loc_exact s t (lex_symbols_verbatim xs xc src items t X E Hin K) RG PO).
Qed.

Definition ascii_letter (c : Z) : bool := ((97 <=? c) && (c <=? 122)) || ((65 <=? c) && (c <=? 90)).
Definition ascii_cont (c : Z) : bool := ascii_letter c || ((48 <=? c) && (c <=? 57)) || (c =? 95).

(* x = "a\nb" + zzz : the identifier after a string with an escape is located at columns 13..16 *)
Example ident_loc_example :
  let src := [120;32;61;32;34;97;92;110;98;34;32;43;32;122;122;122;10] in
  exists items t, lex ascii_letter ascii_cont true true src = Ok items /\ In t (tokens_of items) /\
    tk_kind t = Symbol /\ tk_content t = [122;122;122] /\ token_loc t = Range 1 13 1 16 /\
    slice src (token_loc t) = Some [122;122;122].
Proof.
  cbv zeta. eexists. exists (mk_token Symbol [122;122;122] 1 13 13).
  split; [vm_compute; reflexivity|]. split; [cbn; tauto|]. repeat split; reflexivity.
Qed.

(** The known finding (known/C24.json): the END column of a string token is computed from its cooked content.
    `x = 1 + "\t\t\t"`: the literal occupies columns 8..16 of a 16-character line, its location says 8..22. *)
Theorem string_col_end_refuted :
  exists (src : list Z) (items : list item) (t : token),
    lex ascii_letter ascii_cont true true src = Ok items /\ In t (tokens_of items) /\
    tk_kind t = StrLit /\ ~ wf_loc (token_loc t) (normalize_newline src) /\
    known_c24 (normalize_newline src) (tokens_of items) (token_loc t) = true.
Proof.
  exists [120;32;61;32;49;32;43;32;34;92;116;92;116;92;116;34]. eexists.
  exists (mk_token StrLit [34;32;32;32;32;32;32;32;32;32;32;32;32;34] 1 8 8).
  split; [vm_compute; reflexivity|]. split; [cbn; tauto|]. split; [reflexivity|].
  split; [|vm_compute; reflexivity].
  intros H. apply wf_locb_iff in H. vm_compute in H. discriminate H.
Qed.
