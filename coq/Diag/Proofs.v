(** C24 — facts about the location calculus, and the outcome of the renderer as a function of the line numbers of
    the location ([panics], [render_outcome]). *)
From Coq Require Import ZArith List Bool Arith Lia.
Require Import ErgV.Lexer.Model ErgV.Diag.Model ErgV.Diag.Spec .
Import ListNotations.
Open Scope Z_scope.

Lemma wf_locb_iff l src : wf_locb l src = true <-> wf_loc l src.
Proof.
  destruct l; cbn [wf_locb wf_loc];
    rewrite ?andb_true_iff, ?orb_true_iff, ?negb_true_iff, ?Z.leb_le, ?Z.eqb_neq; [lia..|tauto].
Qed.

Lemma wf_ordered l src : wf_loc l src -> ordered_loc l.
Proof. destruct l; cbn [wf_loc ordered_loc]; intros; try tauto; lia. Qed.

Lemma concat_unknown_l r : concat Unknown r = match ln_end r with Some a => Line a | None => Unknown end.
Proof. destruct r; reflexivity. Qed.

(** left_main_concat differs from concat only when there is no right part: it keeps the left part whole, where
    concat keeps its first line *)
Lemma left_main_concat_eq l r : left_main_concat l r = if is_unknown r then l else concat l r.
Proof. destruct l, r; reflexivity. Qed.

Lemma last_in {A} (l : list A) d : l <> [] -> In (last l d) l.
Proof.
  induction l as [|x r IH]; [congruence|]. intros _. destruct r as [|y r']; [left; reflexivity|].
  right. apply IH. discriminate.
Qed.

Lemma token_loc_range t :
  tk_line t <> 0 -> token_loc t = Range (tk_line t) (tk_col t) (tk_line t) (tk_col_end t).
Proof. intros H. unfold token_loc. apply Z.eqb_neq in H. rewrite H. reflexivity. Qed.

Lemma slice_single src ln cb ce :
  0 <= cb <= ce ->
  slice src (Range ln cb ln ce) = Some (firstn (Z.to_nat (ce - cb)) (skipn (Z.to_nat cb) (line_at src ln))).
Proof.
  intros H. cbn [slice]. rewrite Z.eqb_refl. destruct (Z.leb_spec 0 cb); [|lia]. destruct (Z.leb_spec cb ce); [|lia].
  reflexivity.
Qed.

(** exactly when the renderer panics *)
Definition panics (k : ikind) (l : location) : Prop :=
  match l with
  | Range lb _ le _ => lb < 1 \/ (k = IStr /\ le < 1) \/ le < lb
  | LineRange lb le => lb < 1 \/ (k = IStr /\ le < 1)
  | Line a => a < 1
  | Unknown => False
  end.

Lemma ordered_not_panics k l : ordered_loc l -> ~ panics k l.
Proof. destruct l; cbn [ordered_loc panics]; intros H P; try tauto; lia. Qed.

(** what Input::reread_lines does is decided by the line numbers alone *)
Lemma reread_lines_outcome k src lb le :
  match reread_lines k src lb le with
  | Ok _ => ~ (lb < 1 \/ (k = IStr /\ le < 1))
  | Panic => lb < 1 \/ (k = IStr /\ le < 1)
  | Fuel => False
  end.
Proof.
  unfold reread_lines. destruct (Z.ltb_spec lb 1); [left; assumption|]. destruct k.
  - destruct (Z.ltb_spec le 1); [right; split; [reflexivity|assumption]|].
    destruct ((lb - 1 <=? le) && (le <=? zlenl (split_nl src))); lia.
  - intros [L|[E _]]; [lia|discriminate E].
Qed.

Lemma render_outcome k src sub core :
  match render k src sub core with
  | Ok _ => ~ panics k (unknown_or sub core)
  | Panic => panics k (unknown_or sub core)
  | Fuel => False
  end.
Proof.
  unfold render. destruct (unknown_or sub core) as [lb cb le ce|lb le|a|]; cbn [panics]; [| | |tauto].
  - unfold format_context. pose proof (reread_lines_outcome k src lb le) as R.
    destruct (reread_lines k src lb le); [|tauto..]. destruct (Z.ltb_spec le lb); [tauto|].
    intros [L|[L|L]]; [tauto..|lia].
  - pose proof (reread_lines_outcome k src lb le) as R. destruct (reread_lines k src lb le); exact R.
  - pose proof (reread_lines_outcome k src a a) as R. destruct (reread_lines k src a a); tauto.
Qed.

Lemma render_all_outcome k src core subs :
  match render_all k src subs core with
  | Ok _ => Forall (fun s => ~ panics k (unknown_or s core)) subs
  | Panic => Exists (fun s => panics k (unknown_or s core)) subs
  | Fuel => False
  end.
Proof.
  induction subs as [|s r IH]; cbn [render_all]; [constructor|].
  pose proof (render_outcome k src s core) as R.
  destruct (render k src s core); [|left; exact R|contradiction].
  destruct (render_all k src r core); [constructor; assumption|right; exact IH|contradiction].
Qed.

Lemma render_all_ordered k src core subs :
  ordered_loc core -> Forall ordered_loc subs -> render_all k src subs core <> Panic.
Proof.
  intros HC HS E. pose proof (render_all_outcome k src core subs) as R. rewrite E in R.
  apply Exists_exists in R as (s & Hin & P). rewrite Forall_forall in HS.
  apply (ordered_not_panics k (unknown_or s core)); [|exact P].
  unfold unknown_or. destruct (is_unknown s); [exact HC|exact (HS s Hin)].
Qed.

(** the rows of a single-line range: one row, the marker row starts under the first column of the range and
    has as many marks as the range has characters (at least one) *)
Lemma render_single_line k src lb cb ce core :
  1 <= lb -> exists code,
  render k src (Range lb cb lb ce) core =
    Ok [ {| r_lineno := lb; r_code := code; r_blanks := 1 + cb; r_marks := Z.max 1 (sat_sub ce cb) |} ].
Proof.
  intros H. unfold render, unknown_or. cbn [is_unknown]. unfold format_context.
  pose proof (reread_lines_outcome k src lb lb) as R.
  destruct (reread_lines k src lb lb) as [codes| |]; [|lia|contradiction].
  rewrite Z.ltb_irrefl, Z.sub_diag. cbn [Z.to_nat seq map Nat.eqb andb]. rewrite Z.add_0_r. eexists. reflexivity.
Qed.
