(** C22 — observations of a checker result, and the equations that replace the local loops of
    [Model.check_expr] by the top-level [check_list] / [check_opt] and by [check_params] / [check_def_eq] below. *)
From Coq Require Import ZArith List Bool Lia.
From ErgV Require Import Effects.MiniHir Effects.Model Effects.Spec.
Import ListNotations.
Open Scope Z_scope.

Definition okb (r : M) : bool := match r with Ok [] => true | _ => false end.

Lemma okb_seq a b : okb (seq a b) = okb a && okb b.
Proof.
  destruct a as [x|s]; [|reflexivity].
  destruct b as [y|s']; simpl; [destruct x, y; reflexivity | destruct x; reflexivity].
Qed.

Lemma okb_true r : okb r = true <-> r = Ok [].
Proof. split; [|intros ->; reflexivity]. destruct r as [[|? ?]|]; simpl; congruence. Qed.

(** instances: "no error" ([okb]) and "no panic" ([Proofs.npb]) *)
Record Hom (h : M -> bool) : Prop := {
  hom_seq : forall a b, h (seq a b) = h a && h b;
  hom_nil : h (Ok []) = true;
  hom_panic : forall s, h (Panic s) = false }.
Arguments hom_seq {h}.
Arguments hom_nil {h}.
Arguments hom_panic {h}.

Lemma okb_hom : Hom okb.
Proof. split; [exact okb_seq|reflexivity|reflexivity]. Qed.

Lemma h_seql h (Hh : Hom h) l : h (seql l) = forallb h l.
Proof. induction l as [|a t IH]; simpl; [apply (hom_nil Hh)|]. rewrite (hom_seq Hh), IH. reflexivity. Qed.

Lemma seq_nil_l b : seq (Ok []) b = b.
Proof. destruct b; reflexivity. Qed.
Lemma seq_nil_r a : seq a (Ok []) = a.
Proof. destruct a; [simpl; rewrite app_nil_r|]; reflexivity. Qed.

Section Eq.
  Variable fx : fixes.

  Lemma fix_list st path l :
    (fix go (l : list expr) : M :=
       match l with [] => Ok [] | x :: t => seq (check_expr fx st path x) (go t) end) l
    = check_list fx st path l.
  Proof. unfold check_list. induction l as [|x t IH]; simpl; [reflexivity|]. rewrite IH. reflexivity. Qed.

  Lemma eq_ListN st path es : check_expr fx st path (ListN es) = check_list fx st path es.
  Proof. simpl. apply fix_list. Qed.

  Lemma eq_ClassDef st path pub name req ms :
    check_expr fx st path (ClassDef pub name req ms) = seq (check_opt fx st path req) (check_list fx st path ms).
  Proof. simpl. rewrite fix_list. reflexivity. Qed.

  (** fn check_params, as it is written inside [check_expr] *)
  Definition check_dflt (st : list frame) (path : list seg) : list (pinfo * expr) -> M :=
    fix go l :=
      match l with
      | [] => Ok []
      | (p, dv) :: t => seq (param_err path p) (seq (check_expr fx st path dv) (go t))
      end.
  Definition check_params (st : list frame) (path : list seg) (ps : params) : M :=
    seq (seql (map (param_err path) (ps_nd ps)))
   (seq (match ps_var ps with Some p => param_err path p | None => Ok [] end)
        (check_dflt st path (ps_dflt ps))).

  Definition lambda_path (proc : bool) (path : list seg) := path ++ [(false, if proc then s_lambda_p else s_lambda)].

  Lemma eq_Lambda st path proc ps body :
    check_expr fx st path (Lambda proc ps body)
    = seq (check_params ((if proc then Proc else Func) :: st) (lambda_path proc path) ps)
          (check_list fx ((if proc then Proc else Func) :: st) (lambda_path proc path) body).
  Proof. destruct ps. simpl. rewrite fix_list. reflexivity. Qed.

  (** fn check_def *)
  Definition last_assign (k : frame) (d : def) (path' : list seg) : M :=
    match d_body d with
    | [] => Ok []
    | _ :: _ => if frame_eqb k Instant && negb (d_proc d) && d_last_tproc d
                then Ok [MkErr ProcAssign (d_loc d) (full_path path')] else Ok []
    end.

  Definition def_path (path : list seg) (d : def) : list seg :=
    if is_subr d then path ++ [(d_pub d, d_name d)] else path.

  Definition check_def_eq (st : list frame) (path : list seg) (d : def) : M :=
    seq (if fx_subs fx then check_list fx st path (d_decos d) else Ok [])
        (match def_frame (d_proc d) (is_subr d) (d_const d) with
         | None => Panic 2
         | Some k =>
           seq (match d_params d with Some ps => check_params (k :: st) (def_path path d) ps | None => Ok [] end)
          (seq (check_list fx (k :: st) (def_path path d) (d_body d)) (last_assign k d (def_path path d)))
         end).

  Lemma eq_DefE st path d : check_expr fx st path (DefE d) = check_def_eq st path d.
  Proof.
    destruct d as [loc dproc dconst dpub name ops decos body ltp].
    unfold check_def_eq, def_path, is_subr, last_assign. simpl. rewrite !fix_list.
    destruct ops as [[nd var dflt kwvar guards]|]; simpl.
    - destruct (def_frame dproc true dconst); [|reflexivity]. rewrite !fix_list. reflexivity.
    - destruct (def_frame dproc false dconst); [|reflexivity]. rewrite !fix_list. reflexivity.
  Qed.
End Eq.
