(** C22 — structural lemma: a checker result is determined by the node-local checks and the visited kids;
    the module-level loop reduced to it. *)
From Coq Require Import ZArith List Bool.
From ErgV Require Import Common.Lists Effects.MiniHir Effects.Model Effects.Spec Effects.ProofsEq.
Import ListNotations.
Open Scope Z_scope.

Definition pushf (s : list step) (st : list frame) : list frame :=
  fold_left (fun st x => match fst x with Some k => k :: st | None => st end) s st.
Definition pushp (s : list step) (path : list seg) : list seg :=
  fold_left (fun p x => match snd x with Some sg => p ++ [sg] | None => p end) s path.

Lemma pushf_app s1 s2 st : pushf (s1 ++ s2) st = pushf s2 (pushf s1 st).
Proof. apply fold_left_app. Qed.
Lemma pushp_app s1 s2 p : pushp (s1 ++ s2) p = pushp s2 (pushp s1 p).
Proof. apply fold_left_app. Qed.

Lemma def_step_frame d k : def_frame (d_proc d) (is_subr d) (d_const d) = Some k ->
  forall st, pushf [def_step d] st = k :: st.
Proof. intros H st. unfold def_step, def_frame'. rewrite H. reflexivity. Qed.
Lemma def_step_path d p : pushp [def_step d] p = def_path p d.
Proof. unfold def_step, def_path. destruct (is_subr d); reflexivity. Qed.

Definition params_here (path : list seg) (ps : params) : M :=
  seq (seql (map (param_err path) (ps_nd ps)))
 (seq (match ps_var ps with Some p => param_err path p | None => Ok [] end)
      (seql (map (fun pe => param_err path (fst pe)) (ps_dflt ps)))).
Definition def_here (path : list seg) (d : def) : M :=
  match def_frame (d_proc d) (is_subr d) (d_const d) with
  | None => Panic 2
  | Some k =>
    seq (match d_params d with Some ps => params_here (def_path path d) ps | None => Ok [] end)
        (last_assign k d (def_path path d))
  end.
Definition here_chk (st : list frame) (path : list seg) (e : expr) : M :=
  match e with
  | Ident a | Attr a _ => touch cur st path a
  | Call loc _ cp at_ ctor _ _ _ _ =>
    seq (if ctor then unless_allowed cur st (MkErr CtorDtor loc (full_path path)) else Ok [])
        (if cp || attr_proc at_ then unless_allowed cur st (MkErr HasEffect loc (full_path path)) else Ok [])
  | BinOp loc isop _ _ => if isop then unless_allowed cur st (MkErr HasEffect loc (full_path path)) else Ok []
  | DictOther => Panic 3
  | Lambda proc ps _ => params_here (lambda_path proc path) ps
  | DefE d => def_here path d
  | Record attrs => seql (map (def_here (path ++ [(false, s_record)])) attrs)
  | _ => Ok []
  end.

Lemma andb_swap a b c : a && (b && c) = b && (a && c).
Proof. destruct a, b; reflexivity. Qed.

Section Hom.
  Variable h : M -> bool.
  Hypothesis Hh : Hom h.

  Definition kid_ok (st : list frame) (path : list seg) (sk : list step * expr) : bool :=
    h (check_expr cur (pushf (fst sk) st) (pushp (fst sk) path) (snd sk)).

  Lemma h_check_list fx st path l :
    h (check_list fx st path l) = forallb (fun x => h (check_expr fx st path x)) l.
  Proof. unfold check_list. rewrite (h_seql h Hh), forallb_map. reflexivity. Qed.

  Lemma h_oexpr st path o :
    h (check_opt cur st path o) = forallb (fun x => h (check_expr cur st path x)) (oexpr o).
  Proof. destruct o; simpl; [rewrite andb_true_r; reflexivity|apply (hom_nil Hh)]. Qed.

  Lemma forallb_here st path l :
    forallb (kid_ok st path) (map (fun k => (k_steps k, k_e k)) (here l))
    = forallb (fun x => h (check_expr cur st path x)) l.
  Proof. unfold here. rewrite !forallb_map. reflexivity. Qed.

  Lemma h_dflt st path l :
    h (check_dflt cur st path l)
    = forallb (fun pe => h (param_err path (fst pe))) l && forallb (fun pe => h (check_expr cur st path (snd pe))) l.
  Proof.
    induction l as [|[p dv] t IH]; cbn [check_dflt forallb fst snd]; [apply (hom_nil Hh)|].
    fold (check_dflt cur st path t). rewrite !(hom_seq Hh), IH, <- andb_assoc. f_equal. apply andb_swap.
  Qed.

  Lemma h_params st path ps :
    h (check_params cur st path ps)
    = h (params_here path ps) && forallb (fun pe => h (check_expr cur st path (snd pe))) (ps_dflt ps).
  Proof.
    unfold check_params, params_here. rewrite !(hom_seq Hh), h_dflt, !(h_seql h Hh), !forallb_map, !andb_assoc.
    reflexivity.
  Qed.

  (** [params_quiet] and [params_named] have this shape. *)
  Lemma h_params_here (q : pinfo -> bool) path ps :
    (forall p, q p = true -> h (param_err path p) = true) ->
    forallb q (ps_nd ps) && match ps_var ps with Some p => q p | None => true end
      && forallb (fun pe => q (fst pe)) (ps_dflt ps) = true ->
    h (params_here path ps) = true.
  Proof.
    intros Hq H. apply andb_true_iff in H. destruct H as [H H3]. apply andb_true_iff in H. destruct H as [H1 H2].
    unfold params_here. rewrite !(hom_seq Hh), !(h_seql h Hh), !forallb_map, !andb_true_iff. repeat split.
    - apply (forallb_impl _ _ _ Hq H1).
    - destruct (ps_var ps) as [p|]; [apply Hq, H2|apply (hom_nil Hh)].
    - apply (forallb_impl (fun pe => q (fst pe))); [intros pe; apply Hq|exact H3].
  Qed.

  (** the definition arm, under a prefix [pre] of boundaries already crossed *)
  Lemma h_def pre st path d :
    h (check_expr cur (pushf pre st) (pushp pre path) (DefE d))
    = h (def_here (pushp pre path) d) && forallb (kid_ok st path) (ckids_def pre d).
  Proof.
    rewrite eq_DefE. unfold check_def_eq, def_here, ckids_def. cbn [fx_subs cur].
    rewrite !forallb_app, !forallb_map, (hom_seq Hh), h_check_list.
    unfold kid_ok at 1. cbn [fst snd].
    destruct (def_frame (d_proc d) (is_subr d) (d_const d)) as [k|] eqn:Hk.
    2:{ rewrite (hom_panic Hh), andb_false_r. reflexivity. }
    rewrite !(hom_seq Hh), h_check_list.
    unfold kid_ok. cbn [fst snd]. rewrite !pushf_app, !pushp_app, (def_step_frame d k Hk), def_step_path.
    destruct (d_params d) as [ps|].
    - unfold ckids_params. rewrite forallb_map. cbn [fst snd].
      rewrite !pushf_app, !pushp_app, (def_step_frame d k Hk), def_step_path, h_params.
      (* code order: decorators, parameters, body, last assignment *)
      rewrite <- !andb_assoc, andb_swap. f_equal. symmetry. rewrite andb_comm, <- !andb_assoc. reflexivity.
    - cbn [forallb]. rewrite (hom_nil Hh). cbn [andb]. symmetry. rewrite andb_comm, <- andb_assoc. reflexivity.
  Qed.

  Lemma h_Record st path attrs :
    h (check_expr cur st path (Record attrs))
    = h (here_chk st path (Record attrs)) && forallb (kid_ok st path) (ckids (Record attrs)).
  Proof.
    cbn [here_chk ckids].
    rewrite (h_seql h Hh), forallb_map, forallb_flat_map, <- forallb_andb.
    etransitivity; [|apply forallb_ext; intros d; apply (h_def [record_step])].
    induction attrs as [|d t IH]; [apply (hom_nil Hh)|].
    cbn [forallb]. rewrite <- IH, <- (hom_seq Hh). reflexivity.
  Qed.

  Lemma h_DictN st path kvs :
    h (check_expr cur st path (DictN kvs))
    = h (here_chk st path (DictN kvs)) && forallb (kid_ok st path) (ckids (DictN kvs)).
  Proof.
    cbn [here_chk ckids kids]. rewrite forallb_here, (hom_nil Hh). cbn [andb].
    induction kvs as [|[k v] t IH]; [apply (hom_nil Hh)|].
    cbn [flat_map fst snd app forallb]. rewrite <- IH, <- !(hom_seq Hh). reflexivity.
  Qed.

  Lemma h_Lambda st path proc ps body :
    h (check_expr cur st path (Lambda proc ps body))
    = h (here_chk st path (Lambda proc ps body)) && forallb (kid_ok st path) (ckids (Lambda proc ps body)).
  Proof.
    rewrite eq_Lambda, (hom_seq Hh), h_params, h_check_list. cbn [here_chk ckids].
    unfold ckids_params. rewrite forallb_app, !forallb_map. unfold kid_ok. cbn [fst snd]. symmetry. apply andb_assoc.
  Qed.

  Lemma h_check_expr st path e :
    h (check_expr cur st path e) = h (here_chk st path e) && forallb (kid_ok st path) (ckids e).
  Proof.
    destruct e;
      lazymatch goal with
      | |- context [DictN] => apply h_DictN
      | |- context [Record] => apply h_Record
      | |- context [Lambda] => apply h_Lambda
      | |- context [DefE] => apply (h_def [])
      | _ => idtac
      end.
    all: cbn [check_expr here_chk ckids kids fx_subs cur]; unfold attr_proc; rewrite ?fix_list;
      try change (match ?o with Some x => check_expr cur st path x | None => Ok [] end) with (check_opt cur st path o).
    all: rewrite ?forallb_here, ?(hom_seq Hh), ?h_check_list, ?h_oexpr; cbn [map forallb];
      rewrite ?forallb_app; cbn [forallb]; rewrite ?(hom_nil Hh), ?(hom_panic Hh); cbn [andb]; rewrite ?andb_true_r.
    all: try reflexivity.
    (* the node-local checks stand among the recursive calls *)
    - apply andb_comm.
    - rewrite <- andb_assoc. f_equal. apply andb_swap.
    - rewrite andb_assoc. apply andb_comm.
  Qed.
End Hom.

(** At module level effects are allowed, so the loop body of [check] differs from [check_expr] only in the
    namespace under which it checks the methods of a class. *)
Lemma check_top_module path e :
  check_top cur [Module] path e
  = match e with
    | ClassDef pub name req ms =>
      seq (check_opt cur [Module] path req) (check_list cur [Module] (path ++ [(pub, name)]) ms)
    | _ => check_expr cur [Module] path e
    end.
Proof.
  destruct e; try reflexivity; cbn [check_top check_expr fx_subs cur]; rewrite ?fix_list.
  - symmetry. apply seq_nil_r.
  - destruct ctor, (callee_proc || _); rewrite !seq_nil_l; reflexivity.
  - destruct isop; rewrite seq_nil_r; reflexivity.
Qed.

Lemma h_check_top h (Hh : Hom h) e :
  (forall path, h (check_expr cur [Module] path e) = true) ->
  forall path, h (check_top cur [Module] path e) = true.
Proof.
  intros H path. rewrite check_top_module. destruct e; try apply H.
  pose proof (H path) as H1. pose proof (H (path ++ [(pub, name)])) as H2.
  rewrite eq_ClassDef, (hom_seq Hh) in H1, H2. rewrite (hom_seq Hh).
  apply andb_true_iff in H1, H2. apply andb_true_iff. split; [apply H1|apply H2].
Qed.

Lemma h_check_module h (Hh : Hom h) fx m hir :
  h (check_module fx m hir) = forallb (fun e => h (check_top fx [Module] [(false, m)] e)) hir.
Proof. unfold check_module. rewrite (h_seql h Hh), forallb_map. reflexivity. Qed.
