(** C22 — the checker against the Spec.  [Rel] links a Spec context with the checker's two stacks and is kept by every
    boundary crossed; with the one-level form of the checker (ProofsStruct.h_check_expr) each of the three results is
    an induction over its predicate: an effect in the guarantee is reported ([effect_rejected]), a quiet tree is
    accepted ([quiet_accepted]), a well-formed tree does not panic ([no_panic_any]).  Only the first needs the stack to
    stand over [Module]: the other two ask of it at most its permission [gen].  Then the module level, the executable
    judges, and the witness programs of the refutations. *)
From Coq Require Import ZArith List Bool Lia.
From ErgV Require Import Common.Lists Effects.MiniHir Effects.Model Effects.Spec Effects.ProofsEq Effects.ProofsStruct.
Import ListNotations.
Open Scope Z_scope.

Definition npb (r : M) : bool := match r with Panic _ => false | Ok _ => true end.
Lemma npb_hom : Hom npb.
Proof. split; [|reflexivity|reflexivity]. intros a b. destruct a; [destruct b|]; reflexivity. Qed.

Lemma okb_false_ne r : okb r = false -> r <> Ok [].
Proof. intros H E. rewrite E in H. discriminate. Qed.
Lemma okb_all_true_eq r : okb r = true -> r = Ok [].
Proof. apply okb_true. Qed.

Lemma str_eqb_eq a b : str_eqb a b = true <-> a = b.
Proof. exact (Common.Lists.zs_eqb_eq a b). Qed.
Lemma str_eqb_refl a : str_eqb a a = true.
Proof. apply str_eqb_eq. reflexivity. Qed.

Lemma prefixb_app p x : prefixb p (p ++ x) = true.
Proof. induction p as [|c p IH]; simpl; [reflexivity|]. rewrite Z.eqb_refl. exact IH. Qed.
Lemma prefixb_app_r p s x : prefixb p s = true -> prefixb p (s ++ x) = true.
Proof.
  revert s. induction p as [|c p IH]; intros s H; [reflexivity|].
  destruct s as [|d s]; simpl in *; [discriminate|].
  apply andb_true_iff in H. destruct H as [H1 H2]. rewrite H1, (IH _ H2). reflexivity.
Qed.

Lemma within_refl s : within s s = true.
Proof. unfold within. rewrite str_eqb_refl. reflexivity. Qed.

Lemma within_push sub ns sg : within sub ns = true -> within sub (ns ++ seg_str sg) = true.
Proof.
  unfold within. intros H.
  apply orb_true_iff in H. destruct H as [H|H]; [apply orb_true_iff in H; destruct H as [H|H]|].
  - apply str_eqb_eq in H. subst ns. unfold seg_str.
    destruct (fst sg); rewrite app_assoc, prefixb_app, ?orb_true_r; reflexivity.
  - rewrite (prefixb_app_r _ _ _ H), orb_true_r. reflexivity.
  - rewrite (prefixb_app_r _ _ _ H). apply orb_true_r.
Qed.

Lemma trim_start_app a b : trim_start a <> [] -> trim_start (a ++ b) = trim_start a ++ b.
Proof.
  induction a as [|c a IH]; simpl; [congruence|].
  destruct (is_sep c); [exact IH|]. reflexivity.
Qed.

Lemma full_path_snoc p sg : full_path p <> [] -> full_path (p ++ [sg]) = full_path p ++ seg_str sg.
Proof. unfold full_path. intros H. rewrite fold_left_app. apply trim_start_app. exact H. Qed.

(** a module namespace: non-empty, does not start with '.' or ':' ("<module>", a file stem) *)
Definition good_root (m : str) : bool := match m with c :: _ => negb (is_sep c) | [] => false end.

Lemma full_path_root m : good_root m = true -> full_path [(false, m)] = m.
Proof.
  destruct m as [|c m]; [discriminate|]. simpl. intros H. unfold full_path. simpl.
  destruct (is_sep c); [discriminate|]. reflexivity.
Qed.
Lemma good_root_nonempty m : good_root m = true -> m <> [].
Proof. destruct m; simpl; congruence. Qed.

Definition gen (st : list frame) : bool :=
  match find (fun k => negb (frame_eqb k Instant)) st with
  | Some Proc | Some Module | None => true
  | Some _ => false
  end.
Definition bottom (st : list frame) : Prop := exists s', st = s' ++ [Module].

Lemma bottom_cons k st : bottom st -> bottom (k :: st).
Proof. intros [s' ->]. exists (k :: s'). reflexivity. Qed.
Lemma bottom_module : bottom [Module].
Proof. exists []. reflexivity. Qed.

(** what [allowed cur] answers: [gen] of the stack, but on a stack of one frame always yes; the two agree on a
    stack over [Module], and on any other [gen] allows no more *)
Definition perm (st : list frame) : bool := match st with [_] => true | _ => gen st end.

Lemma allowed_perm st : allowed cur st = Ok (perm st).
Proof. destruct st as [|k [|k' st]]; reflexivity. Qed.
Lemma perm_bottom st : bottom st -> perm st = gen st.
Proof. intros [[|a [|b s']] ->]; reflexivity. Qed.
Lemma gen_perm st : gen st = true -> perm st = true.
Proof. destruct st as [|k [|k' st]]; auto. Qed.

Lemma gen_cons k st :
  gen (k :: st) = match k with Instant => gen st | Proc | Module => true | _ => false end.
Proof. destruct k; reflexivity. Qed.

Record Rel (c : sctx) (st : list frame) (path : list seg) : Prop := {
  R_bottom : bottom st;
  R_gen : gen st = negb (s_forbid c);
  R_path : full_path path = s_ns c;
  R_ne : s_ns c <> [];
  R_within : within (s_sub c) (s_ns c) = true }.

Lemma app_ne {A} (a b : list A) : a <> [] -> a ++ b <> [].
Proof. destruct a; simpl; congruence. Qed.

Lemma Rel_enter1 c st path x : Rel c st path -> Rel (enter1 c x) (pushf [x] st) (pushp [x] path).
Proof.
  intros [Hb Hg Hp Hn Hw]. destruct x as [ok osg]. unfold enter1, pushf, pushp. cbn [fst snd fold_left].
  set (ns' := match osg with Some sg => s_ns c ++ seg_str sg | None => s_ns c end).
  assert (Hp' : full_path (match osg with Some sg => path ++ [sg] | None => path end) = ns').
  { subst ns'. destruct osg as [sg|]; [|exact Hp]. rewrite full_path_snoc, Hp; [reflexivity|]. rewrite Hp. exact Hn. }
  assert (Hn' : ns' <> []).
  { subst ns'. destruct osg; [apply app_ne|]; exact Hn. }
  assert (Hw' : within (s_sub c) ns' = true).
  { subst ns'. destruct osg; [apply within_push|]; exact Hw. }
  constructor.
  - destruct ok; [apply bottom_cons|]; exact Hb.
  - destruct ok as [[]|]; cbn [s_forbid]; rewrite ?gen_cons; first [exact Hg|reflexivity].
  - destruct ok as [[]|]; exact Hp'.
  - destruct ok as [[]|]; exact Hn'.
  - (* a subroutine frame restarts [s_sub] at the new namespace *)
    destruct ok as [[]|]; cbn [s_sub s_ns]; first [exact Hw'|apply within_refl].
Qed.

Lemma Rel_enter c st path s : Rel c st path -> Rel (enter c s) (pushf s st) (pushp s path).
Proof.
  revert c st path. induction s as [|x s IH]; intros c st path H; [exact H|].
  change (enter c (x :: s)) with (enter (enter1 c x) s).
  change (pushf (x :: s) st) with (pushf s (pushf [x] st)).
  change (pushp (x :: s) path) with (pushp s (pushp [x] path)).
  apply IH, Rel_enter1, H.
Qed.

Lemma Rel_top m : good_root m = true -> Rel (ctx_top m) [Module] [(false, m)].
Proof.
  intros H. constructor; cbn [ctx_top s_forbid s_ns s_sub].
  - apply bottom_module.
  - reflexivity.
  - apply full_path_root, H.
  - apply good_root_nonempty, H.
  - apply within_refl.
Qed.

Lemma in_mkkid vis s l k : In k (map (MkKid vis s) l) -> k_vis k = vis /\ k_steps k = s /\ In (k_e k) l.
Proof. intros H. apply in_map_iff in H. destruct H as [x [<- Hx]]. auto. Qed.

Lemma vis_params_kids pre inner ps k :
  In k (params_kids pre inner ps) -> k_vis k = true ->
  In (k_steps k, k_e k) (ckids_params (pre ++ [inner]) ps).
Proof.
  unfold params_kids, ckids_params. intros H Hv. apply in_app_or in H. destruct H as [H|H].
  - destruct (fst inner) as [[]|]; apply in_mkkid in H; try (rewrite Hv in H; destruct H; discriminate);
      destruct H as [_ [-> H]]; apply in_map_iff in H; destruct H as [pe [<- Hpe]];
      apply in_map_iff; exists pe; auto.
  - apply in_mkkid in H. rewrite Hv in H. destruct H. discriminate.
Qed.

Lemma vis_def_kids pre d k :
  In k (def_kids pre d) -> k_vis k = true -> In (k_steps k, k_e k) (ckids_def pre d).
Proof.
  unfold def_kids, ckids_def. intros H Hv. rewrite !in_app_iff in *. destruct H as [H|[H|H]].
  - apply in_mkkid in H. destruct H as [_ [-> H]]. left. apply in_map. exact H.
  - right. left. unfold oparams_kids in H.
    destruct (d_params d) as [ps|]; [|destruct H]. apply vis_params_kids; assumption.
  - apply in_mkkid in H. destruct H as [_ [-> H]]. right. right. apply in_map. exact H.
Qed.

Lemma vis_kids_ckids e k : In k (kids e) -> k_vis k = true -> In (k_steps k, k_e k) (ckids e).
Proof.
  intros H Hv.
  destruct e; cbn [kids ckids] in *;
    try (apply (in_map (fun k => (k_steps k, k_e k))); exact H);
    try (apply in_mkkid in H; rewrite Hv in H; destruct H; discriminate).
  - (* Record *)
    apply in_flat_map in H. destruct H as [d [Hd H]]. apply in_flat_map. exists d. split; [exact Hd|].
    apply vis_def_kids; assumption.
  - (* Lambda *)
    apply in_app_or in H. destruct H as [H|H]; apply in_or_app.
    + left. apply (vis_params_kids [] (lambda_step proc) ps k H Hv).
    + right. apply in_mkkid in H. destruct H as [_ [-> H]]. apply in_map. exact H.
  - (* DefE *) apply vis_def_kids; assumption.
Qed.

Lemma effect_here_chk c st path e :
  Rel c st path -> effect_here c e = true -> okb (here_chk st path e) = false.
Proof.
  intros [Hb Hg Hp Hn Hw] He.
  assert (Hvar : forall a, var_effect c a = true -> okb (touch cur st path a) = false).
  { intros a Ha. unfold var_effect in Ha.
    repeat (apply andb_true_iff in Ha; destruct Ha as [Ha ?]).
    unfold touch. rewrite allowed_perm, (perm_bottom st Hb), Hg, Ha, H2, H1, H0. cbn [negb andb].
    destruct (str_eqb (a_ns a) (full_path path)) eqn:E; [|reflexivity].
    apply str_eqb_eq in E. rewrite Hp in E. rewrite E, Hw in H. discriminate. }
  destruct e; cbn [effect_here here_chk] in *; try discriminate; try (apply Hvar; exact He).
  apply andb_true_iff in He. destruct He as [Hf Hc].
  unfold unless_allowed. rewrite Hc, okb_seq, allowed_perm, (perm_bottom st Hb), Hg, Hf. cbn [negb okb]. apply andb_false_r.
Qed.

Theorem effect_rejected c e :
  EffectIn true c e -> forall st path, Rel c st path -> okb (check_expr cur st path e) = false.
Proof.
  induction 1 as [c e He | c e k Hin Hv _ IH]; intros st path HR; rewrite (h_check_expr okb okb_hom).
  - rewrite (effect_here_chk c st path e HR He). reflexivity.
  - rewrite (forallb_false_in _ _ (k_steps k, k_e k)), andb_false_r; [reflexivity| |].
    + apply vis_kids_ckids; [exact Hin|apply Hv; reflexivity].
    + unfold kid_ok. cbn [fst snd]. apply IH, Rel_enter, HR.
Qed.

Lemma gen_pushf s st forbid : gen st = negb forbid -> gen (pushf s st) = negb (enterq forbid s).
Proof.
  revert st forbid. induction s as [|x s IH]; intros st forbid H; [exact H|].
  change (pushf (x :: s) st) with (pushf s (pushf [x] st)).
  change (enterq forbid (x :: s)) with (enterq (enterq1 forbid x) s).
  apply IH. unfold pushf, enterq1. cbn [fold_left]. destruct (fst x) as [k|]; [|exact H].
  rewrite gen_cons. destruct k; try reflexivity. exact H.
Qed.

Lemma param_quiet_ok path p : param_quiet p = true -> okb (param_err path p) = true.
Proof.
  unfold param_quiet, param_err. destruct (p_tproc p); [|reflexivity]. cbn [negb orb].
  destruct (p_name p) as [[|]|]; [reflexivity|discriminate|discriminate].
Qed.

Lemma def_quiet_ok path d : def_quiet d = true -> okb (def_here path d) = true.
Proof.
  unfold def_quiet, def_here, last_assign.
  destruct (def_frame (d_proc d) (is_subr d) (d_const d)) as [k|]; [|discriminate].
  intros H. apply andb_true_iff in H. destruct H as [H1 H2]. rewrite okb_seq. apply andb_true_iff. split.
  - destruct (d_params d) as [ps|]; [|reflexivity].
    apply (h_params_here okb okb_hom param_quiet); [apply param_quiet_ok|exact H1].
  - destruct (d_body d); [reflexivity|]. cbn [andb] in H2.
    destruct (frame_eqb k Instant && negb (d_proc d) && d_last_tproc d); [discriminate|reflexivity].
Qed.

Lemma quiet_here_ok forbid st path e :
  gen st = negb forbid -> quiet_here forbid e = true -> okb (here_chk st path e) = true.
Proof.
  intros Hg Hq.
  assert (Hfb : forbid || perm st = true) by (destruct forbid; [reflexivity|apply gen_perm, Hg]).
  destruct e; cbn [quiet_here here_chk] in *; unfold touch, unless_allowed; rewrite ?allowed_perm;
    try reflexivity; try discriminate.
  1-2: destruct forbid, (perm st), (a_mut a), (a_param a), (a_rootref a); cbn in *; try reflexivity; discriminate.
  - (* Call *)
    rewrite okb_seq.
    destruct forbid, (perm st), ctor, (callee_proc || attr_proc attr); cbn in *; try reflexivity; discriminate.
  - (* BinOp *) destruct forbid, (perm st), isop; cbn in *; try reflexivity; discriminate.
  - (* Record *)
    rewrite (h_seql okb okb_hom), forallb_map. apply (forallb_impl _ _ _ (def_quiet_ok _) Hq).
  - (* Lambda *) apply (h_params_here okb okb_hom param_quiet); [apply param_quiet_ok|exact Hq].
  - (* DefE *) apply def_quiet_ok, Hq.
Qed.

Theorem quiet_accepted forbid e :
  Quiet forbid e -> forall st path, gen st = negb forbid -> okb (check_expr cur st path e) = true.
Proof.
  induction 1 as [forbid e Hq _ IH]; intros st path Hg. rewrite (h_check_expr okb okb_hom).
  rewrite (quiet_here_ok forbid st path e Hg Hq). cbn [andb].
  apply forallb_forall. intros [s k] Hin. apply (IH s k Hin), gen_pushf, Hg.
Qed.

Definition param_named (p : pinfo) : bool :=
  negb (p_tproc p) || match p_name p with Some _ => true | None => false end.
Definition params_named (ps : params) : bool :=
  forallb param_named (ps_nd ps) && match ps_var ps with Some p => param_named p | None => true end
  && forallb (fun pe => param_named (fst pe)) (ps_dflt ps).
Definition def_wf (d : def) : bool :=
  match def_frame (d_proc d) (is_subr d) (d_const d) with
  | None => false
  | Some _ => match d_params d with Some ps => params_named ps | None => true end
  end.
(** no constant procedure, no dict comprehension (lowering has a todo!() there as well), no nameless parameter
    of procedure type *)
Definition node_wf (e : expr) : bool :=
  match e with
  | DictOther => false
  | Lambda _ ps _ => params_named ps
  | DefE d => def_wf d
  | Record attrs => forallb def_wf attrs
  | _ => true
  end.
Inductive Wf : expr -> Prop :=
| Wf_intro e : node_wf e = true -> (forall s k, In (s, k) (ckids e) -> Wf k) -> Wf e.

Lemma param_named_np path p : param_named p = true -> npb (param_err path p) = true.
Proof.
  unfold param_named, param_err. destruct (p_tproc p); [|reflexivity]. cbn [negb orb].
  destruct (p_name p) as [[|]|]; [reflexivity|reflexivity|discriminate].
Qed.

Lemma def_wf_np path d : def_wf d = true -> npb (def_here path d) = true.
Proof.
  unfold def_wf, def_here, last_assign.
  destruct (def_frame (d_proc d) (is_subr d) (d_const d)) as [k|]; [|discriminate].
  intros H. rewrite (hom_seq npb_hom). apply andb_true_iff. split.
  - destruct (d_params d) as [ps|]; [|reflexivity].
    apply (h_params_here npb npb_hom param_named); [apply param_named_np|exact H].
  - destruct (d_body d); [reflexivity|]. destruct (_ && _ && _); reflexivity.
Qed.

Lemma unless_allowed_np st x : npb (unless_allowed cur st x) = true.
Proof. unfold unless_allowed. rewrite allowed_perm. destruct (perm st); reflexivity. Qed.

Lemma touch_np st path a : npb (touch cur st path a) = true.
Proof. unfold touch. rewrite allowed_perm. destruct (_ && _); reflexivity. Qed.

Lemma node_wf_np st path e : node_wf e = true -> npb (here_chk st path e) = true.
Proof.
  intros Hw.
  destruct e; cbn [node_wf here_chk] in *; try reflexivity; try discriminate; try apply touch_np.
  - rewrite (hom_seq npb_hom). destruct ctor, (callee_proc || attr_proc attr); rewrite ?unless_allowed_np; reflexivity.
  - destruct isop; [apply unless_allowed_np|reflexivity].
  - rewrite (h_seql npb npb_hom), forallb_map. apply (forallb_impl _ _ _ (def_wf_np _) Hw).
  - apply (h_params_here npb npb_hom param_named); [apply param_named_np|exact Hw].
  - apply def_wf_np, Hw.
Qed.

Theorem no_panic_any e : Wf e -> forall st path, npb (check_expr cur st path e) = true.
Proof.
  induction 1 as [e Hw _ IH]; intros st path. rewrite (h_check_expr npb npb_hom).
  rewrite (node_wf_np st path e Hw). cbn [andb].
  apply forallb_forall. intros [s k] Hin. apply (IH s k Hin).
Qed.

Theorem no_panic e : Wf e -> forall st path, bottom st -> npb (check_expr cur st path e) = true.
Proof. intros Hw st path _. apply no_panic_any, Hw. Qed.

Definition top_kids (e : expr) : list kid :=
  match e with
  | ClassDef pub name req ms => here (oexpr req) ++ under [(None, Some (pub, name))] ms
  | _ => kids e
  end.

(** an effect inside a function somewhere in the module-level chunk [e] *)
Inductive EffectInTop (vonly : bool) (ns : str) (e : expr) : Prop :=
| EIT k : In k (top_kids e) -> (vonly = true -> k_vis k = true) ->
          EffectIn vonly (enter (ctx_top ns) (k_steps k)) (k_e k) -> EffectInTop vonly ns e.

Lemma effect_top_rejected m e :
  good_root m = true -> EffectInTop true m e -> okb (check_top cur [Module] [(false, m)] e) = false.
Proof.
  intros Hm [k Hin Hv He]. specialize (Hv eq_refl). pose proof (Rel_top m Hm) as HR.
  rewrite check_top_module.
  destruct e; try (apply (effect_rejected (ctx_top m)); [exact (EI_sub true _ _ k Hin (fun _ => Hv) He)|exact HR]).
  (* ClassDef: [k] is the base or, one namespace down, a method *)
  cbn [top_kids] in Hin. rewrite okb_seq, (h_oexpr okb okb_hom), (h_check_list okb okb_hom).
  apply in_app_or in Hin. destruct Hin as [Hin|Hin]; apply in_mkkid in Hin; destruct Hin as [_ [Hs Hl]].
  - rewrite (forallb_false_in _ _ (k_e k) Hl); [reflexivity|].
    apply (effect_rejected _ _ He). rewrite Hs. exact HR.
  - rewrite (forallb_false_in _ _ (k_e k) Hl), andb_false_r; [reflexivity|].
    apply (effect_rejected _ _ He). rewrite Hs. exact (Rel_enter _ _ _ [(None, Some (pub, name))] HR).
Qed.

Lemma quiet_top_accepted path e : Quiet false e -> okb (check_top cur [Module] path e) = true.
Proof.
  intros Hq. apply (h_check_top okb okb_hom). intros p.
  apply (quiet_accepted false e Hq). reflexivity.
Qed.

Theorem module_quiet_accepted m hir : (forall e, In e hir -> Quiet false e) -> check_module cur m hir = Ok [].
Proof.
  intros H. apply okb_true. rewrite (h_check_module okb okb_hom).
  apply forallb_forall. intros e He. apply quiet_top_accepted, H, He.
Qed.

Lemma no_panic_top path e : Wf e -> npb (check_top cur [Module] path e) = true.
Proof.
  intros Hw. apply (h_check_top npb npb_hom). intros p. apply (no_panic_any e Hw).
Qed.

Lemma all_some_spec l r : all_some l = Some r -> l = map Some r.
Proof.
  revert r. induction l as [|[b|] t IH]; intros r H; simpl in H; try discriminate.
  - injection H as <-. reflexivity.
  - destruct (all_some t) as [r'|]; [|discriminate]. injection H as <-. simpl. rewrite (IH r' eq_refl). reflexivity.
Qed.

Lemma all_some_in {A} (f : A -> option bool) l r x :
  all_some (map f l) = Some r -> In x l -> exists b, f x = Some b /\ In b r.
Proof.
  intros Hr Hx. apply (in_map f) in Hx. rewrite (all_some_spec _ _ Hr) in Hx.
  apply in_map_iff in Hx. destruct Hx as [b [Hb Hin]]. exists b. auto.
Qed.
Lemma all_some_in_r {A} (f : A -> option bool) l r b :
  all_some (map f l) = Some r -> In b r -> exists x, In x l /\ f x = Some b.
Proof.
  intros Hr Hb. apply (in_map Some) in Hb. rewrite <- (all_some_spec _ _ Hr) in Hb.
  apply in_map_iff in Hb. destruct Hb as [x [Hx Hin]]. exists x. auto.
Qed.

Lemma effect_inb_spec vonly n : forall c e b,
  effect_inb vonly n c e = Some b -> (b = true <-> EffectIn vonly c e).
Proof.
  induction n as [|n IH]; intros c e b H; [discriminate|]. cbn [effect_inb] in H.
  destruct (all_some _) as [r|] eqn:Hr; [|discriminate]. injection H as <-.
  rewrite orb_true_iff, existsb_exists. split.
  - intros [Hb|[x [Hx ->]]]; [apply EI_here; exact Hb|].
    destruct (all_some_in_r _ _ _ _ Hr Hx) as [k [Hin Hk]].
    destruct (vonly && negb (k_vis k)) eqn:Hv; [discriminate|].
    apply (EI_sub vonly c e k Hin).
    + intros ->. apply negb_false_iff in Hv. exact Hv.
    + apply (IH _ _ true Hk). reflexivity.
  - intros He. inversion He as [c' e' Hh | c' e' k Hin Hv Hk]; subst; [left; exact Hh|right].
    destruct (all_some_in _ _ _ k Hr Hin) as [b [Hb Hbin]]. cbn beta in Hb.
    assert (Hvv : vonly && negb (k_vis k) = false).
    { destruct vonly; [|reflexivity]. rewrite (Hv eq_refl). reflexivity. }
    rewrite Hvv in Hb. exists b. split; [exact Hbin|]. apply (IH _ _ _ Hb), Hk.
Qed.

Lemma quietb_spec n : forall forbid e b, quietb n forbid e = Some b -> (b = true <-> Quiet forbid e).
Proof.
  induction n as [|n IH]; intros forbid e b H; [discriminate|]. cbn [quietb] in H.
  destruct (all_some _) as [r|] eqn:Hr; [|discriminate]. injection H as <-.
  rewrite andb_true_iff, forallb_forall. split.
  - intros [Hh Hb]. constructor; [exact Hh|]. intros s k Hin.
    destruct (all_some_in _ _ _ (s, k) Hr Hin) as [b [Hb' Hbin]]. cbn [fst snd] in Hb'.
    apply (IH _ _ _ Hb'), Hb, Hbin.
  - intros Hq. inversion Hq as [f' e' Hh Hk]; subst. split; [exact Hh|]. intros b Hbin.
    destruct (all_some_in_r _ _ _ _ Hr Hbin) as [[s k] [Hin Hsk]]. cbn [fst snd] in Hsk.
    apply (IH _ _ _ Hsk), Hk, Hin.
Qed.

Lemma known_c22_visible n c e : known_c22 n c e = Some false -> EffectIn false c e -> EffectIn true c e.
Proof.
  unfold known_c22. intros Hk He.
  destruct (effect_inb false n c e) as [a|] eqn:Ha; [|discriminate].
  destruct (effect_inb true n c e) as [v|] eqn:Hv; [|discriminate].
  apply (effect_inb_spec true n c e v Hv). apply (effect_inb_spec false n c e a Ha) in He. subst a.
  destruct v; [reflexivity|discriminate].
Qed.

Lemma effect_vonly_all c e : EffectIn true c e -> EffectIn false c e.
Proof.
  induction 1 as [c e H|c e k Hin Hv _ IH]; [apply EI_here; exact H|].
  apply (EI_sub false c e k Hin); [discriminate|exact IH].
Qed.

Definition func_def (loc : Z) (pub : bool) (name : str) (ps : params) (decos body : list expr) (ltp : bool) : def :=
  MkDef loc false false pub name (Some ps) decos body ltp.
Definition proc_def (loc : Z) (pub : bool) (name : str) (ps : params) (decos body : list expr) (ltp : bool) : def :=
  MkDef loc true false pub name (Some ps) decos body ltp.

Lemma func_body_top m loc pub name ps decos body ltp chunk vonly :
  In chunk body -> EffectIn vonly (ctx_func m pub name) chunk ->
  EffectInTop vonly m (DefE (func_def loc pub name ps decos body ltp)).
Proof.
  intros Hin He.
  apply (EIT vonly m _ (MkKid true [def_step (func_def loc pub name ps decos body ltp)] chunk)).
  - cbn [top_kids kids]. unfold def_kids. rewrite !in_app_iff. right. right. apply in_map. exact Hin.
  - reflexivity.
  - exact He.
Qed.

Definition S (l : list Z) : str := l.
Definition n_mod : str := [60; 109; 62].                 (* "<m>" *)
Definition n_f : str := [102].                            (* "f" *)
Definition n_p : str := [112; 33].                        (* "p!" *)
Definition ns_f : str := n_mod ++ dcolon ++ n_f.
Definition ns_builtin : str := [60; 98; 62].              (* "<b>" *)
Definition v_print : expr := Ident (MkAcc 11 false false false ns_builtin).
Definition v_x (ns : str) : expr := Ident (MkAcc 12 false true false ns).
Definition print_x (ns : str) : expr := Call 10 v_print true None false [v_x ns] None [] None.
Definition no_params : params := MkParams [] None [] None [].
Definition one_param : params := MkParams [MkP 1 false (Some false)] None [] None [].
Definition vdef (loc : Z) (name : str) (body : list expr) : expr :=
  DefE (MkDef loc false false false name None [] body false).
Definition v_local (loc : Z) (ns : str) : expr := Ident (MkAcc loc false false false ns).

(** f x = (y = (z = (print! x; 1); z); y) *)
Definition body_two_blocks (ns : str) : list expr :=
  [vdef 20 [121] [vdef 21 [122] [print_x ns; Lit]; v_local 22 (ns ++ dcolon ++ [121])]; v_local 23 ns].
(** f x = (r = {.a = 1; .b = print! x}; r.a) *)
Definition body_record (ns : str) : list expr :=
  [vdef 30 [114] [Record [MkDef 31 false false true [97] None [] [Lit] false;
                          MkDef 32 false false true [98] None [] [print_x ns] false]];
   Attr (MkAcc 33 false false false ns) (v_local 34 ns)].
(** an outer mutable variable read two blocks down *)
Definition v_outer_mut : expr := Ident (MkAcc 40 true false false n_mod).
Definition body_mut (ns : str) : list expr :=
  [vdef 41 [121] [vdef 42 [122] [BinOp 43 false v_outer_mut (v_x ns)]; v_local 44 (ns ++ dcolon ++ [121])]; v_local 45 ns].
(** a method with `!` called on an outer mutable list: f x = l.push! x *)
Definition push_x (ns : str) : expr :=
  Call 50 (Ident (MkAcc 51 true false false n_mod)) false (Some true) false [v_x ns] None [] None.

Definition fdef (body : list expr) : expr := DefE (func_def 1 false n_f one_param [] body false).
Definition pdef (body : list expr) : expr := DefE (proc_def 1 false n_p one_param [] body false).

(** the skipped positions *)
Definition v_g : expr := Ident (MkAcc 60 false false false n_mod).          (* a user procedure g! *)
Definition call_g : expr := Call 61 v_g true None false [] None [] None.
Definition v_id : expr := Ident (MkAcc 62 false false false n_mod).
Definition body_var_args : list expr := [Call 63 v_id false None false [] (Some (ListN [call_g])) [] None].
Definition body_kw_var : list expr := [Call 64 v_id false None false [Lit] None [] (Some (DictN [(Lit, call_g)]))].
Definition body_attr_recv : list expr := [Attr (MkAcc 65 false false false ns_builtin) call_g].
Definition body_deco : list expr :=
  [DefE (MkDef 66 false false false [104] (Some one_param) [call_g] [Lit] false); Lit].
Definition top_callee : list expr :=
  [Call 67 (Lambda false one_param [print_x (n_mod ++ dcolon ++ s_lambda)]) false None false [Lit] None [] None].
(** the known class: f x = (p!(y := g!()) = y; x) *)
Definition body_proc_default (ns : str) : list expr :=
  [DefE (MkDef 70 true false false n_p
               (Some (MkParams [] None [(MkP 71 false (Some false), call_g)] None [])) []
               [Ident (MkAcc 72 false true false (ns ++ dcolon ++ n_p))] false);
   v_x ns].

Definition frames_only : fixes := MkFixes true false.

Definition eff (vonly : bool) (c : sctx) (l : list expr) : option bool :=
  any_ob (map (effect_inb vonly 20 c) l).

Lemma eff_sound vonly c l : eff vonly c l = Some true -> exists chunk, In chunk l /\ EffectIn vonly c chunk.
Proof.
  unfold eff, any_ob. destruct (all_some _) as [r|] eqn:Hr; [|discriminate]. intros H. injection H as H.
  apply existsb_exists in H. destruct H as [b [Hb ->]].
  destruct (all_some_in_r _ _ _ _ Hr Hb) as [chunk [Hin Hc]].
  exists chunk. split; [exact Hin|]. apply (effect_inb_spec vonly 20 c chunk true Hc). reflexivity.
Qed.

Definition cf : sctx := ctx_func n_mod false n_f.

Ltac vm := vm_compute; reflexivity.

(** non-vacuity: a body with an effect in function context that is quiet in procedure / module context *)
Definition ex_body_f : list expr := body_two_blocks ns_f ++ body_record ns_f ++ body_mut ns_f ++ [push_x ns_f].
Definition ex_body_p : list expr := body_two_blocks (n_mod ++ dcolon ++ n_p).
