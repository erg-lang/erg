(** C22 — Functions cannot perform side effects.

    "A function (a subroutine whose name has no `!`) whose body performs a side effect, such as calling a procedure
     or procedural method or reading a mutable variable defined outside it, is rejected, while the same body in a
     procedure or at module top level is accepted."

    Model: Effects/Model.v ([cur] = crates/erg_compiler/effectcheck.rs after the two repairs,
    [nofix] = the code as found).  Spec: Effects/Spec.v.  [check_module fx m hir] is SideEffectChecker::check: the
    list of effect errors ([Ok []] = the module is accepted) or [Panic].  [EffectIn false c e]: an effectful
    operation occurs in [e], at any depth and position, with no procedure / procedural lambda between it and the
    enclosing function whose body context is [c].  [known_c22]/[Known_C22]: the listed failing class (effect only
    inside a default value of a nested procedure's parameter, known/C22.json). *)
From Coq Require Import ZArith List Bool.
From ErgV Require Import Effects.MiniHir Effects.Model Effects.Spec Effects.ProofsEq Effects.ProofsStruct Effects.Proofs.
Import ListNotations.
Open Scope Z_scope.

(** 1. A function at module level whose body contains an effect is rejected, whatever the depth and position of the
       effect (nested calls, argument positions, collections, record fields, local blocks, conditionals = calls with
       lambda arguments, nested functions ...). *)
Theorem func_effect_rejected :
  forall m loc pub name ps decos body ltp n chunk,
    good_root m = true -> In chunk body ->
    known_c22 n (ctx_func m pub name) chunk = Some false ->
    EffectIn false (ctx_func m pub name) chunk ->
    check_module cur m [DefE (func_def loc pub name ps decos body ltp)] <> Ok [].
Proof.
  intros m loc pub name ps decos body ltp n chunk Hm Hin Hk He.
  apply okb_false_ne. rewrite (h_check_module okb okb_hom). cbn [forallb].
  rewrite effect_top_rejected; [reflexivity|exact Hm|].
  apply func_body_top with (chunk := chunk); [exact Hin|]. apply (known_c22_visible n); assumption.
Qed.

(** 1'. The same for a function (or non-procedural lambda, or constant definition) nested anywhere in a module:
        [EffectInTop true m e] = some boundary inside the module-level chunk [e] forbids effects and an effect
        occurs under it (through positions inside the guarantee). *)
Theorem module_effect_rejected :
  forall m hir e, good_root m = true -> In e hir -> EffectInTop true m e -> check_module cur m hir <> Ok [].
Proof.
  intros m hir e Hm Hin He. apply okb_false_ne. rewrite (h_check_module okb okb_hom).
  apply (Common.Lists.forallb_false_in _ _ e Hin), effect_top_rejected; assumption.
Qed.

(** 1''. The general form, for the checker started in any state that corresponds to a Spec context. *)
Theorem effect_rejected_in_context :
  forall c e, EffectIn true c e -> forall st path, Rel c st path -> okb (check_expr cur st path e) = false.
Proof. exact effect_rejected. Qed.

(** 2. A body with nothing to complain about ([Quiet false]: no nested function / constant definition contains an
       effectful operation, no procedure is bound to a name without `!`) is accepted as the body of a procedure
       and as module-level code - whatever effects it performs itself. *)
Theorem proc_and_toplevel_accepted :
  forall m loc pub name ps body ltp,
    params_quiet ps = true ->
    (forall pe, In pe (ps_dflt ps) -> Quiet false (snd pe)) ->
    (forall chunk, In chunk body -> Quiet false chunk) ->
    check_module cur m [DefE (proc_def loc pub name ps [] body ltp)] = Ok []
    /\ check_module cur m body = Ok [].
Proof.
  intros m loc pub name ps body ltp Hps Hd Hb. split; apply module_quiet_accepted; [|exact Hb].
  intros e [<-|[]]. constructor.
  - cbn [quiet_here]. unfold def_quiet, proc_def. cbn. rewrite Hps. destruct body; reflexivity.
  - intros s k Hin. cbn [ckids] in Hin. unfold ckids_def, proc_def in Hin. cbn [d_decos d_params d_body map app] in Hin.
    apply in_app_or in Hin. destruct Hin as [Hin|Hin].
    + unfold ckids_params in Hin. apply in_map_iff in Hin. destruct Hin as [pe [E Hpe]].
      injection E as <- <-. apply (Hd pe Hpe).
    + apply in_map_iff in Hin. destruct Hin as [x [E Hx]]. injection E as <- <-. apply (Hb x Hx).
Qed.

(** 2'. In any allowing / forbidding context. *)
Theorem quiet_accepted_in_context :
  forall forbid e, Quiet forbid e ->
    forall st path, bottom st -> gen st = negb forbid -> okb (check_expr cur st path e) = true.
Proof. intros forbid e Hq st path _. apply quiet_accepted, Hq. Qed.

(** 3. The checker terminates without panicking on well-formed trees, so "rejected" above is a list of errors. *)
Theorem checker_total :
  forall m hir, (forall e, In e hir -> Wf e) -> exists errs, check_module cur m hir = Ok errs.
Proof.
  intros m hir H. assert (Hn : npb (check_module cur m hir) = true).
  { rewrite (h_check_module npb npb_hom). apply forallb_forall. intros e He. apply no_panic_top, H, He. }
  destruct (check_module cur m hir) as [errs|]; [exists errs; reflexivity|discriminate].
Qed.

(** 4. The executable judges used on the implementation's behaviour decide the Spec predicates. *)
Theorem effect_judge_decides :
  forall vonly n c e b, effect_inb vonly n c e = Some b -> (b = true <-> EffectIn vonly c e).
Proof. exact effect_inb_spec. Qed.
Theorem quiet_judge_decides :
  forall n forbid e b, quietb n forbid e = Some b -> (b = true <-> Quiet forbid e).
Proof. exact quietb_spec. Qed.
Theorem known_class_decides :
  forall n c e b, known_c22 n c e = Some b -> (b = true <-> Known_C22 c e).
Proof.
  unfold known_c22, Known_C22. intros n c e b.
  destruct (effect_inb false n c e) as [a|] eqn:Ha; [|discriminate].
  destruct (effect_inb true n c e) as [v|] eqn:Hv; [|discriminate].
  intros H. injection H as <-.
  pose proof (effect_inb_spec false n c e a Ha) as Sa. pose proof (effect_inb_spec true n c e v Hv) as Sv.
  split.
  - intros H. apply andb_true_iff in H. destruct H as [H1 H2]. split; [apply Sa; exact H1|].
    intros Hc. apply Sv in Hc. subst v. discriminate.
  - intros [H1 H2]. apply andb_true_iff. split; [apply Sa; exact H1|].
    destruct v; [|reflexivity]. exfalso. apply H2, Sv. reflexivity.
Qed.

(** 5. The code as found violates 1 (witnesses replayed on the implementation by checks/c22.py as regression
       inputs): `f x = (y = (z = (print! x; 1); z); y)`, a record field, an outer mutable variable two blocks down. *)
Theorem instant_frames_refuted :
  exists body chunk,
    In chunk body /\ EffectIn true cf chunk
    /\ check_module nofix n_mod [fdef body] = Ok []
    /\ check_module cur n_mod [fdef body] <> Ok [].
Proof.
  destruct (eff_sound true cf (body_two_blocks ns_f)) as [chunk [Hin He]]; [vm|].
  exists (body_two_blocks ns_f), chunk.
  split; [exact Hin|split; [exact He|split; [vm|vm_compute; discriminate]]].
Qed.
Theorem record_field_refuted :
  exists body chunk, In chunk body /\ EffectIn true cf chunk /\ check_module nofix n_mod [fdef body] = Ok [].
Proof.
  destruct (eff_sound true cf (body_record ns_f)) as [chunk [Hin He]]; [vm|].
  exists (body_record ns_f), chunk. split; [exact Hin|split; [exact He|vm]].
Qed.
Theorem outer_mutable_refuted :
  exists body chunk, In chunk body /\ EffectIn true cf chunk /\ check_module nofix n_mod [fdef body] = Ok [].
Proof.
  destruct (eff_sound true cf (body_mut ns_f)) as [chunk [Hin He]]; [vm|].
  exists (body_mut ns_f), chunk. split; [exact Hin|split; [exact He|vm]].
Qed.

(** 6. With only the frame repair: effects in `*args`, `**kwargs`, the receiver of an attribute access and a
       decorator were skipped; at module level the callee of a call. *)
Theorem skipped_subexpr_refuted :
  forall body, In body [body_var_args; body_kw_var; body_attr_recv; body_deco] ->
    (exists chunk, In chunk body /\ EffectIn true cf chunk)
    /\ check_module frames_only n_mod [fdef body] = Ok []
    /\ check_module cur n_mod [fdef body] <> Ok [].
Proof.
  intros body [<-|[<-|[<-|[<-|[]]]]];
    (split; [apply eff_sound; vm|split; [vm|vm_compute; discriminate]]).
Qed.
Theorem toplevel_callee_refuted :
  (exists e, In e top_callee /\ EffectInTop true n_mod e)
  /\ check_module frames_only n_mod top_callee = Ok []
  /\ check_module cur n_mod top_callee <> Ok [].
Proof.
  split; [|split; [vm|vm_compute; discriminate]].
  exists (hd Lit top_callee). split; [left; reflexivity|].
  eapply EIT; [left; reflexivity|reflexivity|].
  apply (effect_inb_spec true 20 _ _ true); [vm|reflexivity].
Qed.

(** 7. Still failing on the current code (known finding, class Known_C22):
       `f x = (p!(y := g!()) = y; x)` - the default value is evaluated when p! is defined, i.e. while f runs. *)
Theorem proc_default_refuted :
  exists body chunk, In chunk body /\ Known_C22 cf chunk /\ check_module cur n_mod [fdef body] = Ok [].
Proof.
  exists (body_proc_default ns_f), (hd Lit (body_proc_default ns_f)).
  split; [left; reflexivity|]. split; [|vm].
  apply (known_class_decides 20 cf _ true); [vm|reflexivity].
Qed.

(** Non-vacuity: one body (print! two blocks down, print! in a record field, outer mutable read, l.push!) meets the
    hypotheses of 1 and is rejected as a function; the same shape is Quiet and accepted as a procedure body and at
    module level. *)
Example c22_example :
  (exists chunk, In chunk ex_body_f /\ EffectIn false cf chunk /\ known_c22 20 cf chunk = Some false)
  /\ check_module cur n_mod [fdef ex_body_f] <> Ok []
  /\ (forall chunk, In chunk ex_body_p -> Quiet false chunk)
  /\ check_module cur n_mod [pdef ex_body_p] = Ok []
  /\ check_module cur n_mod (body_two_blocks n_mod) = Ok [].
Proof.
  split; [|split; [|split; [|split]]].
  - exists (hd Lit ex_body_f). split; [left; reflexivity|]. split; [|vm].
    apply (effect_inb_spec false 20 cf _ true); [vm|reflexivity].
  - vm_compute. discriminate.
  - intros chunk Hin.
    assert (H : quietb 20 false chunk = Some true).
    { destruct Hin as [<-|[<-|[]]]; vm. }
    apply (quietb_spec 20 false chunk true H). reflexivity.
  - vm.
  - vm.
Qed.
