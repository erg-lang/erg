(** C11.  Property: every expression built from binary operators, prefix operators, method calls and parentheses parses
    into the tree given by the operator precedence table (member access > ** > prefix + - ~ > * / // % > + - >
    shifts > && > ^^ > || > ranges > comparisons > and > or), binary operators group to the left, a minus sign
    directly before a numeric literal is part of the literal.

    Model.parse / Model.parse_chunk false: the parser as it is now (after the two repairs recorded in
    known/C11.json); Model.parse_rhs true / parse_chunk true: the parser before the repairs. *)
From Coq Require Import ZArith NArith List Bool Arith.
From ErgV Require Import gen.Prec Common.Sx ExprParse.Model ExprParse.Spec ExprParse.Tables ExprParse.Proofs.
Import ListNotations.
Local Open Scope nat_scope.

(** The table generated from token.rs induces exactly the documented order (Spec.lvl, Spec.pre_lvl), ties
    included; every binary operator has category BinOp, a precedence, and is not right-associative (the
    reduction loop uses `>=` only, so all of them, `**` too, group to the left: see left_assoc_example);
    prefix + - ~ have category UnaryOp and sit strictly between ** and * / // %; `.` binds tighter than all. *)
Theorem prec_table_documented :
  (forall a b : binop, opt_ge (prec_b a) (prec_b b) = (lvl b <=? lvl a)) /\
  (forall (p : preop) (o : binop),
      opt_gt (prec_b o) (prec_p p) = (pre_lvl <? lvl o) /\ opt_gt (prec_p p) (prec_b o) = (lvl o <? pre_lvl)) /\
  (forall o : binop, is_binop_cat o = true /\ (exists n, prec_b o = Some n)
                     /\ existsb (N.eqb (binop_kind o)) right_assoc = false) /\
  (forall p : preop, is_unary_cat p = true /\ exists n, prec_p p = Some n) /\
  (forall o : binop, opt_gt (precedence kind_Dot) (prec_b o) = true) /\
  (forall p : preop, opt_gt (precedence kind_Dot) (prec_p p) = true).
Proof.
  split; [exact ge_ok|]. split; [intros p o; split; [apply gt_ok | apply lt_ok]|].
  split; [intros o; split; [apply binop_cat_ok | split; [apply prec_b_some | apply left_assoc_ok]]|].
  split; [intros p; split; [apply unary_cat_ok | apply prec_p_some]|].
  split; [exact dot_b_ok | exact dot_p_ok].
Qed.

(** Full statement, no bound on length or nesting depth: for every token list of the documented grammar, the tree
    built by try_reduce_expr's operator stack (right-hand side of `x = ...`) is the precedence-climbing tree.
    No Known_C11 guard is needed: both defect classes found are repaired (see the _refuted theorems below). *)
Theorem parse_is_climb : forall ts, wf ts -> parse ts = as_res (climb ts).
Proof. intros ts [e He]. rewrite He. exact (parse_rhs_climb ts e He). Qed.

(** the same for a bare expression statement (the second copy of the loop, in try_reduce_chunk) *)
Theorem chunk_is_climb : forall ts, wf ts -> parse_chunk false ts = as_res (climb ts).
Proof. intros ts [e He]. rewrite He. exact (parse_chunk_climb ts e He). Qed.

(** The fuel of the entry points (Model.fuel_of, 8 * length + 8) is enough for EVERY token list, well-formed or not,
    and none of the enum_unwrap!/unwrap() on the modelled path can fail (the operator stack always alternates
    expression, operator, expression ...; in particular the `_ =>` arm never meets a two-element stack, on which
    it would spin).  So Err / Unmodelled are the only other outcomes of the model. *)
Theorem parse_total : forall ts,
  parse ts <> Fuel /\ parse ts <> Panic /\ parse_chunk false ts <> Fuel /\ parse_chunk false ts <> Panic.
Proof. intros ts. destruct (parse_nofail ts), (chunk_nofail ts). auto. Qed.

(** Lexical part. (1) The prefix/infix decision of Lexer::op_fix is the documented spacing rule, for every token
    category that can precede an operator in an operator expression. (2) When `-` is in prefix position and a
    number follows immediately, the lexer emits ONE literal token whose text starts with '-' (kind IntLit unless
    the digits are all zero, RatioLit for a ratio) and continues after the number; a literal token is an operand
    leaf for the parser (third conjunct: standing alone, `TLit k s` is read as the leaf ELit k s by the parser and
    by the reference). *)
Theorem neg_literal :
  (forall c sp_before sp_after,
      (In c operand_cats -> op_fix c sp_before (Some sp_after) = Some (spec_fix true sp_before sp_after)) /\
      (In c operator_cats -> forall a, op_fix c sp_before a = Some (spec_fix false sp_before sp_after))) /\
  (forall prev_cat sp ratio s rest ts,
      op_fix prev_cat sp (Some false) = Some Prefix ->
      lex_from prev_cat ((sp, LOp SMinus) :: (false, LNum ratio s) :: rest) = LexOk ts ->
      exists ts', ts = TLit (num_kind true ratio s) (minus_cp :: s) :: ts'
                  /\ lex_from (num_cat true ratio s) rest = LexOk ts') /\
  (forall k s, parse [TLit k s] = Ok (ELit k s) /\ climb [TLit k s] = Some (ELit k s)).
Proof.
  split; [exact op_fix_spec|]. split; [exact neg_literal_lex|].
  intros k s. split; reflexivity.
Qed.

(** Findings (both repaired in /repo; the witnesses are the replays in known/C11.json).
    Before the repair try_reduce_unary parsed its operand with try_reduce_expr: `-x + 10` was `-(x + 10)`. *)
Theorem unary_operand_legacy_refuted :
  exists ts, wf ts /\ parse_rhs true ts <> as_res (climb ts) /\ parse ts = as_res (climb ts).
Proof.
  (* `-x + 10` *)
  exists [TPre PreMinus; TSym 1%Z; TBin Plus; TLit NatLit [49%Z; 48%Z]].
  split; [eexists; vm_compute; reflexivity|]. split; [vm_compute; discriminate | vm_compute; reflexivity].
Qed.

(** Before the repair `(a).m.n` was the call `(a).m(.n)`: outside the modelled fragment, not the chain. *)
Theorem attr_chain_legacy_refuted :
  exists ts, wf ts /\ parse_rhs true ts <> as_res (climb ts) /\ parse ts = as_res (climb ts).
Proof.
  (* `(a).m.n` *)
  exists [TLP false; TSym 1%Z; TRP; TDot true; TSym 2%Z; TDot true; TSym 3%Z].
  split; [eexists; vm_compute; reflexivity|]. split; [vm_compute; discriminate | vm_compute; reflexivity].
Qed.

(** a + b * c ** -d ** e - f . m ( g , h ) < (i or j) and k   is well-formed, with a non-trivial tree *)
Example wf_example :
  let ts := [TSym 1; TBin Plus; TSym 2; TBin Star; TSym 3; TBin Pow; TPre PreMinus; TSym 4; TBin Pow; TSym 5;
             TBin Minus; TSym 6; TDot true; TSym 20; TLP true; TSym 7; TComma; TSym 8; TRP; TBin Less;
             TLP false; TSym 9; TBin OrOp; TSym 10; TRP; TBin AndOp; TSym 11] in
  wf ts /\ parse ts = as_res (climb ts) /\
  climb ts = Some (EBin AndOp
                     (EBin Less
                        (EBin Minus
                           (EBin Plus (EId 1)
                              (EBin Star (EId 2) (EBin Pow (EId 3) (EUn PreMinus (EBin Pow (EId 4) (EId 5))))))
                           (ECall (EId 6) (Some 20%Z) [EId 7; EId 8]))
                        (EBin OrOp (EId 9) (EId 10)))
                     (EId 11)).
Proof. vm_compute. split; [eexists; reflexivity | split; reflexivity]. Qed.

(** binary operators group to the left, `**` included: a - b - c and 2 ** 3 ** 2 *)
Example left_assoc_example :
  parse [TSym 1; TBin Minus; TSym 2; TBin Minus; TSym 3] = Ok (EBin Minus (EBin Minus (EId 1) (EId 2)) (EId 3)) /\
  parse [TLit NatLit [50%Z]; TBin Pow; TLit NatLit [51%Z]; TBin Pow; TLit NatLit [50%Z]]
  = Ok (EBin Pow (EBin Pow (ELit NatLit [50%Z]) (ELit NatLit [51%Z])) (ELit NatLit [50%Z])).
Proof. vm_compute. split; reflexivity. Qed.

(** `x = -1 ** 2`: the lexer makes `-1` one literal, so the tree is (-1) ** 2; `x = - 1 ** 2` is -(1 ** 2) *)
Example neg_literal_example :
  lex cat_DefOp [(true, LOp SMinus); (false, LNum false [49%Z]); (true, LOp SDblStar); (true, LNum false [50%Z])]
  = LexOk [TLit IntLit [45%Z; 49%Z]; TBin Pow; TLit NatLit [50%Z]] /\
  parse [TLit IntLit [45%Z; 49%Z]; TBin Pow; TLit NatLit [50%Z]]
  = Ok (EBin Pow (ELit IntLit [45%Z; 49%Z]) (ELit NatLit [50%Z])) /\
  lex cat_DefOp [(true, LOp SMinus); (true, LNum false [49%Z]); (true, LOp SDblStar); (true, LNum false [50%Z])]
  = LexOk [TPre PreMinus; TLit NatLit [49%Z]; TBin Pow; TLit NatLit [50%Z]] /\
  parse [TPre PreMinus; TLit NatLit [49%Z]; TBin Pow; TLit NatLit [50%Z]]
  = Ok (EUn PreMinus (EBin Pow (ELit NatLit [49%Z]) (ELit NatLit [50%Z]))).
Proof. vm_compute. repeat split. Qed.
