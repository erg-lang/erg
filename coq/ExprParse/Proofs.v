(** On every token list of the documented grammar the operator-stack parser of the implementation (the p_
    functions of Model, legacy = false) returns the tree of the precedence-climbing reference (the c_ functions
    of Spec).  Two inductions on the fuel of the p_ functions.  [T_all]: whatever the input, the parser does not
    panic and 8 * length + 8 is fuel enough.  [P_all]: on a token list of the grammar it returns the reference
    tree unless it runs out of fuel ([upto_fuel]), so this part never counts fuel; the two meet at the entry
    points.  The loop invariant is [U], on stacks of the shape [stk top below], where a round of p_loop is
    [p_loop_stk]. *)
From Coq Require Import ZArith NArith List Bool Arith Lia.
From ErgV Require Import gen.Prec Common.Sx ExprParse.Model ExprParse.Spec ExprParse.Tables.
Import ListNotations.
Local Open Scope nat_scope.

Lemma c_expr_inv : forall f m ts e r, c_expr f m ts = Some (e, r) ->
  exists f1 l r1, c_operand f1 ts = Some (l, r1) /\ c_loop f1 m l r1 = Some (e, r).
Proof.
  intros [|f1] m ts e r H; [discriminate|]. simpl in H.
  destruct (c_operand f1 ts) as [[l r1]|] eqn:E; [|discriminate]. eauto.
Qed.

Lemma c_loop_inv : forall f m l ts x, c_loop f m l ts = Some x ->
  (exists f1 o r0 rhs r', ts = TBin o :: r0 /\ m <= lvl o /\ c_expr f1 (S (lvl o)) r0 = Some (rhs, r')
                          /\ c_loop f1 m (EBin o l rhs) r' = Some x)
  \/ ((forall o r0, ts = TBin o :: r0 -> lvl o < m) /\ x = (l, ts)).
Proof.
  intros [|f1] m l ts x H; [discriminate|]. simpl in H.
  destruct ts as [|[] r0]; try (right; inversion H; split; [intros; discriminate | reflexivity]).
  destruct (m <=? lvl o) eqn:E.
  - apply Nat.leb_le in E. left.
    destruct (c_expr f1 (S (lvl o)) r0) as [[rhs r']|] eqn:E2; [|discriminate]. eauto 10.
  - apply Nat.leb_gt in E. right. inversion H. split; [|reflexivity].
    intros o' r0' Heq. inversion Heq; subst. exact E.
Qed.

Lemma c_loop_low : forall f m l ts x, c_loop f m l ts = Some x ->
  (forall o r0, ts = TBin o :: r0 -> lvl o < m) -> x = (l, ts).
Proof.
  intros f m l ts x H Hlow. apply c_loop_inv in H.
  destruct H as [(f1 & o & r0 & rhs & r' & -> & Hm & _) | (_ & ->)]; [|reflexivity].
  specialize (Hlow o r0 eq_refl). lia.
Qed.

Lemma c_loop_bin : forall f m l o r x, c_loop f m l (TBin o :: r) = Some x -> m <= lvl o ->
  exists f1 f2 l2 r2 rhs r', c_operand f2 r = Some (l2, r2) /\ c_loop f2 (S (lvl o)) l2 r2 = Some (rhs, r')
                             /\ c_loop f1 m (EBin o l rhs) r' = Some x.
Proof.
  intros f m l o r x H Hm. apply c_loop_inv in H.
  destruct H as [(f1 & o' & r0 & rhs & r' & Heq & _ & He & Hl) | (Hlow & _)].
  - inversion Heq; subst o' r0. apply c_expr_inv in He. destruct He as (f2 & l2 & r2 & Ho & Hl2). eauto 10.
  - specialize (Hlow o r eq_refl). lia.
Qed.

Lemma c_postfix_inv : forall f obj ts e r, c_postfix f obj ts = Some (e, r) ->
  (match ts with TDot _ :: _ => False | _ => True end /\ e = obj /\ r = ts) \/
  exists f1 n r', ts = TDot true :: TSym n :: r' /\
    ((exists r2 args r3, r' = TLP true :: r2 /\ c_args f1 r2 = Some (args, r3)
                         /\ c_postfix f1 (ECall obj (Some n) args) r3 = Some (e, r))
     \/ c_postfix f1 (EAttr obj n) r' = Some (e, r)).
Proof.
  intros [|f1] obj ts e r H; [discriminate|]. simpl in H.
  destruct ts as [|[] r0]; try (left; inversion H; auto; fail).
  destruct adj; [|discriminate]. destruct r0 as [|[] r']; try discriminate.
  right. exists f1, n, r'. split; [reflexivity|].
  destruct r' as [|[] r2]; auto. destruct adj; auto.
  destruct (c_args f1 r2) as [[args r3]|] eqn:Ea; [|discriminate]. left. eauto 6.
Qed.

Lemma c_args_inv : forall f ts args r, c_args f ts = Some (args, r) ->
  (ts = TRP :: r /\ args = []) \/
  exists f1 a1 r1, c_expr f1 0 ts = Some (a1, r1) /\ c_args_tl f1 [a1] r1 = Some (args, r).
Proof.
  intros [|f] ts args r H; [discriminate|]. simpl in H.
  destruct ts as [|[] r0];
    try (right; destruct (c_expr f 0 _) as [[a1 r1]|] eqn:E in H; [eauto | discriminate]).
  left. inversion H. auto.
Qed.

Lemma c_postfix_nodot : forall f obj ts, 1 <= f ->
  match ts with TDot _ :: _ => False | _ => True end -> c_postfix f obj ts = Some (obj, ts).
Proof.
  intros [|f] obj ts Hf H; [lia|]. destruct ts as [|[] r]; simpl; try reflexivity. contradiction.
Qed.

Lemma c_operand_head : forall f ts e r, c_operand f ts = Some (e, r) ->
  match ts with [] | TBin _ :: _ | TRP :: _ | TComma :: _ | TDot _ :: _ => False | _ => True end.
Proof. intros [|f] ts e r H; [discriminate|]. destruct ts as [|[] r0]; simpl in H; try discriminate; exact I. Qed.

Lemma c_expr_head : forall f m ts e r, c_expr f m ts = Some (e, r) ->
  match ts with [] | TBin _ :: _ | TRP :: _ | TComma :: _ | TDot _ :: _ => False | _ => True end.
Proof.
  intros f m ts e r H. apply c_expr_inv in H. destruct H as (f1 & l & r1 & Ho & _).
  eapply c_operand_head; eauto.
Qed.

(** where the reference stops with a complete expression; [w]: inside parentheses, where the implementation
    would read a `,` as the start of a tuple *)
Definition follow_ok (w : bool) (r : list tok) : bool :=
  match r with
  | [] => true
  | TBin _ :: _ => true
  | TRP :: _ => true
  | TComma :: _ => negb w
  | _ => false
  end.

Lemma follow_ok_weaken : forall w r, follow_ok w r = true -> follow_ok false r = true.
Proof. intros w [|[] r]; simpl; auto. Qed.

Lemma c_postfix_stop : forall w obj r, follow_ok w r = true -> exists f, c_postfix f obj r = Some (obj, r).
Proof. intros w obj [|[] r] H; try discriminate H; exists 1; reflexivity. Qed.

Lemma c_args_tl_follow : forall f acc ts x, c_args_tl f acc ts = Some x -> follow_ok false ts = true.
Proof. intros [|f] acc ts x H; [discriminate|]. destruct ts as [|[] r]; simpl in H; try discriminate; reflexivity. Qed.

Lemma c_loop_follow : forall f m l ts e r w, c_loop f m l ts = Some (e, r) -> follow_ok w r = true -> follow_ok w ts = true.
Proof.
  intros f m l ts e r w H Hfo. apply c_loop_inv in H.
  destruct H as [(f1 & o & r0 & rhs & r' & -> & _) | (_ & Heq)]; [reflexivity|].
  inversion Heq; subst. exact Hfo.
Qed.

Lemma c_postfix_next : forall f obj ts e r w, c_postfix f obj ts = Some (e, r) -> follow_ok w r = true ->
  follow_ok w ts = true \/ exists n r', ts = TDot true :: TSym n :: r'.
Proof.
  intros f obj ts e r w H Hfo. apply c_postfix_inv in H.
  destruct H as [(_ & _ & ->) | (f1 & n & r' & -> & _)]; [left; exact Hfo | right; eauto].
Qed.

(** the operator stack as p_loop keeps it: an expression on top of (operator, left operand) pairs, last pushed first *)
Fixpoint stk_below (below : list (binop * expr)) : list item :=
  match below with
  | [] => []
  | (o, l) :: b => IOp o :: IExpr l :: stk_below b
  end.
Definition stk (top : expr) (below : list (binop * expr)) : list item := IExpr top :: stk_below below.

Fixpoint fold_stack (top : expr) (below : list (binop * expr)) : expr :=
  match below with
  | [] => top
  | (o, l) :: b => fold_stack (EBin o l top) b
  end.

(** the reduction loop of the BinOp arm first folds the stacked operators at or above the level of [o] into
    its left operand *)
Fixpoint pushed (o : binop) (top : expr) (below : list (binop * expr)) : list (binop * expr) :=
  match below with
  | (o1, l1) :: b => if lvl o <=? lvl o1 then pushed o (EBin o1 l1 top) b else (o, top) :: below
  | [] => [(o, top)]
  end.

Lemma stk_length : forall top below, length (stk top below) = S (2 * length below).
Proof.
  intros top below. unfold stk. simpl. f_equal. induction below as [|[o l] b IH]; simpl; [reflexivity|]. rewrite IH. lia.
Qed.

Lemma collect_all_stk : forall below top n, S (length below) <= n ->
  collect_all n (stk top below) = Ok [IExpr (fold_stack top below)].
Proof.
  induction below as [|[o l] b IH]; intros top n Hn.
  - destruct n; [lia|]. reflexivity.
  - destruct n; [simpl in Hn; lia|]. simpl. apply (IH (EBin o l top)). simpl in Hn. lia.
Qed.

Lemma reduce_while_single : forall n p x, reduce_while (S n) p [x] = Ok [x].
Proof. reflexivity. Qed.

Lemma loop_exit_single : forall e ts, loop_exit [IExpr e] ts = Ok (e, ts).
Proof. reflexivity. Qed.

Lemma reduce_while_stk : forall below top n o, S (length below) <= n ->
  exists st1, reduce_while n (prec_b o) (stk top below) = Ok st1 /\ IOp o :: st1 = stk_below (pushed o top below).
Proof.
  induction below as [|[o1 l1] b IH]; intros top n o Hn.
  - destruct n; [lia|]. exists [IExpr top]. split; reflexivity.
  - destruct n; [simpl in Hn; lia|]. simpl in Hn.
    simpl. rewrite binop_cat_ok, ge_ok. simpl.
    destruct (lvl o <=? lvl o1) eqn:E; [|eexists; split; reflexivity].
    destruct b as [|[o2 l2] b']; [eexists; split; reflexivity|].
    apply (IH (EBin o1 l1 top)). simpl in *. lia.
Qed.

Lemma reduce_stk : forall o top below, exists st1,
  (if 2 <=? length (stk top below) then reduce_while (length (stk top below)) (prec_b o) (stk top below)
   else Ok (stk top below)) = Ok st1
  /\ IOp o :: st1 = stk_below (pushed o top below).
Proof.
  intros o top below. rewrite (stk_length top below). destruct below as [|[o1 l1] b].
  - exists [IExpr top]. split; reflexivity.
  - replace (2 <=? S (2 * length ((o1, l1) :: b))) with true by (symmetry; apply Nat.leb_le; simpl; lia).
    apply reduce_while_stk. simpl. lia.
Qed.

(** the guard of the BinOp arm: try_reduce_chunk takes every binary operator, try_reduce_expr_above those that
    bind tighter than [min] *)
Definition accepts (chunk : bool) (min : option N) (o : binop) : bool := if chunk then true else min_ok min o.

(** the `_ =>` arm: the stacked operators are all reduced and the loop is entered once more *)
Definition finish (F : nat) (chunk : bool) min w top (below : list (binop * expr)) ts : res (expr * list tok) :=
  match below with
  | [] => Ok (top, ts)
  | _ => p_loop false F chunk min w (stk (fold_stack top below) []) ts
  end.

Lemma finish_stk : forall (k : list item -> res (expr * list tok)) top below ts,
  (if length (stk top below) <=? 1 then loop_exit (stk top below) ts
   else bind (collect_all (length (stk top below)) (stk top below)) k)
  = match below with [] => Ok (top, ts) | _ => k [IExpr (fold_stack top below)] end.
Proof.
  intros k top below ts. rewrite (stk_length top below). destruct below as [|[o l] b]; [reflexivity|].
  replace (S (2 * length ((o, l) :: b)) <=? 1) with false by (symmetry; apply Nat.leb_gt; simpl; lia).
  rewrite collect_all_stk by (simpl; lia). reflexivity.
Qed.

(** one round of p_loop on a stack of the invariant's shape: its body, with the stack read as [top] over [below] *)
Lemma p_loop_stk : forall F chunk min w top below ts,
  p_loop false (S F) chunk min w (stk top below) ts
  = match ts with
    | TSym _ :: _ | TLit _ _ :: _ =>
      if chunk
      then bind (p_args false F ts) (fun '(args, r) => p_loop false F chunk min w (stk (mk_call top args) below) r)
      else finish F chunk min w top below ts
    | TBin o :: r =>
      if accepts chunk min o
      then bind (p_lhs false F r) (fun '(e, r') => p_loop false F chunk min w (stk e (pushed o top below)) r')
      else finish F chunk min w top below ts
    | TDot _ :: TSym n :: r =>
      if match r with TDot true :: _ => true | _ => false end
      then p_loop false F chunk min w (stk (EAttr top n) below) r
      else match starts_args r with
           | 1 => bind (p_args false F r)
                       (fun '(args, r') => p_loop false F chunk min w (stk (ECall top (Some n) args) below) r')
           | 2 => Unmodelled
           | _ => p_loop false F chunk min w (stk (EAttr top n) below) r
           end
    | TDot _ :: _ => Err
    | TComma :: _ => if w then Unmodelled else finish F chunk min w top below ts
    | _ => finish F chunk min w top below ts
    end.
Proof.
  intros F chunk min w top below ts.
  pose proof (finish_stk (fun st' => p_loop false F chunk min w st' ts) top below ts) as Hfin.
  destruct ts as [|[] r]; try exact Hfin.
  - destruct chunk; [reflexivity | exact Hfin].
  - destruct chunk; [reflexivity | exact Hfin].
  - unfold accepts. cbn [p_loop]. rewrite binop_cat_ok. cbn [negb].
    destruct (if chunk then true else min_ok min o); [|exact Hfin].
    destruct (reduce_stk o top below) as (st1 & -> & E). unfold stk. rewrite <- E. reflexivity.
  - destruct r as [|[] r']; reflexivity.
  - destruct w; [reflexivity | exact Hfin].
Qed.

(** the arms of p_lhs, p_chain, p_args and p_args_loop that hand the tokens on to another function *)
Lemma p_lhs_paren : forall F adj r, match r with TRP :: _ => False | _ => True end ->
  p_lhs false (S F) (TLP adj :: r)
  = bind (p_expr false F None true r) (fun '(e, r') => match r' with TRP :: r'' => Ok (e, r'') | _ => Err end).
Proof. intros F adj [|[] r] H; try contradiction; reflexivity. Qed.

Lemma p_chain_call : forall F obj r,
  p_chain false (S F) obj (TLP true :: r)
  = bind (p_args false F (TLP true :: r)) (fun '(args, r0) => p_chain false F (mk_call obj args) r0).
Proof. reflexivity. Qed.

Lemma p_args_paren : forall F a ts, match ts with TRP :: _ => False | _ => True end ->
  p_args false (S F) (TLP a :: ts)
  = bind (p_expr false F None false ts) (fun '(a, r1) => p_args_loop false F true [a] r1).
Proof. intros F a [|[] r] H; try contradiction; reflexivity. Qed.

Lemma p_args_loop_comma : forall F lp acc r, match r with TComma :: _ | TRP :: _ => False | _ => True end ->
  p_args_loop false (S F) lp acc (TComma :: r)
  = bind (p_expr false F None false r) (fun '(a, r1) => p_args_loop false F lp (acc ++ [a]) r1).
Proof. intros F lp acc [|[] r] H; try contradiction; reflexivity. Qed.

Definition okres {A} (n : nat) (r : res (A * list tok)) : Prop :=
  r <> Fuel /\ r <> Panic /\ forall a rest, r = Ok (a, rest) -> length rest <= n.

Lemma okres_ok : forall A n (a : A) rest, length rest <= n -> okres n (Ok (a, rest)).
Proof. intros. repeat split; try discriminate. intros a' rest' H'. inversion H'; subst. assumption. Qed.
Lemma okres_err : forall A n, @okres A n Err.
Proof. intros. repeat split; discriminate. Qed.
Lemma okres_unm : forall A n, @okres A n Unmodelled.
Proof. intros. repeat split; discriminate. Qed.
Lemma okres_weaken : forall A n m (r : res (A * list tok)), okres n r -> n <= m -> okres m r.
Proof. intros A n m r (H1 & H2 & H3) Hle. repeat split; auto. intros a rest E. specialize (H3 a rest E). lia. Qed.

Lemma okres_bind : forall A B n m (r : res (A * list tok)) (f : A * list tok -> res (B * list tok)),
  okres n r -> (forall a rest, length rest <= n -> okres m (f (a, rest))) -> okres m (bind r f).
Proof.
  intros A B n m r f (H1 & H2 & H3) Hf. destruct r as [[a rest]| | | |]; simpl.
  - apply Hf. apply (H3 a rest). reflexivity.
  - apply okres_err.
  - congruence.
  - apply okres_unm.
  - congruence.
Qed.

Lemma okres_end : forall n (r : res (expr * list tok)), okres n r ->
  let x := bind r (fun '(e, r') => match r' with [] => Ok e | _ => Err end) in x <> Fuel /\ x <> Panic.
Proof. intros n r (H1 & H2 & _). destruct r as [[e [|t r']]| | | |]; simpl; split; congruence. Qed.

(** with operators on the stack the `_ =>` arm goes round the loop once more without reading a token *)
Definition extra (below : list (binop * expr)) : nat := match below with [] => 0 | _ => 1 end.

(** A token costs at most one round through p_lhs, p_chain, p_juxt, p_args, p_expr; the offsets order the
    functions along the calls that pass the tokens on unread: p_chain > p_juxt > p_args > p_expr > p_lhs, and
    p_loop > p_args. *)
Definition T_all (F : nat) : Prop :=
  (forall min w ts, 8 * length ts + 2 <= F -> okres (pred (length ts)) (p_expr false F min w ts)) /\
  (forall ts, 8 * length ts + 1 <= F -> okres (pred (length ts)) (p_lhs false F ts)) /\
  (forall obj ts, 8 * length ts + 5 <= F -> okres (length ts) (p_chain false F obj ts)) /\
  (forall obj ts, 8 * length ts + 4 <= F -> okres (length ts) (p_juxt false F obj ts)) /\
  (forall ts, starts_args ts = 1 -> 8 * length ts + 3 <= F -> okres (pred (length ts)) (p_args false F ts)) /\
  (forall lp acc ts, 8 * length ts + 2 <= F -> okres (length ts) (p_args_loop false F lp acc ts)) /\
  (forall chunk min w top below ts, 8 * length ts + 4 + extra below <= F ->
      okres (length ts) (p_loop false F chunk min w (stk top below) ts)).

Lemma starts_args_nonempty : forall ts, starts_args ts = 1 -> 1 <= length ts.
Proof. intros [|t r] H; [discriminate|simpl; lia]. Qed.

Section Step.
Variable F : nat.
Hypothesis IH : T_all F.

Let IHe := proj1 IH.
Let IHl := proj1 (proj2 IH).
Let IHc := proj1 (proj2 (proj2 IH)).
Let IHj := proj1 (proj2 (proj2 (proj2 IH))).
Let IHa := proj1 (proj2 (proj2 (proj2 (proj2 IH)))).
Let IHt := proj1 (proj2 (proj2 (proj2 (proj2 (proj2 IH))))).
Let IHp := proj2 (proj2 (proj2 (proj2 (proj2 (proj2 IH))))).

Lemma T_expr : forall min w ts, 8 * length ts + 2 <= S F -> okres (pred (length ts)) (p_expr false (S F) min w ts).
Proof.
  intros min w ts HF. simpl. destruct ts as [|t ts'].
  - destruct F; [simpl in HF; lia | apply okres_err].
  - simpl length in *. eapply okres_bind; [apply IHl; simpl; lia|]. intros e r Hr. cbv beta iota.
    eapply okres_weaken; [apply (IHp false min w e [] r); simpl in *; lia | exact Hr].
Qed.

Lemma T_lhs : forall ts, 8 * length ts + 1 <= S F -> okres (pred (length ts)) (p_lhs false (S F) ts).
Proof.
  intros ts HF. destruct ts as [|t r]; [apply okres_err|]. simpl length in *. simpl pred.
  destruct t.
  - simpl. apply IHc. lia.
  - simpl. destruct r as [|t1 r1]; [apply okres_ok; simpl; lia|].
    destruct t1; try (apply okres_ok; simpl; lia); apply okres_unm.
  - apply okres_err.
  - simpl. destruct (is_unary_cat p); [|apply okres_unm].
    eapply okres_bind; [apply IHe; lia|]. intros e r' Hr. apply okres_ok. lia.
  - apply okres_unm.
  - assert (Hgen : okres (length r)
                     (bind (p_expr false F None true r)
                           (fun '(e, r') => match r' with TRP :: r'' => Ok (e, r'') | _ => Err end))).
    { eapply okres_bind; [apply IHe; lia|]. intros e r' Hr.
      destruct r' as [|t1 r1]; [apply okres_err|]. destruct t1; try apply okres_err.
      apply okres_ok. simpl in Hr. lia. }
    destruct r as [|[] r1]; try (rewrite p_lhs_paren by exact I; exact Hgen). apply okres_unm.
  - apply okres_err.
  - apply okres_err.
Qed.

Lemma T_juxt : forall obj ts, 8 * length ts + 4 <= S F -> okres (length ts) (p_juxt false (S F) obj ts).
Proof.
  intros obj ts HF. simpl. destruct (starts_args ts) as [|[|[|k]]] eqn:E; try (apply okres_ok; lia).
  - pose proof (starts_args_nonempty _ E).
    eapply okres_bind; [apply IHa; [exact E|lia]|]. intros args r Hr.
    eapply okres_weaken; [apply IHj; lia | lia].
  - apply okres_unm.
Qed.

Lemma T_chain : forall obj ts, 8 * length ts + 5 <= S F -> okres (length ts) (p_chain false (S F) obj ts).
Proof.
  intros obj ts HF.
  assert (Hj : okres (length ts) (p_juxt false F obj ts)) by (apply IHj; lia).
  destruct ts as [|t r]; [exact Hj|]. destruct t; try exact Hj.
  - destruct adj; [|exact Hj]. simpl.
    destruct r as [|t2 r']; [apply okres_err|].
    destruct t2; try apply okres_err.
    + eapply okres_weaken; [apply IHc; simpl in HF; lia | simpl; lia].
    + destruct k; try apply okres_err. apply okres_unm.
  - destruct adj; [|exact Hj].
    rewrite p_chain_call. eapply okres_bind; [apply IHa; [reflexivity|lia]|]. intros args r0 Hr.
    simpl in Hr. eapply okres_weaken; [apply IHc; simpl in HF; lia | simpl; lia].
Qed.

(** an argument and then the rest of the list: the first argument of p_args is the `,` arm of p_args_loop at [acc = []] *)
Lemma T_arg : forall lp acc r n, 8 * length r + 2 <= F -> pred (length r) <= n ->
  okres n (bind (p_expr false F None false r) (fun '(a, r1) => p_args_loop false F lp (acc ++ [a]) r1)).
Proof.
  intros lp acc r n HF Hn. eapply okres_bind; [apply IHe; exact HF|]. intros a r1 Hr.
  eapply okres_weaken; [apply IHt; lia | lia].
Qed.

Lemma T_tl : forall lp acc ts, 8 * length ts + 2 <= S F -> okres (length ts) (p_args_loop false (S F) lp acc ts).
Proof.
  intros lp acc ts HF. destruct ts as [|t r]; [apply okres_ok; lia|].
  destruct t; try (apply okres_ok; lia).
  - simpl. destruct lp; apply okres_ok; simpl; lia.
  - assert (Hgen := T_arg lp acc r (length (TComma :: r))). simpl in HF, Hgen. specialize (Hgen ltac:(lia) ltac:(lia)).
    destruct r as [|[] r1]; try (rewrite p_args_loop_comma by exact I; exact Hgen).
    + destruct lp; [apply okres_ok; simpl; lia | apply okres_err].
    + apply okres_err.
Qed.

Lemma T_args : forall ts, starts_args ts = 1 -> 8 * length ts + 3 <= S F -> okres (pred (length ts)) (p_args false (S F) ts).
Proof.
  intros ts Hs HF. pose proof (starts_args_nonempty _ Hs).
  destruct ts as [|[] r]; try discriminate; try (apply (T_arg false []); lia).
  assert (Hgen := T_arg true [] r (length r)). simpl in HF. specialize (Hgen ltac:(lia) ltac:(lia)).
  destruct r as [|[] r1]; try (rewrite p_args_paren by exact I; exact Hgen).
  apply okres_ok. simpl. lia.
Qed.

Lemma T_loop : forall chunk min w top below ts, 8 * length ts + 4 + extra below <= S F ->
  okres (length ts) (p_loop false (S F) chunk min w (stk top below) ts).
Proof.
  intros chunk min w top below ts HF. rewrite p_loop_stk.
  assert (Hfin : okres (length ts) (finish F chunk min w top below ts)).
  { destruct below as [|ol b]; [apply okres_ok; lia|].
    apply (IHp chunk min w (fold_stack top (ol :: b)) [] ts). simpl in *. lia. }
  assert (Hrec : forall top' below' ts', S (length ts') <= length ts ->
            okres (length ts) (p_loop false F chunk min w (stk top' below') ts')).
  { intros top' below' ts' Hlt. eapply okres_weaken; [apply IHp; destruct below'; simpl; lia | lia]. }
  assert (Hcall : forall obj r, starts_args r = 1 -> length r <= length ts ->
            okres (length ts)
              (bind (p_args false F r) (fun '(args, r') => p_loop false F chunk min w (stk (obj args) below) r'))).
  { intros obj r Hs Hle. pose proof (starts_args_nonempty _ Hs).
    eapply okres_bind; [apply IHa; [exact Hs|lia]|]. intros args r0 Hr. apply Hrec. lia. }
  destruct ts as [|[] r]; try exact Hfin.
  - destruct chunk; [apply (Hcall (mk_call top)); [reflexivity | lia] | exact Hfin].
  - destruct chunk; [apply (Hcall (mk_call top)); [reflexivity | lia] | exact Hfin].
  - destruct (accepts chunk min o); [|exact Hfin].
    eapply okres_bind; [apply IHl; simpl in HF; lia|]. intros e r' Hr. apply Hrec. simpl in *. lia.
  - destruct r as [|[] r']; try apply okres_err.
    assert (Hattr : okres (length (TDot adj :: TSym n :: r')) (p_loop false F chunk min w (stk (EAttr top n) below) r'))
      by (apply Hrec; simpl; lia).
    destruct (match r' with TDot true :: _ => true | _ => false end); [exact Hattr|].
    destruct (starts_args r') as [|[|[|k]]] eqn:Es; try exact Hattr; [|apply okres_unm].
    apply (Hcall (ECall top (Some n))); [exact Es | simpl; lia].
  - destruct w; [apply okres_unm | exact Hfin].
Qed.

End Step.

Lemma T_all_holds : forall F, T_all F.
Proof.
  induction F as [|F IH].
  - repeat split; intros; lia.
  - exact (conj (T_expr F IH) (conj (T_lhs F IH) (conj (T_chain F IH) (conj (T_juxt F IH)
             (conj (T_args F IH) (conj (T_tl F IH) (T_loop F IH))))))).
Qed.

Lemma parse_nofail : forall ts, parse ts <> Fuel /\ parse ts <> Panic.
Proof.
  intros ts. destruct (T_all_holds (fuel_of ts)) as (He & _).
  apply (okres_end (pred (length ts))), He. unfold fuel_of. lia.
Qed.

Lemma chunk_nofail : forall ts, parse_chunk false ts <> Fuel /\ parse_chunk false ts <> Panic.
Proof.
  intros ts. destruct (T_all_holds (fuel_of ts)) as (_ & Hl & _ & _ & _ & _ & Hp).
  unfold parse_chunk. destruct (Hl ts) as (Ha & Hb & Hc); [unfold fuel_of; lia|].
  destruct (p_lhs false (fuel_of ts) ts) as [[e r]| | | |]; simpl; try (split; congruence).
  specialize (Hc e r eq_refl).
  apply (okres_end (length r)), (Hp true None true e []). unfold fuel_of. simpl. lia.
Qed.

Definition upto_fuel {A} (r : res A) (x : A) : Prop := r = Fuel \/ r = Ok x.

Lemma upto_bind : forall A B (r : res A) (f : A -> res B) a b,
  upto_fuel r a -> upto_fuel (f a) b -> upto_fuel (bind r f) b.
Proof. intros A B r f a b [->| ->] H; [left; reflexivity | exact H]. Qed.

Lemma upto_ok : forall A (r : res A) x, upto_fuel r x -> r <> Fuel -> r = Ok x.
Proof. intros A r x [H|H] Hf; [contradiction | exact H]. Qed.

(** continuing on [ts] the climbing loops that are open for the stack (innermost first: the loop for the right
    operand of the topmost stacked operator; last the loop at level [m]) gives [res] *)
Inductive U (m : nat) : expr -> list (binop * expr) -> list tok -> expr * list tok -> Prop :=
| U_nil : forall top ts f res, c_loop f m top ts = Some res -> U m top [] ts res
| U_cons : forall top o l below ts f rhs r res, m <= lvl o ->
    c_loop f (S (lvl o)) top ts = Some (rhs, r) -> U m (EBin o l rhs) below r res ->
    U m top ((o, l) :: below) ts res.

(** [U] once the reference has run its postfix loop on [top]: p_loop has an arm of its own for `.name` *)
Definition U' (m : nat) (top : expr) (below : list (binop * expr)) (ts : list tok) (res : expr * list tok) : Prop :=
  exists f top' r1, c_postfix f top ts = Some (top', r1) /\ U m top' below r1 res.

Lemma U_return : forall m top below ts res,
  (forall o r0, ts = TBin o :: r0 -> lvl o < m) -> U m top below ts res -> res = (fold_stack top below, ts).
Proof.
  intros m top below ts res Hts HU. induction HU as [top ts f res H | top o l below ts f rhs r res Hm H HU IH].
  - apply (c_loop_low _ _ _ _ _ H Hts).
  - apply c_loop_low in H; [|intros o' r0 Heq; specialize (Hts o' r0 Heq); lia].
    inversion H; subst. apply IH; assumption.
Qed.

Lemma U_follow : forall m top below ts res w, U m top below ts res ->
  follow_ok w (snd res) = true -> follow_ok w ts = true.
Proof.
  intros m top below ts res w HU Hfo. induction HU as [top ts f [e r] H | top o l below ts f rhs r res _ H HU IH].
  - apply (c_loop_follow _ _ _ _ _ _ _ H Hfo).
  - apply (c_loop_follow _ _ _ _ _ _ _ H (IH Hfo)).
Qed.

(** reducing the stacked operators at or above the level of [o] is the reference returning from their loops;
    it then reads the right operand of [o] *)
Lemma U_push : forall m o r below top res,
  U m top below (TBin o :: r) res -> m <= lvl o ->
  exists f l r', c_operand f r = Some (l, r') /\ U m l (pushed o top below) r' res.
Proof.
  induction below as [|[o1 l1] b IH]; intros top res HU Hm; simpl.
  - inversion HU as [top0 ts0 f res0 H|]; subst.
    destruct (c_loop_bin _ _ _ _ _ _ H Hm) as (f1 & f2 & l2 & r2 & rhs & r' & Ho & Hl2 & Hl).
    exists f2, l2, r2. split; [exact Ho|].
    eapply U_cons; [exact Hm | exact Hl2|]. eapply U_nil. exact Hl.
  - inversion HU as [|top0 o0 l0 below0 ts0 f rhs1 r1 res0 Hm1 H HU1]; subst.
    destruct (lvl o <=? lvl o1) eqn:E.
    + apply Nat.leb_le in E. apply c_loop_low in H; [|intros o' r0 Heq; inversion Heq; subst; lia].
      inversion H; subst. apply IH; assumption.
    + apply Nat.leb_gt in E.
      destruct (c_loop_bin _ _ _ _ _ _ H E) as (f1 & f2 & l2 & r2 & rhs & r' & Ho & Hl2 & Hl).
      exists f2, l2, r2. split; [exact Ho|].
      eapply U_cons; [exact Hm | exact Hl2|]. eapply U_cons; [exact Hm1 | exact Hl | exact HU1].
Qed.

Lemma bin_or_low : forall m ts,
  (exists o r, ts = TBin o :: r /\ m <= lvl o) \/ (forall o r, ts = TBin o :: r -> lvl o < m).
Proof.
  intros m [|[] r]; try (right; intros; discriminate).
  destruct (le_lt_dec m (lvl o)) as [H|H]; [left; eauto|].
  right. intros o' r' Heq. inversion Heq; subst. exact H.
Qed.

Lemma p_loop_finish : forall F (chunk : bool) min w top below ts, follow_ok w ts = true ->
  (forall o r, ts = TBin o :: r -> accepts chunk min o = false) ->
  p_loop false (S F) chunk min w (stk top below) ts = finish F chunk min w top below ts.
Proof.
  intros F chunk min w top below ts H Hg. rewrite p_loop_stk.
  destruct ts as [|[] r]; try discriminate H; try reflexivity.
  - rewrite (Hg o r eq_refl). reflexivity.
  - apply negb_true_iff in H. rewrite H. reflexivity.
Qed.

Lemma loop_finish_ok : forall F (chunk : bool) min w top below ts, follow_ok w ts = true ->
  (forall o r, ts = TBin o :: r -> accepts chunk min o = false) ->
  upto_fuel (p_loop false F chunk min w (stk top below) ts) (fold_stack top below, ts).
Proof.
  intros F chunk min w top below ts H Hg. destruct F as [|F]; [left; reflexivity|].
  rewrite p_loop_finish by assumption. destruct below as [|[o l] b]; [right; reflexivity|].
  destruct F as [|F]; [left; reflexivity|].
  unfold finish. rewrite p_loop_finish by assumption. right. reflexivity.
Qed.

Lemma p_loop_attr : forall F chunk min w top below a n r',
  follow_ok w r' = true \/ (exists n' r'', r' = TDot true :: TSym n' :: r'') ->
  p_loop false (S F) chunk min w (stk top below) (TDot a :: TSym n :: r')
  = p_loop false F chunk min w (stk (EAttr top n) below) r'.
Proof.
  intros F chunk min w top below a n r' H. rewrite p_loop_stk. destruct H as [H | (n' & r'' & ->)]; [|reflexivity].
  destruct r' as [|[] r'']; try discriminate H; reflexivity.
Qed.

Lemma p_chain_follow : forall F obj ts, follow_ok false ts = true -> upto_fuel (p_chain false F obj ts) (obj, ts).
Proof.
  intros [|[|F]] obj ts H; [left; reflexivity | |].
  - destruct ts as [|[] r]; try discriminate H; left; reflexivity.
  - destruct ts as [|[] r]; try discriminate H; right; reflexivity.
Qed.

Definition P_operand (F : nat) : Prop :=
  forall ts f e r, c_operand f ts = Some (e, r) -> follow_ok false r = true ->
  exists e0 r0, upto_fuel (p_lhs false F ts) (e0, r0) /\ exists f', c_postfix f' e0 r0 = Some (e, r).
(** [m]: the climbing level whose test the guard of the parser's loop is *)
Definition P_expr (F : nat) : Prop :=
  forall ts f m min w e r, c_expr f m ts = Some (e, r) -> follow_ok w r = true ->
  (forall o, min_ok min o = (m <=? lvl o)) -> upto_fuel (p_expr false F min w ts) (e, r).
Definition P_chain (F : nat) : Prop :=
  forall ts f obj e r, c_postfix f obj ts = Some (e, r) -> follow_ok false r = true ->
  upto_fuel (p_chain false F obj ts) (e, r).
(** try_reduce_call_or_acc reads `.name` and the argument list after it in two rounds *)
Definition P_call (F : nat) : Prop :=
  forall ts f f' obj n args r1 e r, c_args f ts = Some (args, r1) ->
  c_postfix f' (ECall obj (Some n) args) r1 = Some (e, r) -> follow_ok false r = true ->
  upto_fuel (p_chain false F (EAttr obj n) (TLP true :: ts)) (e, r).
Definition P_args (F : nat) : Prop :=
  forall ts f a args r, c_args f ts = Some (args, r) -> upto_fuel (p_args false F (TLP a :: ts)) (args, r).
Definition P_tl (F : nat) : Prop :=
  forall ts f acc args r, c_args_tl f acc ts = Some (args, r) -> upto_fuel (p_args_loop false F true acc ts) (args, r).
Definition P_loop (F : nat) : Prop :=
  forall chunk min w m top below ts res, U' m top below ts res -> follow_ok w (snd res) = true ->
  (forall o, accepts chunk min o = (m <=? lvl o)) -> upto_fuel (p_loop false F chunk min w (stk top below) ts) res.

Definition P_all (F : nat) : Prop :=
  P_operand F /\ P_expr F /\ P_chain F /\ P_call F /\ P_args F /\ P_tl F /\ P_loop F.

(** an operand and then the loop, as try_reduce_expr_above and try_reduce_chunk begin and as the BinOp arm goes on *)
Lemma lhs_loop_sim : forall F F' chunk min w m ts f l r1 below res, P_operand F -> P_loop F' ->
  c_operand f ts = Some (l, r1) -> U m l below r1 res -> follow_ok w (snd res) = true ->
  (forall o, accepts chunk min o = (m <=? lvl o)) ->
  exists e0 r0, upto_fuel (p_lhs false F ts) (e0, r0)
                /\ upto_fuel (p_loop false F' chunk min w (stk e0 below) r0) res.
Proof.
  intros F F' chunk min w m ts f l r1 below res Hop Hlp Ho HU Hfo Hmin.
  pose proof (U_follow _ _ _ _ _ _ HU Hfo) as Hfo1.
  destruct (Hop ts f l r1 Ho (follow_ok_weaken _ _ Hfo1)) as (e0 & r0 & Hlhs & f' & Hpf).
  exists e0, r0. split; [exact Hlhs|].
  apply (Hlp chunk min w m e0 below r0 res); [|exact Hfo | exact Hmin].
  exists f', l, r1. split; assumption.
Qed.

Section Sim.
Variable F : nat.
Hypothesis IH : P_all F.

Let IHo := proj1 IH.
Let IHe := proj1 (proj2 IH).
Let IHc := proj1 (proj2 (proj2 IH)).
Let IHk := proj1 (proj2 (proj2 (proj2 IH))).
Let IHa := proj1 (proj2 (proj2 (proj2 (proj2 IH)))).
Let IHt := proj1 (proj2 (proj2 (proj2 (proj2 (proj2 IH))))).
Let IHp := proj2 (proj2 (proj2 (proj2 (proj2 (proj2 IH))))).

Lemma step_chain : P_chain (S F).
Proof.
  intros ts f obj e r H Hfo. apply c_postfix_inv in H.
  destruct H as [(_ & -> & ->) | (f1 & n & r' & -> & [(r2 & args & r3 & -> & Ha & Hp) | Hp])].
  - apply p_chain_follow. exact Hfo.
  - apply (IHk r2 f1 f1 obj n args r3 e r Ha Hp Hfo).
  - apply (IHc r' f1 (EAttr obj n) e r Hp Hfo).
Qed.

Lemma step_call : P_call (S F).
Proof.
  intros ts f f' obj n args r1 e r Ha Hp Hfo.
  rewrite p_chain_call.
  apply upto_bind with (args, r1); [apply (IHa ts f true args r1 Ha) | apply (IHc r1 f' _ e r Hp Hfo)].
Qed.

Lemma step_tl : P_tl (S F).
Proof.
  intros ts f acc args r H.
  destruct f as [|f]; [discriminate|]. simpl in H.
  destruct ts as [|[] r0]; try discriminate.
  - inversion H; subst. right. reflexivity.
  - destruct (c_expr f 0 r0) as [[a1 r1]|] eqn:E; [|discriminate].
    pose proof (c_expr_head _ _ _ _ _ E) as Hh.
    rewrite p_args_loop_comma by (destruct r0 as [|[] r0']; try contradiction; exact I).
    apply upto_bind with (a1, r1); [|apply (IHt r1 f _ args r H)].
    apply (IHe r0 f 0 None false a1 r1 E); [eapply c_args_tl_follow; eauto | reflexivity].
Qed.

Lemma step_args : P_args (S F).
Proof.
  intros ts f a args r H. apply c_args_inv in H.
  destruct H as [(-> & ->) | (f1 & a1 & r1 & E & Ht)]; [right; reflexivity|].
  pose proof (c_expr_head _ _ _ _ _ E) as Hh.
  rewrite p_args_paren by (destruct ts as [|[] r0]; try contradiction; exact I).
  apply upto_bind with (a1, r1); [|apply (IHt r1 f1 _ args r Ht)].
  apply (IHe ts f1 0 None false a1 r1 E); [eapply c_args_tl_follow; eauto | reflexivity].
Qed.

Lemma step_operand : P_operand (S F).
Proof.
  intros ts f e r H Hfo.
  destruct f as [|f]; [discriminate|]. simpl in H.
  destruct ts as [|[] r0]; try discriminate.
  - exists e, r. split; [apply (IHc r0 f (EId n) e r H Hfo)|].
    apply (c_postfix_stop false). exact Hfo.
  - (* the member accesses after a literal are left to the loop *)
    exists (ELit k s), r0. split; [|eauto].
    destruct (c_postfix_next _ _ _ _ _ _ H Hfo) as [Hf | (n & r' & ->)]; [|right; reflexivity].
    destruct r0 as [|[] r1]; try discriminate Hf; right; reflexivity.
  - destruct (c_expr f (S pre_lvl) r0) as [[e1 r1]|] eqn:E; [|discriminate]. inversion H; subst e r1.
    exists (EUn p e1), r. split.
    + simpl. rewrite unary_cat_ok. apply upto_bind with (e1, r); [|right; reflexivity].
      apply (IHe r0 f (S pre_lvl) (prec_p p) false e1 r E Hfo), min_ok_pre.
    + apply (c_postfix_stop false). exact Hfo.
  - (* likewise after `)` *)
    destruct (c_expr f 0 r0) as [[e1 [|[] r1]]|] eqn:E; try discriminate.
    exists e1, r1. split; [|eauto].
    pose proof (c_expr_head _ _ _ _ _ E) as Hh.
    rewrite p_lhs_paren by (destruct r0 as [|[] r0']; try contradiction; exact I).
    apply upto_bind with (e1, TRP :: r1); [|right; reflexivity].
    apply (IHe r0 f 0 None true e1 (TRP :: r1) E); [reflexivity | reflexivity].
Qed.

Lemma step_expr : P_expr (S F).
Proof.
  intros ts f m min w e r H Hfo Hmin. apply c_expr_inv in H. destruct H as (f1 & l & r1 & Ho & Hl).
  destruct (lhs_loop_sim F F false min w m ts f1 l r1 [] (e, r) IHo IHp Ho (U_nil _ _ _ _ _ Hl) Hfo Hmin)
    as (e0 & r0 & Hlhs & Hloop).
  apply upto_bind with (e0, r0); assumption.
Qed.

Lemma step_loop : P_loop (S F).
Proof.
  intros chunk min w m top below ts res HU' Hfo Hmin.
  destruct HU' as (f & top' & r1 & Hp & HU). apply c_postfix_inv in Hp.
  destruct Hp as [(_ & -> & ->) | (f1 & n & r' & -> & [(r2 & args & r3 & -> & Ha & Hp) | Hp])].
  - destruct (bin_or_low m ts) as [(o & r & -> & Hacc) | Hlow].
    + rewrite p_loop_stk, (Hmin o), (proj2 (Nat.leb_le _ _) Hacc).
      destruct (U_push _ _ _ _ _ _ HU Hacc) as (f2 & l2 & r2 & Ho & HU2).
      destruct (lhs_loop_sim F F chunk min w m r f2 l2 r2 _ res IHo IHp Ho HU2 Hfo Hmin) as (e0 & r0 & Hlhs & Hloop).
      apply upto_bind with (e0, r0); assumption.
    + (* the reference returns from all its loops *)
      rewrite (U_return _ _ _ _ _ Hlow HU) in *. apply loop_finish_ok; [exact Hfo|].
      intros o r Heq. rewrite (Hmin o). apply Nat.leb_gt, (Hlow o r Heq).
  - rewrite p_loop_stk. apply upto_bind with (args, r3); [apply (IHa r2 f1 true args r3 Ha)|].
    apply (IHp chunk min w m (ECall top (Some n) args) below r3 res); [|assumption..].
    exists f1, top', r1. split; assumption.
  - rewrite p_loop_attr by exact (c_postfix_next _ _ _ _ _ _ Hp (U_follow _ _ _ _ _ _ HU Hfo)).
    apply (IHp chunk min w m (EAttr top n) below r' res); [|assumption..].
    exists f1, top', r1. split; assumption.
Qed.

End Sim.

Lemma sim_all : forall F, P_all F.
Proof.
  induction F as [|F IH].
  - split; [|repeat split; repeat intro; left; reflexivity].
    intros ts f e r _ Hfo. exists e, r. split; [left; reflexivity|].
    apply (c_postfix_stop false). exact Hfo.
  - exact (conj (step_operand F IH) (conj (step_expr F IH) (conj (step_chain F IH) (conj (step_call F IH)
             (conj (step_args F IH) (conj (step_tl F IH) (step_loop F IH))))))).
Qed.

Lemma climb_inv : forall ts t, climb ts = Some t -> exists f, c_expr f 0 ts = Some (t, []).
Proof.
  intros ts t H. unfold climb in H.
  destruct (c_expr (climb_fuel ts) 0 ts) as [[e [|]]|] eqn:E; try discriminate.
  inversion H; subst. eauto.
Qed.

Lemma parse_rhs_climb : forall ts t, climb ts = Some t -> parse ts = Ok t.
Proof.
  intros ts t H. apply upto_ok; [|apply parse_nofail].
  apply climb_inv in H. destruct H as [f E].
  destruct (sim_all (fuel_of ts)) as (_ & He & _).
  unfold parse, parse_rhs. apply upto_bind with (t, []); [|right; reflexivity].
  apply (He ts f 0 None true t [] E eq_refl). reflexivity.
Qed.

Lemma parse_chunk_climb : forall ts t, climb ts = Some t -> parse_chunk false ts = Ok t.
Proof.
  intros ts t H. apply upto_ok; [|apply chunk_nofail].
  apply climb_inv in H. destruct H as [f E]. apply c_expr_inv in E. destruct E as (f1 & l & r1 & Ho & Hl).
  destruct (sim_all (fuel_of ts)) as (Hop & _ & _ & _ & _ & _ & Hlp).
  destruct (lhs_loop_sim _ _ true None true 0 ts f1 l r1 [] (t, []) Hop Hlp Ho (U_nil _ _ _ _ _ Hl) eq_refl)
    as (e0 & r0 & Hlhs & Hloop); [reflexivity|].
  unfold parse_chunk. apply upto_bind with (e0, r0); [exact Hlhs|].
  apply upto_bind with (t, []); [exact Hloop | right; reflexivity].
Qed.
