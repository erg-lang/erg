(** The declared result classes (gen/Sigs.v) are sound for the run-time operators of CoreErg/Sem.v.  Every row the
    strict checker consults is validated by computation against a sufficient condition on its classes ([bin_cond],
    [un_cond], [meth_cond]); the conditions imply that the operator returns a member of the row's result class or a
    legitimate error.  A declaration that promises too much (e.g. Nat - Nat : Nat) makes [bin_table_ok] fail; the rows
    of `**` that [pow_ok true] excludes (an operand that may be negative: K_pow) are not consulted and pass unvalidated. *)
From Coq Require Import ZArith List Bool Lia SpecFloat.
From ErgV Require Import gen.Sigs CoreErg.Syntax CoreErg.Sem Typing.Types Typing.Check Typing.Eval Typing.ProofsTypes.
Import ListNotations.
Open Scope Z_scope.

Definition res_ok (r : rs value) (t : ety) : Prop :=
  match r with
  | R_ok v => has_ty v t = true
  | R_err e => type_error e = false /\ e <> EStatic
  | R_fuel => True
  end.

(* [res_ok r t] is [rs_ok (fun v => has_ty v t = true) r], by computation *)
Definition rs_ok {A} (P : A -> Prop) (r : rs A) : Prop :=
  match r with
  | R_ok a => P a
  | R_err e => type_error e = false /\ e <> EStatic
  | R_fuel => True
  end.

Lemma rs_bind : forall {A B} (P : A -> Prop) (Q : B -> Prop) (r : rs A) (k : A -> rs B),
  rs_ok P r -> (forall a, P a -> rs_ok Q (k a)) -> rs_ok Q (rbind r k).
Proof. intros A B P Q [a|e|] k Hr Hk; cbn [rbind]; auto. Qed.

Lemma rs_ok_impl : forall {A} (P Q : A -> Prop) (r : rs A), rs_ok P r -> (forall a, P a -> Q a) -> rs_ok Q r.
Proof. intros A P Q [a|e|] Hr HPQ; cbn in *; auto. Qed.

Lemma lift_bind : forall {A B} (r : res A) (k : A -> res B), lift (bind r k) = rbind (lift r) (fun a => lift (k a)).
Proof. intros A B [a|e|] k; reflexivity. Qed.

Definition num_cls (c : cls) : bool := match c with CNat | CInt | CBool | CFloat => true | _ => false end.

Definition arith_cond (o : Z) (a b : cls) (r : Z) : bool :=
  if int_like a && int_like b then
    (r =? 5) || ((r =? 1) && negb (o =? 3))
    || ((r =? 0) && nat_like a && nat_like b && negb (o =? 1) && negb (o =? 3))
  else if num_cls a && num_cls b then r =? 5
  else (r =? 7) && match a, b with
                   | CStr, CStr => o =? 0
                   | CStr, _ => (o =? 2) && int_like b
                   | _, CStr => (o =? 2) && int_like a
                   | _, _ => false
                   end.

Definition cmp_cond (o : Z) (a b : cls) (r : Z) : bool :=
  (r =? 2) && ((num_cls a && num_cls b) || (match a, b with CStr, CStr => true | _, _ => false end) || (o =? 7) || (o =? 8)).

Definition bin_cond (o : Z) (a b : cls) (r : Z) : bool :=
  if is_scalar a && is_scalar b && pow_ok true o a b then
    if o <=? 6 then arith_cond o a b r else cmp_cond o a b r
  else true.

Definition un_cond (o : Z) (c : cls) (r : Z) : bool :=
  if is_scalar c then
    if int_like c then (r =? 1) || (r =? 5) else match c with CFloat => r =? 5 | _ => false end
  else true.

Definition meth_cond (m : Z) (c : cls) (r : Z) : bool :=
  if int_like c then
    if (m =? M_succ) || (m =? M_pred) then (r =? 1) || (r =? 5)
    else if (m =? M_bit_count) || (m =? M_abs) then (r =? 0) || (r =? 1) || (r =? 5)
    else true
  else true.

(* rows about classes outside the fragment (the mutable ones) are not consulted *)
Definition bin_row_ok (row : Z * Z * Z * Z) : bool :=
  match row with
  | (o, a, b, r) => match tag_cls a, tag_cls b with Some ca, Some cb => bin_cond o ca cb r | _, _ => true end
  end.

Definition row_ok (cond : Z -> cls -> Z -> bool) (row : Z * Z * Z) : bool :=
  match row with
  | (o, a, r) => match tag_cls a with Some ca => cond o ca r | None => true end
  end.

Lemma bin_table_ok : forallb bin_row_ok sig_binop = true.
Proof. vm_compute. reflexivity. Qed.
Lemma un_table_ok : forallb (row_ok un_cond) sig_unop = true.
Proof. vm_compute. reflexivity. Qed.
Lemma meth_table_ok : forallb (row_ok meth_cond) sig_method = true.
Proof. vm_compute. reflexivity. Qed.

Lemma lookup4_in : forall tbl o a b r, lookup4 tbl o a b = Some r -> In (o, a, b, r) tbl.
Proof.
  induction tbl as [|[[[o' a'] b'] r'] rest IH]; intros o a b r H; cbn [lookup4] in H; try discriminate.
  destruct ((o =? o') && (a =? a') && (b =? b')) eqn:E.
  - inversion H; subst. rewrite !andb_true_iff, !Z.eqb_eq in E. destruct E as [[-> ->] ->]. left. reflexivity.
  - right. auto.
Qed.

Lemma lookup3_in : forall tbl o a r, lookup3 tbl o a = Some r -> In (o, a, r) tbl.
Proof.
  induction tbl as [|[[o' a'] r'] rest IH]; intros o a r H; cbn [lookup3] in H; try discriminate.
  destruct ((o =? o') && (a =? a')) eqn:E.
  - inversion H; subst. rewrite andb_true_iff, !Z.eqb_eq in E. destruct E as [-> ->]. left. reflexivity.
  - right. auto.
Qed.

Lemma lookup4_forallb : forall f tbl o a b r, forallb f tbl = true -> lookup4 tbl o a b = Some r -> f (o, a, b, r) = true.
Proof. intros f tbl o a b r T L. rewrite forallb_forall in T. apply T. apply lookup4_in. exact L. Qed.

Lemma lookup3_forallb : forall f tbl o a r, forallb f tbl = true -> lookup3 tbl o a = Some r -> f (o, a, r) = true.
Proof. intros f tbl o a r T L. rewrite forallb_forall in T. apply T. apply lookup3_in. exact L. Qed.

Lemma tag_cls_tag : forall c, tag_cls (cls_tag c) = Some c.
Proof. destruct c; reflexivity. Qed.

Lemma bin_row : forall o a b r, lookup4 sig_binop o (cls_tag a) (cls_tag b) = Some r -> bin_cond o a b r = true.
Proof.
  intros o a b r L. pose proof (lookup4_forallb _ _ _ _ _ _ bin_table_ok L) as T.
  unfold bin_row_ok in T. rewrite !tag_cls_tag in T. exact T.
Qed.

Lemma row3 : forall cond tbl o c r,
  forallb (row_ok cond) tbl = true -> lookup3 tbl o (cls_tag c) = Some r -> cond o c r = true.
Proof.
  intros cond tbl o c r T L. pose proof (lookup3_forallb _ _ _ _ _ T L) as R.
  unfold row_ok in R. rewrite tag_cls_tag in R. exact R.
Qed.

Lemma cls_int : forall c v, int_like c = true -> has_cls v c = true ->
  exists z, as_num v = Some (NInt z) /\ as_int v = Some z /\ (nat_like c = true -> 0 <= z).
Proof.
  intros c v Hc Hv. destruct c; try discriminate; destruct v; cbn in Hv; try discriminate.
  - exists z. repeat split. intros _. apply Z.leb_le; auto.
  - exists (if b then 1 else 0). repeat split. intros _. destruct b; lia.
  - exists z. repeat split. discriminate.
  - exists (if b then 1 else 0). repeat split. discriminate.
  - exists (if b then 1 else 0). repeat split. intros _. destruct b; lia.
Qed.

Lemma cls_num : forall c v, num_cls c = true -> has_cls v c = true -> exists n, as_num v = Some n.
Proof.
  intros c v Hc Hv. destruct c; try discriminate; destruct v; cbn in Hv; try discriminate; cbn; eauto.
Qed.

Lemma cls_float_only : forall c, num_cls c = true -> int_like c = false -> c = CFloat.
Proof. destruct c; cbn; intros; try discriminate; reflexivity. Qed.

(* the exceptions an operator may raise on operands of the classes its row names *)
Lemma raise_ok : forall e, e = ZeroDivisionError \/ e = OverflowError \/ e = Unmodelled ->
  type_error (of_exn e) = false /\ of_exn e <> EStatic.
Proof. intros e [H|[H|H]]; subst e; cbn; split; auto; discriminate. Qed.

Lemma int_true_div_res : forall a b, rs_ok (fun _ => True) (lift (int_true_div a b)).
Proof.
  intros a b. unfold int_true_div.
  destruct a as [|pa|pa], b as [|pb|pb]; try exact I; try (apply raise_ok; auto);
    cbn [Z.abs];
    set (q := SFdiv _ _ _ _); clearbody q; destruct q; try exact I; apply raise_ok; auto.
Qed.

Lemma int_op_res : forall op a b,
  rs_ok (fun v => (op = ODiv /\ exists f, v = VFloat f) \/
                  (op <> ODiv /\ exists z, v = VInt z /\ (0 <= a -> 0 <= b -> op <> OSub -> 0 <= z)))
        (lift (int_op op a b)).
Proof.
  intros op a b. destruct op; cbn [int_op].
  - right. split; [discriminate|]. eexists; split; eauto. lia.
  - right. split; [discriminate|]. eexists; split; eauto. intros _ _ H. congruence.
  - right. split; [discriminate|]. eexists; split; eauto. intros. apply Z.mul_nonneg_nonneg; auto.
  - rewrite lift_bind. eapply rs_bind; [apply int_true_div_res|intros f _]. left. split; auto. eexists; eauto.
  - destruct (b =? 0) eqn:E; [apply raise_ok; auto|]. apply Z.eqb_neq in E.
    right. split; [discriminate|]. eexists; split; eauto. intros. apply Z.div_pos; lia.
  - destruct (b =? 0) eqn:E; [apply raise_ok; auto|]. apply Z.eqb_neq in E.
    right. split; [discriminate|]. eexists; split; eauto. intros. apply Z.mod_pos_bound. lia.
  - destruct (b <? 0) eqn:E.
    + destruct (a =? 0); apply raise_ok; auto.
    + right. split; [discriminate|]. eexists; split; eauto. intros. apply Z.pow_nonneg; auto.
Qed.

Lemma float_op_res : forall op a b, res_ok (lift (float_op op a b)) T_Float.
Proof.
  intros op a b. destruct op; cbn [float_op]; try reflexivity;
    try (destruct (f_is_zero b); [apply raise_ok; auto|]); try reflexivity; apply raise_ok; auto.
Qed.

Lemma int_to_float_res : forall z, rs_ok (fun _ => True) (lift (int_to_float z)).
Proof.
  intros z. unfold int_to_float. destruct (binary_normalize prec emax z 0 false); try exact I. apply raise_ok; auto.
Qed.

Lemma bin_int_int : forall op x y a b, as_num x = Some (NInt a) -> as_num y = Some (NInt b) -> bin_op op x y = int_op op a b.
Proof. intros. unfold bin_op. rewrite H, H0. reflexivity. Qed.

(* an int is a Float *)
Lemma bin_num_res : forall op x y n m, as_num x = Some n -> as_num y = Some m -> res_ok (lift (bin_op op x y)) T_Float.
Proof.
  intros op x y n m Hx Hy. unfold bin_op. rewrite Hx, Hy. destruct n as [a|a], m as [b|b].
  - eapply rs_ok_impl; [apply int_op_res|]. intros v [[_ [f ->]]|[_ [z [-> _]]]]; reflexivity.
  - rewrite lift_bind. eapply rs_bind; [apply int_to_float_res|intros fa _]. apply float_op_res.
  - rewrite lift_bind. eapply rs_bind; [apply int_to_float_res|intros fb _]. apply float_op_res.
  - apply float_op_res.
Qed.

Lemma arith_cond_sound : forall op a b r t v1 v2,
  arith_cond (arith_code op) a b r = true -> tag_ty r = Some t ->
  has_cls v1 a = true -> has_cls v2 b = true ->
  res_ok (lift (bin_op op v1 v2)) t.
Proof.
  intros op a b r t v1 v2 Hc Ht H1 H2. unfold arith_cond in Hc.
  destruct (int_like a && int_like b) eqn:Ei.
  - apply andb_true_iff in Ei. destruct Ei as [Ea Eb].
    destruct (cls_int _ _ Ea H1) as [z1 [N1 [_ P1]]]. destruct (cls_int _ _ Eb H2) as [z2 [N2 [_ P2]]].
    rewrite (bin_int_int op _ _ _ _ N1 N2).
    eapply rs_ok_impl; [apply int_op_res|intros v Hr].
    apply orb_true_iff in Hc. destruct Hc as [Hc|Hc]; [apply orb_true_iff in Hc; destruct Hc as [Hc|Hc]|].
    + apply Z.eqb_eq in Hc. subst r. inversion Ht; subst.
      destruct Hr as [[_ [f ->]]|[_ [z [-> _]]]]; reflexivity.
    + apply andb_true_iff in Hc. destruct Hc as [Hr1 Ho]. apply Z.eqb_eq in Hr1. subst r. inversion Ht; subst.
      destruct Hr as [[-> _]|[_ [z [-> _]]]]; [cbn in Ho; discriminate|reflexivity].
    + repeat (apply andb_true_iff in Hc; destruct Hc as [Hc ?]).
      apply Z.eqb_eq in Hc. subst r. inversion Ht; subst.
      destruct Hr as [[-> _]|[_ [z [-> Hz]]]]; [cbn in *; discriminate|].
      cbn. apply Z.leb_le. apply Hz; auto. intros ->. cbn in *. discriminate.
  - destruct (num_cls a && num_cls b) eqn:En.
    + apply Z.eqb_eq in Hc. subst r. inversion Ht; subst.
      apply andb_true_iff in En. destruct En as [Ea Eb].
      destruct (cls_num _ _ Ea H1) as [n N1]. destruct (cls_num _ _ Eb H2) as [m N2].
      exact (bin_num_res op v1 v2 n m N1 N2).
    + apply andb_true_iff in Hc. destruct Hc as [Hr Hc]. apply Z.eqb_eq in Hr. subst r. inversion Ht; subst.
      destruct a, b; try discriminate Hc.
      all: cbn in H1; destruct v1; try discriminate H1; cbn in H2; destruct v2; try discriminate H2.
      all: destruct op; try discriminate Hc; cbn; auto.
Qed.

Lemma cmp_num_res : forall op x y n m, as_num x = Some n -> as_num y = Some m -> exists b, cmp_op op x y = Ok (VBool b).
Proof. intros op x y n m Hx Hy. unfold cmp_op. rewrite Hx, Hy. destruct n, m; eauto. Qed.

Lemma cmp_cond_sound : forall op a b r t v1 v2,
  is_scalar a = true -> is_scalar b = true ->
  cmp_cond (cmp_code op) a b r = true -> tag_ty r = Some t ->
  has_cls v1 a = true -> has_cls v2 b = true ->
  res_ok (lift (cmp_op op v1 v2)) t.
Proof.
  intros op a b r t v1 v2 Sa Sb Hc Ht H1 H2. unfold cmp_cond in Hc.
  apply andb_true_iff in Hc. destruct Hc as [Hr Hc]. apply Z.eqb_eq in Hr. subst r. inversion Ht; subst.
  destruct (num_cls a && num_cls b) eqn:En.
  - apply andb_true_iff in En. destruct En as [Ea Eb].
    destruct (cls_num _ _ Ea H1) as [n N1]. destruct (cls_num _ _ Eb H2) as [m N2].
    destruct (cmp_num_res op v1 v2 n m N1 N2) as [bb ->]. reflexivity.
  - cbn [orb] in Hc.
    destruct a; try discriminate Sa; cbn in H1; destruct v1; try discriminate H1.
    all: destruct b; try discriminate Sb; try discriminate En; cbn in H2; destruct v2; try discriminate H2.
    all: destruct op; try discriminate Hc; cbn; auto.
Qed.

Lemma binop_res_sound : forall op ca cb t v1 v2,
  binop_res true (arith_code op) ca cb = Some t ->
  has_cls v1 ca = true -> has_cls v2 cb = true ->
  res_ok (lift (bin_op op v1 v2)) t.
Proof.
  intros op ca cb t v1 v2 H H1 H2. unfold binop_res in H.
  destruct (is_scalar ca && is_scalar cb && pow_ok true (arith_code op) ca cb) eqn:E; try discriminate.
  destruct (lookup4 sig_binop (arith_code op) (cls_tag ca) (cls_tag cb)) as [r|] eqn:L; try discriminate.
  apply bin_row in L. unfold bin_cond in L. rewrite E in L.
  assert (Ho : (arith_code op <=? 6) = true) by (destruct op; reflexivity).
  rewrite Ho in L. eapply arith_cond_sound; eauto.
Qed.

Lemma len_add_ok : forall {A} n m (l1 l2 : list A), len_ok n l1 = true -> len_ok m l2 = true -> len_ok (len_add n m) (l1 ++ l2) = true.
Proof.
  intros A n m l1 l2 H1 H2. destruct n as [a|], m as [b|]; cbn in *; auto.
  apply Z.eqb_eq in H1. apply Z.eqb_eq in H2. apply Z.eqb_eq. rewrite app_length, Nat2Z.inj_add. lia.
Qed.

Lemma app_has_ty : forall ta tb tj n m l1 l2, join_ty ta tb = Some tj ->
  has_ty (VList l1) (T_List ta n) = true -> has_ty (VList l2) (T_List tb m) = true ->
  has_ty (VList (l1 ++ l2)) (T_List tj (len_add n m)) = true.
Proof.
  intros ta tb tj n m l1 l2 J H1 H2. cbn [has_ty] in *.
  apply andb_true_iff in H1. destruct H1 as [F1 L1]. apply andb_true_iff in H2. destruct H2 as [F2 L2].
  rewrite forallb_app, (len_add_ok _ _ _ _ L1 L2). rewrite forallb_forall in F1, F2.
  repeat (apply andb_true_iff; split); auto; apply forallb_forall; intros x Hx; eapply join_sound; eauto.
Qed.

Lemma bin_sound : forall op ta tb t v1 v2,
  bin_ty true op ta tb = Some t -> has_ty v1 ta = true -> has_ty v2 tb = true ->
  res_ok (lift (bin_op op v1 v2)) t.
Proof.
  intros op ta tb t v1 v2 H H1 H2. unfold bin_ty in H.
  assert (Hgen : match class_of ta, class_of tb with
                 | Some ca, Some cb => binop_res true (arith_code op) ca cb
                 | _, _ => None end = Some t -> res_ok (lift (bin_op op v1 v2)) t).
  { intros Hc. destruct (class_of ta) as [ca|] eqn:Ea; try discriminate.
    destruct (class_of tb) as [cb|] eqn:Eb; try discriminate.
    exact (binop_res_sound _ _ _ _ _ _ Hc (class_sound _ _ _ Ea H1) (class_sound _ _ _ Eb H2)). }
  destruct ta; auto. destruct tb; auto.
  destruct op; try discriminate.
  destruct (is_some (lookup4 sig_binop 0 9 9)); try discriminate.
  destruct (join_ty ta tb) as [tj|] eqn:J; try discriminate. inversion H; subst.
  destruct v1; try discriminate. destruct v2; try discriminate. exact (app_has_ty _ _ _ _ _ _ _ J H1 H2).
Qed.

Lemma cmp_sound : forall op ta tb t v1 v2,
  cmp_ty op ta tb = Some t -> has_ty v1 ta = true -> has_ty v2 tb = true ->
  res_ok (lift (cmp_op op v1 v2)) t.
Proof.
  intros op ta tb t v1 v2 H H1 H2. unfold cmp_ty in H.
  destruct (class_of ta) as [ca|] eqn:Ea; try discriminate.
  destruct (class_of tb) as [cb|] eqn:Eb; try discriminate.
  destruct (is_scalar ca && is_scalar cb) eqn:E; try discriminate.
  destruct (lookup4 sig_binop (cmp_code op) (cls_tag ca) (cls_tag cb)) as [r|] eqn:L; try discriminate.
  apply bin_row in L. unfold bin_cond in L.
  assert (Hp : pow_ok true (cmp_code op) ca cb = true) by (destruct op; reflexivity).
  assert (Ho : (cmp_code op <=? 6) = false) by (destruct op; reflexivity).
  rewrite E, Hp, Ho in L. cbn [andb] in L.
  apply andb_true_iff in E. destruct E as [Sa Sb].
  apply (cmp_cond_sound op ca cb r t v1 v2 Sa Sb L H); eapply class_sound; eauto.
Qed.

Lemma sign_sound : forall o ta t v (f g : Z -> Z),
  match class_of ta with
  | Some c => if is_scalar c then match lookup3 sig_unop o (cls_tag c) with Some r => tag_ty r | None => None end else None
  | None => None
  end = Some t ->
  has_ty v ta = true ->
  res_ok (lift (match as_num v with
                | Some (NInt z) => Ok (VInt (f z)) | Some (NFloat b) => Ok (VFloat (g b)) | None => Raise TypeError
                end)) t.
Proof.
  intros o ta t v f g H Hv.
  destruct (class_of ta) as [c|] eqn:Ec; try discriminate.
  destruct (is_scalar c) eqn:Sc; try discriminate.
  destruct (lookup3 sig_unop o (cls_tag c)) as [r|] eqn:L; try discriminate.
  apply (row3 _ _ _ _ _ un_table_ok) in L. unfold un_cond in L. rewrite Sc in L.
  pose proof (class_sound _ _ _ Ec Hv) as Hc.
  destruct (int_like c) eqn:Ei.
  - destruct (cls_int _ _ Ei Hc) as [z [N _]]. rewrite N.
    apply orb_true_iff in L. destruct L as [L|L]; apply Z.eqb_eq in L; subst r; inversion H; reflexivity.
  - destruct c; try discriminate. apply Z.eqb_eq in L. subst r. inversion H; subst.
    cbn in Hc. destruct v; try discriminate; cbn; auto.
Qed.

Lemma un_sound : forall op ta t v,
  un_ty op ta = Some t -> has_ty v ta = true -> res_ok (lift (un_op op v)) t.
Proof.
  intros op ta t v H Hv. destruct op; cbn [un_ty] in H.
  - exact (sign_sound 0 ta t v Z.opp f_neg H Hv).
  - exact (sign_sound 1 ta t v (fun z => z) (fun b => b) H Hv).
  - destruct (sub ta T_Bool); try discriminate. inversion H; subst. reflexivity.
  - destruct (class_of ta) as [c|] eqn:Ec; try discriminate.
    destruct (int_like c) eqn:Ei; try discriminate. inversion H; subst.
    pose proof (class_sound _ _ _ Ec Hv) as Hc.
    destruct (cls_int _ _ Ei Hc) as [z [_ [N _]]]. cbn [un_op]. rewrite N. reflexivity.
Qed.

Lemma get_item_spec : forall {A} (l : list A) z,
  match get_item l z with
  | Ok x => In x l
  | Raise e => e = IndexError /\ ~ 0 <= z < Z.of_nat (length l)
  | OutOfFuel => False
  end.
Proof.
  intros A l z. unfold get_item.
  destruct (_ || _) eqn:E.
  - split; [reflexivity|]. intros H. destruct (z <? 0) eqn:N; lia.
  - destruct (nth_error l _) eqn:G; [eapply nth_error_In; eauto|].
    apply nth_error_None in G. destruct (z <? 0) eqn:N; lia.
Qed.

Lemma get_item_fuel : forall {A} (l : list A) z, get_item l z <> OutOfFuel.
Proof. intros A l z H. pose proof (get_item_spec l z) as S. rewrite H in S. exact S. Qed.

Lemma get_item_in_range : forall {A} (l : list A) k, 0 <= k < Z.of_nat (length l) -> exists x, get_item l k = Ok x.
Proof.
  intros A l k H. pose proof (get_item_spec l k) as S. destruct (get_item l k); [eauto|destruct S; contradiction|destruct S].
Qed.

Lemma index_sound : forall ta t va k,
  index_ty ta (XLit (LNat k)) = Some t -> has_ty va ta = true -> res_ok (lift (index_op va (VInt k))) t.
Proof.
  intros ta t va k H Hv. cbn [index_ty] in H. unfold index_op. cbn [as_int].
  assert (Hstr : (if (0 <=? k) && sub ta T_Str then Some T_Str else None) = Some t ->
                 res_ok (lift (match va with
                               | VList l | VTuple l => get_item l k
                               | VStr s => bind (get_item s k) (fun c => Ok (VStr [c]))
                               | _ => Raise TypeError end)) t).
  { intros Hs. destruct ((0 <=? k) && sub ta T_Str) eqn:E; try discriminate. inversion Hs; subst.
    apply andb_true_iff in E. destruct E as [_ E]. pose proof (sub_sound _ _ _ E Hv) as Hs'.
    cbn in Hs'. destruct va; try discriminate.
    pose proof (get_item_spec s k) as G. destruct (get_item s k); cbn; auto.
    destruct G as [-> _]. split; auto; discriminate. }
  destruct ta; auto.
  destruct (idx_ok n k) eqn:E; try discriminate. inversion H; subst.
  cbn [has_ty] in Hv. destruct va; try discriminate.
  apply andb_true_iff in Hv. destruct Hv as [F _].
  pose proof (get_item_spec vs k) as G. destruct (get_item vs k); cbn; auto.
  - rewrite forallb_forall in F. apply F, G.
  - destruct G as [-> _]. split; auto; discriminate.
Qed.

Lemma popc_pos : forall p, 0 < popc p.
Proof. induction p; cbn [popc]; lia. Qed.
Lemma popcount_nonneg : forall z, 0 <= popcount z.
Proof. destruct z; cbn; try lia; pose proof (popc_pos p); lia. Qed.

Lemma sum_ints_sound : forall c l, int_like c = true -> (forall x, In x l -> has_cls x c = true) ->
  exists z, sum_ints l = Some z /\ (nat_like c = true -> 0 <= z).
Proof.
  intros c l Hc. induction l as [|x r IH]; intros H; cbn [sum_ints]; [exists 0; split; [auto|lia]|].
  destruct IH as [z [Hz Pz]]; [intros y Hy; apply H; right; auto|].
  destruct (cls_int c x Hc (H x (or_introl eq_refl))) as [a [_ [N P]]]. rewrite N, Hz. eexists; split; eauto.
  intros Hn. specialize (P Hn). specialize (Pz Hn). lia.
Qed.

Definition int_meth (k : mkind) : option (Z -> Z) :=
  match k with
  | KSucc => Some (fun z => z + 1) | KPred => Some (fun z => z - 1) | KBitCount => Some popcount
  | KAbs | KAbsF => Some Z.abs
  | _ => None
  end.

Lemma meth_op_int : forall m k f vr z, meth_kind m = Some k -> int_meth k = Some f ->
  as_num vr = Some (NInt z) -> as_int vr = Some z -> meth_op m vr [] = R_ok (VInt (f z)).
Proof.
  intros m k f vr z Hk Hf N I. unfold meth_op. rewrite Hk.
  destruct k; inversion Hf; subst f; unfold int_method, abs_op; rewrite ?N, ?I; reflexivity.
Qed.

(* bit_count and abs, which may be declared Nat, are never negative *)
Lemma int_meth_res : forall k f c r t z, int_meth k = Some f -> int_like c = true ->
  meth_cond (kind_sig_id k) c r = true -> tag_ty r = Some t -> has_ty (VInt (f z)) t = true.
Proof.
  intros k f c r t z Hf Ei L Ht. unfold meth_cond in L. rewrite Ei in L.
  destruct k; inversion Hf; subst f; cbn in L;
    repeat (apply orb_true_iff in L; destruct L as [L|L]); apply Z.eqb_eq in L; subst r; inversion Ht; subst t;
    try reflexivity; apply Z.leb_le; auto using popcount_nonneg, Z.abs_nonneg.
Qed.

Lemma meth_sound : forall m tr ts t vr vs,
  meth_ty m tr ts = Some t -> has_ty vr tr = true -> Forall2 (fun v t => has_ty v t = true) vs ts ->
  res_ok (meth_op m vr vs) t.
Proof.
  intros m tr ts t vr vs H Hr Ha. unfold meth_ty in H.
  destruct (meth_kind m) as [k|] eqn:Ek; try discriminate.
  destruct (int_meth k) as [f|] eqn:Ef.
  - assert (Hi : match ts, class_of tr with
                 | [], Some c =>
                   if int_like c then
                     match lookup3 sig_method (kind_sig_id k) (cls_tag c) with Some r => tag_ty r | None => None end
                   else None
                 | _, _ => None
                 end = Some t) by (destruct k; try discriminate Ef; exact H).
    destruct ts; try discriminate. inversion Ha; subst.
    destruct (class_of tr) as [c|] eqn:Ec; try discriminate.
    destruct (int_like c) eqn:Ei; try discriminate.
    destruct (lookup3 sig_method (kind_sig_id k) (cls_tag c)) as [r|] eqn:L; try discriminate.
    apply (row3 _ _ _ _ _ meth_table_ok) in L.
    destruct (cls_int _ _ Ei (class_sound _ _ _ Ec Hr)) as [z [N [I _]]].
    rewrite (meth_op_int _ _ _ _ _ Ek Ef N I). exact (int_meth_res _ _ _ _ _ _ Ef Ei L Hi).
  - unfold meth_op. rewrite Ek. destruct k; try discriminate Ef.
    + destruct ts; try discriminate. inversion Ha; subst.
      assert (Hs : (if sub tr T_Str then Some T_Nat else None) = Some t -> res_ok (lift (len_op vr)) t).
      { intros Hs. destruct (sub tr T_Str) eqn:E; try discriminate. inversion Hs; subst.
        pose proof (sub_sound _ _ _ E Hr) as Hv. cbn in Hv. destruct vr; try discriminate. cbn. apply Z.leb_le. lia. }
      destruct tr; auto. inversion H; subst. cbn in Hr. destruct vr; try discriminate. cbn. apply Z.leb_le. lia.
    + destruct ts as [|te [|? ?]]; try discriminate. destruct tr; try discriminate.
      destruct (is_some (lookup3 sig_method M_push 9)); try discriminate.
      destruct (join_ty tr te) as [tj|] eqn:J; try discriminate. inversion H; subst.
      inversion Ha as [|v ? vr' ? Hv Hrest]; subst. inversion Hrest; subst.
      destruct vr as [z|b0|fb|s0| |lr|tl|c1 c2 c3 c4]; try discriminate.
      apply (app_has_ty _ _ _ _ (Some 1) _ [v] J Hr). cbn. rewrite Hv. reflexivity.
    + destruct ts; try discriminate. destruct tr; try discriminate.
      destruct (is_some (lookup3 sig_method M_sum 9)); try discriminate.
      destruct (class_of tr) as [c|] eqn:Ec; try discriminate.
      inversion Ha; subst. cbn [has_ty] in Hr. destruct vr as [z|b0|fb|s0| |lr|tl|c1 c2 c3 c4]; try discriminate.
      apply andb_true_iff in Hr. destruct Hr as [F _]. rewrite forallb_forall in F.
      assert (Ei : int_like c = true) by (destruct c; try reflexivity; discriminate H).
      destruct (sum_ints_sound c lr Ei) as [z [-> P]]; [intros x Hx; exact (class_sound _ _ _ Ec (F _ Hx))|].
      destruct (nat_like c).
      * inversion H; subst. cbn. apply Z.leb_le. auto.
      * rewrite Ei in H. inversion H; subst. reflexivity.
Qed.

Lemma wrap_ok : forall t v, has_ty v t = true -> wrapv (Some t) v = R_ok v.
Proof.
  intros t v H. unfold wrapv. destruct (class_of t) as [c|] eqn:E; auto.
  destruct c; auto. pose proof (class_sound _ _ _ E H) as Hc. change (has_ty v T_Nat = true) in Hc. rewrite Hc. reflexivity.
Qed.
