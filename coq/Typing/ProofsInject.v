(** An ill-typed node makes the whole program ill-typed, wherever it sits (C05); after the section, the facts behind four of
    the five shapes (a fresh name is unbound, None is no operand class, [check_args] fails on too many, too few or mismatching
    arguments); the attribute shape needs none and is proved in Props_C05.v. *)
From Coq Require Import ZArith List Bool Lia.
From ErgV Require Import gen.Sigs Typing.Types Typing.Check Typing.Inject Typing.ProofsBasic
     Typing.ProofsOps.
Import ListNotations.
Open Scope Z_scope.

Lemma option_map_some : forall {A B} (f : A -> B) o y, option_map f o = Some y -> exists x, o = Some x /\ y = f x.
Proof. intros A B f [x|] y H; [inversion H; eauto|discriminate]. Qed.

Section Inj.
  Variable strict : bool.

  Lemma mut_ill : forall FS G m e e', mut strict FS G m e = Some e' -> infer strict FS G e' = None.
  Proof.
    intros FS G m e e' H. unfold mut in H. destruct (candidate FS G m e) as [c|]; try discriminate.
    destruct (infer strict FS G c) eqn:E; cbn [is_some] in H; try discriminate. inversion H; subst. exact E.
  Qed.

  Lemma inj_nth_ill : forall FS G (f : tm -> option tm) k es es',
    (forall e e', f e = Some e' -> infer strict FS G e' = None) ->
    inj_nth k f es = Some es' -> infers strict FS G es' = None.
  Proof.
    intros FS G f k es. revert k. induction es as [|x r IH]; intros k es' Hf H; destruct k as [|k']; cbn [inj_nth] in H; try discriminate.
    - apply option_map_some in H. destruct H as [y [E ->]]. cbn [infers]. rewrite (Hf _ _ E). reflexivity.
    - apply option_map_some in H. destruct H as [r' [E ->]]. cbn [infers].
      rewrite (IH _ _ Hf E). destruct (infer strict FS G x); reflexivity.
  Qed.

  Lemma inj_tm_kids : forall FS G m k r e e', inj_tm strict FS G m (k :: r) e = Some e' ->
    inj_nth k (inj_tm strict FS G m r) (kids e) = Some (kids e').
  Proof.
    intros FS G m k r e e' H. cbn [inj_tm] in H. destruct e; try discriminate; cbn [kids].
    (* nodes of fixed arity, then the two with a list of sub-expressions, then the method call *)
    1-4, 6-7: destruct k as [|[|[|k]]]; try discriminate; cbn [inj_nth];
              destruct (inj_tm strict FS G m r _); try discriminate; inversion H; reflexivity.
    1-2: destruct (inj_nth k _ _); try discriminate; inversion H; reflexivity.
    destruct k; cbn [inj_nth].
    - destruct (inj_tm strict FS G m r e); try discriminate. inversion H. reflexivity.
    - destruct (inj_nth k _ args); try discriminate. inversion H. reflexivity.
  Qed.

  Lemma inj_tm_ill : forall FS G m pos e e', inj_tm strict FS G m pos e = Some e' -> infer strict FS G e' = None.
  Proof.
    intros FS G m. induction pos as [|k r IH]; intros e e' H.
    - eapply mut_ill; eauto.
    - (* the checker types every sub-expression before it combines them *)
      rewrite infer_node, (inj_nth_ill _ _ _ _ _ _ IH (inj_tm_kids _ _ _ _ _ _ _ H)). reflexivity.
  Qed.

  Lemma inj_default_ill : forall FS G (f : tm -> option tm) j ps ps',
    (forall e e', f e = Some e' -> infer strict FS G e' = None) ->
    inj_default j f ps = Some ps' -> check_defaults strict FS G ps' = false.
  Proof.
    intros FS G f j ps. revert j. induction ps as [|[[x t] d] r IH]; intros j ps' Hf H; destruct j as [|j']; cbn [inj_default] in H; try discriminate.
    - destruct d as [d|]; try discriminate. apply option_map_some in H. destruct H as [d' [E ->]].
      cbn [check_defaults]. rewrite (Hf _ _ E). reflexivity.
    - assert (H' : option_map (cons (x, t, d)) (inj_default j' f r) = Some ps') by (destruct d; exact H).
      apply option_map_some in H'. destruct H' as [r' [E ->]].
      cbn [check_defaults]. rewrite (IH _ _ Hf E). destruct d as [d|]; auto.
      destruct (infer strict FS G d); auto. apply andb_false_r.
  Qed.

  Lemma inj_local_ill : forall FS (f : tenv -> tm -> option tm) ls j G ls',
    (forall G e e', f G e = Some e' -> infer strict FS G e' = None) ->
    inj_local strict FS j f G ls = Some ls' -> check_locals strict FS G ls' = None.
  Proof.
    intros FS f. induction ls as [|[x e] r IH]; intros j G ls' Hf H; destruct j as [|j']; cbn [inj_local] in H; try discriminate.
    - apply option_map_some in H. destruct H as [e' [E ->]]. cbn [check_locals]. rewrite (Hf _ _ _ E). reflexivity.
    - destruct (infer strict FS G e) as [t|] eqn:Ei; try discriminate.
      apply option_map_some in H. destruct H as [r' [E ->]]. cbn [check_locals]. rewrite Ei. eapply IH; eauto.
  Qed.

  Lemma inj_at_ill : forall (f : cenv -> st -> option st) ss k c ss',
    Forall (fun s => forall c s', f c s = Some s' -> check_st strict c s' = None) ss ->
    inj_at strict k f c ss = Some ss' -> check_block strict c ss' = None.
  Proof.
    intros f ss k c ss' Hf. revert k c ss'.
    induction Hf as [|s r Hs _ IH]; intros k c ss' H; destruct k as [|k']; cbn [inj_at] in H; try discriminate.
    - apply option_map_some in H. destruct H as [s' [E ->]]. cbn [check_block]. rewrite (Hs _ _ E). reflexivity.
    - destruct (check_st strict c s) as [c'|] eqn:Ec; try discriminate.
      apply option_map_some in H. destruct H as [r' [E ->]]. cbn [check_block]. rewrite Ec. eapply IH; eauto.
  Qed.

  Definition st_ill (m : mutation) (s : st) : Prop :=
    forall pos c s', inj_st strict m pos c s = Some s' -> check_st strict c s' = None.

  Lemma inj_block_ill : forall m ss, Forall (st_ill m) ss ->
    forall r k c ss', inj_at strict k (inj_st strict m r) c ss = Some ss' -> is_some (check_block strict c ss') = false.
  Proof.
    intros m ss Hss r k c ss' H.
    rewrite (inj_at_ill _ _ _ _ _ (Forall_impl _ (fun s (Hs : st_ill m s) => Hs r) Hss) H). reflexivity.
  Qed.

  Lemma inj_st_ill : forall m s, st_ill m s.
  Proof.
    intros m. induction s as [x ann e|es|e|f lam ps ret locals res|cnd th el Hth Hel|x it body Hbody] using st_ind';
      intros pos [FS G] s' H.
    - assert (H' : option_map (TDef x ann) (inj_tm strict FS G m pos e) = Some s') by (destruct pos; exact H).
      apply option_map_some in H'. destruct H' as [e' [E ->]].
      cbn [check_st fst snd]. rewrite (inj_tm_ill _ _ _ _ _ _ E). reflexivity.
    - destruct pos as [|k r]; cbn [inj_st fst snd] in H; try discriminate.
      apply option_map_some in H. destruct H as [es' [E ->]].
      cbn [check_st fst snd]. rewrite (inj_nth_ill FS G _ _ _ _ (inj_tm_ill FS G m r) E). reflexivity.
    - assert (H' : option_map TAssert (inj_tm strict FS G m pos e) = Some s') by (destruct pos; exact H).
      apply option_map_some in H'. destruct H' as [e' [E ->]].
      cbn [check_st fst snd]. rewrite (inj_tm_ill _ _ _ _ _ _ E). reflexivity.
    - (* function: a default, a local definition, the result *)
      destruct pos as [|[|[|[|?]]] r]; cbn [inj_st fst snd] in H; try discriminate.
      + destruct r as [|j r]; try discriminate. apply option_map_some in H. destruct H as [ps' [E ->]].
        cbn [check_st fst snd]. unfold fun_ret.
        rewrite (inj_default_ill FS G _ _ _ _ (inj_tm_ill FS G m r) E). reflexivity.
      + destruct r as [|j r]; try discriminate. apply option_map_some in H. destruct H as [ls' [E ->]].
        cbn [check_st fst snd]. unfold fun_ret.
        rewrite (inj_local_ill FS _ _ _ _ _ (fun G' => inj_tm_ill FS G' m r) E).
        destruct (check_defaults strict FS G ps); reflexivity.
      + destruct (check_locals strict FS (param_tys ps ++ G) locals) as [Gb|] eqn:El; try discriminate.
        apply option_map_some in H. destruct H as [res' [E ->]].
        cbn [check_st fst snd]. unfold fun_ret. rewrite El, (inj_tm_ill _ _ _ _ _ _ E).
        destruct (check_defaults strict FS G ps); reflexivity.
    - (* if!: the condition, a statement of either block *)
      destruct pos as [|[|[|[|?]]] r]; cbn [inj_st fst snd] in H; try discriminate.
      + apply option_map_some in H. destruct H as [c' [E ->]].
        rewrite check_st_TIf. cbn [fst snd]. rewrite (inj_tm_ill _ _ _ _ _ _ E). reflexivity.
      + destruct r as [|k r]; try discriminate. apply option_map_some in H. destruct H as [th' [E ->]].
        rewrite check_st_TIf, (inj_block_ill m th Hth _ _ _ _ E).
        destruct (infer strict _ _ cnd); [rewrite andb_false_r|]; reflexivity.
      + destruct r as [|k r]; try discriminate. apply option_map_some in H. destruct H as [el' [E ->]].
        rewrite check_st_TIf, (inj_block_ill m el Hel _ _ _ _ E).
        destruct (infer strict _ _ cnd); [rewrite andb_false_r|]; reflexivity.
    - (* for!: the iterable, a statement of the body *)
      destruct pos as [|[|[|?]] r]; cbn [inj_st fst snd] in H; try discriminate.
      + apply option_map_some in H. destruct H as [it' [E ->]].
        rewrite check_st_TFor. cbn [fst snd]. rewrite (inj_tm_ill _ _ _ _ _ _ E). reflexivity.
      + destruct r as [|k r]; try discriminate.
        destruct (infer strict FS G it) as [ti|] eqn:Ei; try discriminate.
        destruct ti as [| | | | | | | |t n]; try discriminate.
        apply option_map_some in H. destruct H as [b' [E ->]].
        rewrite check_st_TFor. cbn [fst snd]. rewrite Ei, (inj_block_ill m body Hbody _ _ _ _ E). reflexivity.
  Qed.

  Lemma inject_ill : forall p pos m p', inject strict p pos m = Some p' -> check_prog strict p' = None.
  Proof.
    intros p pos m p' H. unfold inject in H. destruct pos as [|k r]; try discriminate.
    refine (inj_at_ill _ _ _ _ _ _ H). apply Forall_forall. intros s _ c s'. apply inj_st_ill.
  Qed.
End Inj.

Lemma lookup_above_max : forall {A} (g : list (Z * A)) x, max_key g < x -> lookup_t x g = None.
Proof.
  induction g as [|[y t] r IH]; intros x H; cbn [lookup_t]; auto.
  cbn [max_key fold_right fst] in H. fold (max_key r) in H.
  assert (E : (x =? y) = false) by (apply Z.eqb_neq; lia). rewrite E. apply IH. lia.
Qed.

Lemma fresh_var : forall FS G, lookup_t (fresh_id FS G) G = None.
Proof. intros. apply lookup_above_max. unfold fresh_id. lia. Qed.
Lemma fresh_fun : forall FS G, lookup_t (fresh_id FS G) FS = None.
Proof. intros. apply lookup_above_max. unfold fresh_id. lia. Qed.

(* None is not an operand class of any declared binary operator *)
Lemma binop_none_rows :
  forallb (fun row => match row with (_, a, b, _) => negb (a =? 16) && negb (b =? 16) end) sig_binop = true.
Proof. vm_compute. reflexivity. Qed.

Lemma binop_res_none : forall strict o c, binop_res strict o CNone c = None /\ binop_res strict o c CNone = None.
Proof.
  intros strict o c. unfold binop_res.
  split.
  - destruct (lookup4 sig_binop o (cls_tag CNone) (cls_tag c)) as [r|] eqn:L.
    + apply (lookup4_forallb _ _ _ _ _ _ binop_none_rows) in L. discriminate L.
    + destruct (_ && _); reflexivity.
  - destruct (lookup4 sig_binop o (cls_tag c) (cls_tag CNone)) as [r|] eqn:L.
    + apply (lookup4_forallb _ _ _ _ _ _ binop_none_rows) in L. rewrite andb_false_r in L. discriminate L.
    + destruct (_ && _); reflexivity.
Qed.

Lemma check_args_too_many : forall ps ts, (length ps < length ts)%nat -> check_args ps ts = false.
Proof.
  induction ps as [|[p d] r IH]; intros ts H; destruct ts as [|t tr]; cbn in *; try lia.
  rewrite IH by lia. apply andb_false_r.
Qed.

Lemma check_args_too_few : forall ps ts p, nth_error ps (length ts) = Some (p, false) -> check_args ps ts = false.
Proof.
  induction ps as [|[q d] r IH]; intros ts p H; destruct ts as [|t tr]; cbn in *; try discriminate.
  - inversion H; subst. reflexivity.
  - rewrite (IH _ _ H). apply andb_false_r.
Qed.

Lemma check_args_mismatch : forall ps ts k p d t, nth_error ps k = Some (p, d) -> nth_error ts k = Some t -> sub t p = false ->
  check_args ps ts = false.
Proof.
  induction ps as [|[q dq] r IH]; intros ts k p d t Hp Ht Hs; destruct k; cbn in Hp; try discriminate;
    destruct ts as [|t0 tr]; cbn in Ht; try discriminate; cbn [check_args].
  - inversion Hp; inversion Ht; subst. rewrite Hs. reflexivity.
  - rewrite (IH _ _ _ _ _ Hp Ht Hs). apply andb_false_r.
Qed.
