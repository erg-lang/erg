(** C02 — type-checked programs do not fail with run-time type errors.

    Model: checker Typing/Check.v, run-time semantics Typing/Eval.v (operators of CoreErg/Sem.v + the Nat wrapper that
    codegen.rs puts around every typed operator/method/call result + user functions + builtin methods).  [run_prog
    false] is the model of erg as it is: acceptance and wrapper annotations with the operator table as declared.
    [type_error e]: e is TypeError, AttributeError, NameError or the wrapper's ValueError ("Nat can't be negative").
    The legitimate errors (ZeroDivisionError, IndexError, AssertionError, OverflowError of int->float) stay possible;
    [EUnmodelled] marks the operations CoreErg/Sem.v does not model (float // % **, negative exponent).

    The declared operator table gen/Sigs.v is consulted as it is when [strict = false]; with it the statement is FALSE
    (theorem [pow_declared_nat_refuted]: the compiler declares Int ** Int : Nat) — finding K_pow of known/C26.json,
    recorded for this property in known/C02.json.  [Known_C02 p] (Typing/Spec.v) is that class ([known_pow]: p is
    accepted with the declared table and rejected once `**` is restricted to non-negative operands) together with
    [known_ifarith] (arithmetic whose left operand is if-valued: erg types `if(a > b, (do: a), (do: b)) - 300` as Nat;
    a deviation of erg's inference from the rules modelled here, so it has no witness inside the model: its witness is
    replayed against erg by checks/c02.py).
    PARTIAL: fragment of Typing/Check.v (no classes, traits, generics, mutable objects, while!, keyword arguments,
    pattern definitions, procedures); erg is tied program by program (checks/c02.py). *)
From Coq Require Import ZArith List Bool.
From ErgV Require Import CoreErg.Syntax CoreErg.Sem Typing.Types Typing.Check Typing.Eval Typing.Spec Typing.ProofsTypes
     Typing.ProofsOps Typing.ProofsBasic Typing.ProofsSound.
Import ListNotations.
Open Scope Z_scope.

(** 1. soundness, for every fuel: an accepted program outside the known class never ends in one of the four classes *)
Theorem type_soundness : forall p fuel,
  typecheck false p = true -> Known_C02 p = false ->
  match snd (run_prog false fuel p) with
  | Uncaught e => type_error e = false /\ e <> EStatic
  | _ => True
  end.
Proof.
  intros p fuel H K. unfold Known_C02 in K. apply orb_false_iff in K. destruct K as [K _].
  unfold known_pow in K. rewrite H in K. cbn in K. apply negb_false_iff in K.
  (* accepted by both gates: the run is the run of the program typed with the restricted table *)
  unfold run_prog. rewrite H. unfold typecheck in K.
  destruct (check_prog true p) as [c'|] eqn:Ec; [|discriminate].
  pose proof (run_block_sound fuel p c' Ec) as R.
  destruct (exec_block fuel p init_state); cbn [snd sres_ok] in *; auto.
Qed.

(* under the hypotheses the program is indeed run (the guard only removes the K_pow class) *)
Theorem accepted_is_run : forall p fuel,
  typecheck false p = true -> Known_C02 p = false -> snd (run_prog false fuel p) <> Rejected.
Proof.
  intros p fuel H K. unfold run_prog. rewrite H. destruct (exec_block fuel p init_state); cbn; discriminate.
Qed.

Definition ex_ok : prog :=
  [TFun 1 false [(2, T_Nat, None); (3, T_Int, Some (XLit (LNeg (-7))))] None [(4, XBin OSub (XVar 2) (XVar 3))]
        (XBin OMul (XVar 4) (XMeth M_absf (XVar 3) []));
   TDef 5 None (XCall 1 [XLit (LNat 2)]);
   TPrint [XVar 5; XBin ODiv (XVar 5) (XLit (LNat 0))]].
Example type_soundness_nonvacuous :
  typecheck false ex_ok = true /\ Known_C02 ex_ok = false /\ snd (run_prog false 5 ex_ok) = Uncaught EZeroDiv.
Proof. repeat split; vm_compute; reflexivity. Qed.

(** 2. preservation, the lemma behind it: every evaluated expression yields a value of its static type *)
Theorem preservation : forall callf FS G en e t,
  callf_ok FS callf -> env_ok G en -> infer true FS G e = Some t ->
  match eval callf FS G en e with
  | R_ok v => has_ty v t = true
  | R_err er => type_error er = false /\ er <> EStatic
  | R_fuel => True
  end.
Proof. intros callf FS G en e t Hc He Hi. exact (eval_sound callf FS Hc e G en t He Hi). Qed.

(** 3. the declared result classes of the arithmetic rows the strict checker consults, and of list `+`, are sound for
       the run-time operators (comparison, unary and method rows: ProofsOps.cmp_sound, un_sound, meth_sound) *)
Theorem operator_table_sound : forall op ta tb t v1 v2,
  bin_ty true op ta tb = Some t -> has_ty v1 ta = true -> has_ty v2 tb = true ->
  match bin_op op v1 v2 with
  | Ok v => has_ty v t = true
  | Raise e => type_error (of_exn e) = false
  | OutOfFuel => True
  end.
Proof.
  intros op ta tb t v1 v2 H H1 H2. pose proof (bin_sound op ta tb t v1 v2 H H1 H2) as R.
  destruct (bin_op op v1 v2); cbn in R; auto. destruct R; auto.
Qed.

(** 4. with the table as declared the statement is false: x = -2; y = x ** 3 is accepted and the wrapper raises *)
Definition ex_pow : prog := [TDef 1 None (XLit (LNeg (-2))); TDef 2 None (XBin OPow (XVar 1) (XLit (LNat 3))); TPrint [XVar 2]].
Theorem pow_declared_nat_refuted :
  exists p, typecheck false p = true /\ known_pow p = true /\ snd (run_prog false 1 p) = Uncaught EWrapValue.
Proof. exists ex_pow. repeat split; vm_compute; reflexivity. Qed.
