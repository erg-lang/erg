(** C34 — inferred types describe the values bindings hold at run time.

    [has_ty v t] (Typing/Types.v) is the membership test that checks/c34.py applies, extracted, to the type erg reports
    for every top-level binding and the value printed at run time.  The theorems say that the *reference* inference of
    Typing/Check.v is sound for it: singleton types of literals, enum types of if-expressions and list elements,
    class-level types of operators (declared table gen/Sigs.v, `**` restricted: see Props_C02), List(T, N) with
    push : N + 1 and + : N + M, and that an index accepted for a list of known length is in range.
    PARTIAL: the reference inference is not erg's (erg is tied binding by binding by the check); not modelled:
    interval arithmetic (erg does not infer interval types for the fragment: probed), map, refinement predicates. *)
From Coq Require Import ZArith List Bool Lia.
From ErgV Require Import CoreErg.Syntax CoreErg.Sem Typing.Types Typing.Check Typing.Eval Typing.Spec Typing.ProofsTypes
     Typing.ProofsOps Typing.ProofsBasic Typing.ProofsSound.
Import ListNotations.
Open Scope Z_scope.

(** 1. the value of a well-typed expression belongs to its inferred type *)
Theorem typing_value_sound : forall callf FS G en e t v,
  callf_ok FS callf -> env_ok G en -> infer true FS G e = Some t ->
  eval callf FS G en e = R_ok v -> has_ty v t = true.
Proof.
  intros callf FS G en e t v Hc He Hi Hv. pose proof (eval_sound callf FS Hc e G en t He Hi) as R.
  rewrite Hv in R. exact R.
Qed.

(** 2. every binding of an accepted program holds, at the end of the run, a value of the type inferred for it *)
Theorem bindings_sound : forall fuel p s FS G x t,
  check_prog true p = Some (FS, G) -> run_state true fuel p = Some s -> lookup_t x G = Some t ->
  exists v, lookup x (s_en s) = Some v /\ has_ty v t = true.
Proof.
  intros fuel p s FS G x t Hc Hr Hl. unfold run_state, typecheck in Hr. rewrite Hc in Hr. cbn [is_some] in Hr.
  pose proof (run_block_sound fuel p _ Hc) as R.
  destruct (exec_block fuel p init_state) as [s'| |]; try discriminate. inversion Hr; subst.
  destruct R as [[_ He] Heq]. inversion Heq; subst. exact (He x t Hl).
Qed.

Definition ex_bind : prog :=
  [TDef 1 None (XList [XLit (LNat 1); XLit (LNat 2); XLit (LNat 3)]);
   TDef 2 None (XMeth M_push (XVar 1) [XLit (LNat 4)]);
   TDef 3 None (XBin OAdd (XVar 2) (XList [XLit (LNat 5)]));
   TDef 4 None (XIndex (XVar 3) (XLit (LNat 4)));
   TDef 5 None (XIf (XCmp CLt (XVar 4) (XLit (LNat 3))) (XLit (LStr [97])) (XLit (LStr [98])))].
Example bindings_nonvacuous :
  exists FS G s, check_prog true ex_bind = Some (FS, G) /\ run_state true 1 ex_bind = Some s /\
    lookup_t 3 G = Some (T_List (T_Enum [VInt 1; VInt 2; VInt 3; VInt 4; VInt 5]) (Some 5)) /\
    lookup 3 (s_en s) = Some (VList [VInt 1; VInt 2; VInt 3; VInt 4; VInt 5]) /\
    lookup_t 5 G = Some (T_Enum [VStr [97]; VStr [98]]) /\ lookup 5 (s_en s) = Some (VStr [98]).
Proof.
  do 3 eexists. split; [vm_compute; reflexivity|]. split; [vm_compute; reflexivity|].
  repeat split; reflexivity.
Qed.

(** 3. singleton: a literal has the type {v} and only v belongs to it *)
Theorem singleton_literal : forall strict FS G l v,
  infer strict FS G (XLit l) = Some (T_Enum [lit_value l]) /\ (has_ty v (T_Enum [lit_value l]) = true -> v = lit_value l).
Proof.
  intros. split; [reflexivity|]. intros H. apply has_enum_in in H. destruct H as [H|[]]. auto.
Qed.

(** 4. length-indexed lists: push adds one, + adds the lengths; the run-time lists have those lengths *)
Theorem push_length : forall strict FS G r a tr n t,
  infer strict FS G r = Some (T_List tr (Some n)) -> infer strict FS G (XMeth M_push r [a]) = Some t ->
  exists t', t = T_List t' (Some (n + 1)).
Proof.
  intros strict FS G r a tr n t Hr H. rewrite infer_XMeth, Hr in H. cbn [infers] in H.
  destruct (infer strict FS G a) as [ta|]; try discriminate.
  unfold meth_ty in H. cbn in H.
  destruct (join_ty tr ta); try discriminate. inversion H. eauto.
Qed.

Theorem concat_length : forall strict FS G a b ta n tb m t,
  infer strict FS G a = Some (T_List ta (Some n)) -> infer strict FS G b = Some (T_List tb (Some m)) ->
  infer strict FS G (XBin OAdd a b) = Some t -> exists t', t = T_List t' (Some (n + m)).
Proof.
  intros strict FS G a b ta n tb m t Ha Hb H. cbn [infer] in H. rewrite Ha, Hb in H. cbn [bin_ty] in H.
  destruct (is_some _); try discriminate. destruct (join_ty ta tb); try discriminate. inversion H. eauto.
Qed.

Theorem list_length_sound : forall v t n, has_ty v (T_List t (Some n)) = true -> exists l, v = VList l /\ Z.of_nat (length l) = n.
Proof.
  intros v t n H. cbn [has_ty] in H. destruct v; try discriminate. apply andb_true_iff in H. destruct H as [_ H].
  cbn in H. apply Z.eqb_eq in H. eauto.
Qed.

(** 5. an index the checker accepts for a list of known length is in range at run time: once the list is evaluated the
       element access succeeds (no IndexError) *)
Theorem accepted_index_in_range : forall callf FS G en a k ta n t va,
  callf_ok FS callf -> env_ok G en ->
  infer true FS G a = Some (T_List ta (Some n)) -> infer true FS G (XIndex a (XLit (LNat k))) = Some t ->
  eval callf FS G en a = R_ok va ->
  exists x, eval callf FS G en (XIndex a (XLit (LNat k))) = R_ok x.
Proof.
  intros callf FS G en a k ta n t va Hc He Ha Hi Hv. cbn [infer] in Hi. rewrite Ha in Hi. cbn [index_ty] in Hi.
  destruct (idx_ok (Some n) k) eqn:Ek; try discriminate. unfold idx_ok in Ek.
  apply andb_true_iff in Ek. destruct Ek as [K0 K1]. apply Z.leb_le in K0. apply Z.ltb_lt in K1.
  cbn [eval]. pose proof (eval_sound callf FS Hc a G en _ He Ha) as R. rewrite Hv in R |- *. cbn [rbind res_ok] in *.
  destruct (list_length_sound _ _ _ R) as [l [-> Hl]].
  cbn [eval rbind lit_value index_op as_int]. destruct (get_item_in_range l k) as [x ->]; [lia|]. cbn. eauto.
Qed.
