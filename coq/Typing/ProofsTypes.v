(** * Typing.ProofsTypes — the denotation respects value equality, subtyping ([sub_sound]), the widening to a class
    ([class_of]: [class_sound], via [has_cls]) and joins ([join_sound]). *)
From Coq Require Import ZArith List Bool Lia.
From ErgV Require Import Common.Lists CoreErg.Syntax CoreErg.Sem Typing.Types.
Import ListNotations.
Open Scope Z_scope.

Section ValueInd.
  Variable P : value -> Prop.
  Hypothesis HInt : forall z, P (VInt z).
  Hypothesis HBool : forall b, P (VBool b).
  Hypothesis HFloat : forall b, P (VFloat b).
  Hypothesis HStr : forall s, P (VStr s).
  Hypothesis HNone : P VNone.
  Hypothesis HList : forall vs, Forall P vs -> P (VList vs).
  Hypothesis HTuple : forall vs, P (VTuple vs).
  Hypothesis HClos : forall a b c d, P (VClos a b c d).

  Fixpoint value_ind' (v : value) : P v :=
    match v with
    | VInt z => HInt z
    | VBool b => HBool b
    | VFloat b => HFloat b
    | VStr s => HStr s
    | VNone => HNone
    | VList vs =>
      HList vs (Forall_all value_ind' vs)
    | VTuple vs => HTuple vs
    | VClos a b c d => HClos a b c d
    end.
End ValueInd.

Lemma zs_eqb_eq : forall a b, zs_eqb a b = true -> a = b.
Proof. intros a b. apply Common.Lists.zs_eqb_eq. Qed.

Lemma zs_eqb_refl : forall a, zs_eqb a a = true.
Proof. exact Common.Lists.zs_eqb_refl. Qed.

Lemma veqb_list : forall xs ys, veqb (VList xs) (VList ys) = veqbs xs ys.
Proof.
  induction xs as [|x r IH]; destruct ys as [|y s]; reflexivity.
Qed.

Lemma veqb_eq : forall a b, veqb a b = true -> a = b.
Proof.
  induction a using value_ind'; intros b0 Hb; destruct b0; try (cbn in Hb; discriminate).
  - cbn in Hb. apply Z.eqb_eq in Hb. subst. reflexivity.
  - cbn in Hb. apply eqb_prop in Hb. subst. reflexivity.
  - cbn in Hb. apply Z.eqb_eq in Hb. subst. reflexivity.
  - cbn in Hb. apply zs_eqb_eq in Hb. subst. reflexivity.
  - reflexivity.
  - rewrite veqb_list in Hb. f_equal. revert vs0 Hb.
    induction H as [|x r Hx Hr IH]; intros ys Hb; destruct ys as [|y s]; cbn [veqbs] in Hb; try discriminate; auto.
    apply andb_true_iff in Hb. destruct Hb as [H1 H2]. f_equal; auto.
Qed.

Lemma has_ty_lit : forall l, has_ty (lit_value l) (T_Enum [lit_value l]) = true.
Proof.
  destruct l; cbn; rewrite ?Z.eqb_refl, ?zs_eqb_refl, ?eqb_reflx; reflexivity.
Qed.

Lemma has_enum_in : forall v vs, has_ty v (T_Enum vs) = true -> In v vs.
Proof.
  intros v vs H. cbn [has_ty] in H. apply existsb_exists in H. destruct H as [x [Hin He]].
  apply veqb_eq in He. subst. exact Hin.
Qed.

Lemma base_sub_sound : forall a b v, base_sub a b = true -> has_ty v a = true -> has_ty v b = true.
Proof.
  intros a b v Hs Hv.
  destruct a; cbn in Hs; try discriminate; destruct b; cbn in Hs; try discriminate; auto;
    destruct v; cbn in Hv |- *; try discriminate; auto.
Qed.

Lemma len_sub_sound : forall {A} n m (l : list A), len_sub n m = true -> len_ok n l = true -> len_ok m l = true.
Proof.
  intros A n m l Hs Hl. destruct m as [k|]; cbn in *; auto.
  destruct n as [j|]; try discriminate. cbn in Hl. apply Z.eqb_eq in Hs. subst. exact Hl.
Qed.

Lemma sub_sound : forall a b v, sub a b = true -> has_ty v a = true -> has_ty v b = true.
Proof.
  induction a as [| | | | | |vs|lo hi|ta IH n]; intros b v Hs Hv;
    try (apply (base_sub_sound _ _ _ Hs Hv)).
  - cbn [sub] in Hs. apply has_enum_in in Hv. rewrite forallb_forall in Hs. auto.
  - cbn [sub] in Hs. cbn [has_ty] in Hv. destruct v; try discriminate.
    apply andb_true_iff in Hv. destruct Hv as [H1 H2]. apply Z.leb_le in H1. apply Z.leb_le in H2.
    destruct b; try discriminate; cbn [has_ty]; auto.
    + apply Z.leb_le in Hs. apply Z.leb_le. lia.
    + apply andb_true_iff in Hs. destruct Hs as [H3 H4]. apply Z.leb_le in H3. apply Z.leb_le in H4.
      apply andb_true_iff. split; apply Z.leb_le; lia.
  - cbn [sub] in Hs. destruct b; try discriminate.
    apply andb_true_iff in Hs. destruct Hs as [H1 H2].
    cbn [has_ty] in Hv |- *. destruct v; try discriminate.
    apply andb_true_iff in Hv. destruct Hv as [H3 H4].
    apply andb_true_iff. split.
    + rewrite forallb_forall in H3 |- *. intros x Hx. apply IH; auto.
    + eapply len_sub_sound; eauto.
Qed.

Lemma sub_refl_base : forall t, base_sub t t = true \/ (match t with T_Enum _ | T_Ival _ _ | T_List _ _ => True | _ => False end).
Proof. destruct t; cbn; auto. Qed.

Definition has_cls (v : value) (c : cls) : bool :=
  match c with
  | CNat => has_ty v T_Nat | CInt => has_ty v T_Int | CBool => has_ty v T_Bool | CFloat => has_ty v T_Float
  | CStr => has_ty v T_Str | CNone => has_ty v T_None
  | CList => match v with VList _ => true | _ => false end
  end.

Lemma cls_ty_has : forall c t v, cls_ty c = Some t -> has_ty v t = has_cls v c.
Proof. destruct c; cbn; intros t v H; inversion H; reflexivity. Qed.

Lemma vclass_has : forall v c, vclass v = Some c -> has_cls v c = true.
Proof.
  destruct v; cbn; intros c H; inversion H; subst; cbn; auto.
  destruct (0 <=? z) eqn:E; cbn; auto.
Qed.

Lemma cjoin_sound : forall a b c v, cjoin a b = Some c -> has_cls v a = true \/ has_cls v b = true -> has_cls v c = true.
Proof.
  intros a b c v H Hv.
  destruct a, b; cbn in H; try discriminate; inversion H; subst c;
    destruct Hv as [Hv|Hv]; try exact Hv; destruct v; cbn in Hv |- *; auto; discriminate.
Qed.

Lemma enum_class_sound : forall vs c v, enum_class vs = Some c -> In v vs -> has_cls v c = true.
Proof.
  induction vs as [|x r IH]; intros c v H Hin; [destruct Hin|].
  destruct r as [|y r'].
  - cbn in H. destruct Hin as [->|[]]. apply vclass_has; auto.
  - change (enum_class (x :: y :: r')) with
        (match vclass x, enum_class (y :: r') with Some a, Some b => cjoin a b | _, _ => None end) in H.
    destruct (vclass x) as [a|] eqn:Ex; try discriminate.
    destruct (enum_class (y :: r')) as [b|] eqn:Er; try discriminate.
    apply (cjoin_sound _ _ _ _ H). destruct Hin as [->|Hin]; [left; apply vclass_has; exact Ex|right; auto].
Qed.

Lemma class_sound : forall t c v, class_of t = Some c -> has_ty v t = true -> has_cls v c = true.
Proof.
  destruct t; cbn [class_of]; intros c v H Hv; try (inversion H; subst; exact Hv).
  - eapply enum_class_sound; eauto. apply has_enum_in; auto.
  - inversion H; subst. cbn [has_ty] in Hv. destruct v; try discriminate.
    apply andb_true_iff in Hv. destruct Hv as [H1 H2]. apply Z.leb_le in H1.
    destruct (0 <=? lo) eqn:E; cbn; auto. apply Z.leb_le in E. apply Z.leb_le. lia.
  - inversion H; subst. cbn [has_ty] in Hv. destruct v; try discriminate. reflexivity.
Qed.

Lemma join_sound : forall a b t v, join_ty a b = Some t -> has_ty v a = true \/ has_ty v b = true -> has_ty v t = true.
Proof.
  intros a b t v H Hv. unfold join_ty in H.
  destruct (sub a b) eqn:E1; [inversion H; subst; destruct Hv; [eapply sub_sound; eauto|auto]|].
  destruct (sub b a) eqn:E2; [inversion H; subst; destruct Hv; [auto|eapply sub_sound; eauto]|].
  assert (Hc : match class_of a, class_of b with
               | Some ca, Some cb => match cjoin ca cb with Some c => cls_ty c | None => None end
               | _, _ => None end = Some t -> has_ty v t = true).
  { intros Hj. destruct (class_of a) as [ca|] eqn:Ea; try discriminate.
    destruct (class_of b) as [cb|] eqn:Eb; try discriminate.
    destruct (cjoin ca cb) as [c|] eqn:Ej; try discriminate.
    rewrite (cls_ty_has _ _ v Hj). apply (cjoin_sound _ _ _ _ Ej).
    destruct Hv; [left|right]; eapply class_sound; eauto. }
  destruct a; auto. destruct b; auto.
  inversion H; subst. cbn [has_ty] in *. rewrite existsb_app. apply orb_true_iff. exact Hv.
Qed.
