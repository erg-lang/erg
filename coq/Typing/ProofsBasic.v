(** Induction over the nested syntax, the unfolding equations of the nested fixpoints of Check.v / Eval.v, and the
    one shape of the checker on every expression form ([infer_node]). *)
From Coq Require Import ZArith List Bool Lia.
From ErgV Require Import Common.Lists CoreErg.Syntax CoreErg.Sem Typing.Types Typing.Check Typing.Eval.
Import ListNotations.
Open Scope Z_scope.

Section TmInd.
  Variable P : tm -> Prop.
  Hypothesis HLit : forall l, P (XLit l).
  Hypothesis HVar : forall x, P (XVar x).
  Hypothesis HUn : forall op a, P a -> P (XUn op a).
  Hypothesis HBin : forall op a b, P a -> P b -> P (XBin op a b).
  Hypothesis HCmp : forall op a b, P a -> P b -> P (XCmp op a b).
  Hypothesis HLogic : forall k a b, P a -> P b -> P (XLogic k a b).
  Hypothesis HList : forall es, Forall P es -> P (XList es).
  Hypothesis HIndex : forall a i, P a -> P i -> P (XIndex a i).
  Hypothesis HIf : forall c a b, P c -> P a -> P b -> P (XIf c a b).
  Hypothesis HCall : forall f args, Forall P args -> P (XCall f args).
  Hypothesis HMeth : forall m r args, P r -> Forall P args -> P (XMeth m r args).

  Fixpoint tm_ind' (e : tm) : P e :=
    let go := Forall_all tm_ind' in
    match e with
    | XLit l => HLit l
    | XVar x => HVar x
    | XUn op a => HUn op a (tm_ind' a)
    | XBin op a b => HBin op a b (tm_ind' a) (tm_ind' b)
    | XCmp op a b => HCmp op a b (tm_ind' a) (tm_ind' b)
    | XLogic k a b => HLogic k a b (tm_ind' a) (tm_ind' b)
    | XList es => HList es (go es)
    | XIndex a i => HIndex a i (tm_ind' a) (tm_ind' i)
    | XIf c a b => HIf c a b (tm_ind' c) (tm_ind' a) (tm_ind' b)
    | XCall f args => HCall f args (go args)
    | XMeth m r args => HMeth m r args (tm_ind' r) (go args)
    end.
End TmInd.

Section StInd.
  Variable P : st -> Prop.
  Hypothesis HDef : forall x ann e, P (TDef x ann e).
  Hypothesis HPrint : forall es, P (TPrint es).
  Hypothesis HAssert : forall e, P (TAssert e).
  Hypothesis HFun : forall f lam ps ret locals res, P (TFun f lam ps ret locals res).
  Hypothesis HIf : forall c th el, Forall P th -> Forall P el -> P (TIf c th el).
  Hypothesis HFor : forall x it body, Forall P body -> P (TFor x it body).

  Fixpoint st_ind' (s : st) : P s :=
    let go := Forall_all st_ind' in
    match s with
    | TDef x ann e => HDef x ann e
    | TPrint es => HPrint es
    | TAssert e => HAssert e
    | TFun f lam ps ret locals res => HFun f lam ps ret locals res
    | TIf c th el => HIf c th el (go th) (go el)
    | TFor x it body => HFor x it body (go body)
    end.
End StInd.

Lemma infers_inner : forall strict FS G es,
  (fix infers (es : list tm) : option (list ety) :=
     match es with
     | [] => Some []
     | x :: r => match infer strict FS G x, infers r with Some t, Some ts => Some (t :: ts) | _, _ => None end
     end) es = infers strict FS G es.
Proof. induction es as [|x r IH]; [reflexivity|]. cbn [infers]. rewrite <- IH. reflexivity. Qed.

Lemma infer_XList : forall strict FS G es,
  infer strict FS G (XList es) =
  match infers strict FS G es with
  | Some (t :: ts) => match join_all t ts with Some tj => Some (T_List tj (Some (Z.of_nat (length es)))) | None => None end
  | _ => None
  end.
Proof. intros. cbn [infer]. rewrite infers_inner. reflexivity. Qed.

Lemma infer_XCall : forall strict FS G f args,
  infer strict FS G (XCall f args) =
  match infers strict FS G args with
  | Some ts => match lookup_t f FS with
               | Some (ps, ret) => if check_args ps ts then Some ret else None
               | None => None
               end
  | None => None
  end.
Proof. intros. cbn [infer]. rewrite infers_inner. reflexivity. Qed.

Lemma infer_XMeth : forall strict FS G m r args,
  infer strict FS G (XMeth m r args) =
  match infer strict FS G r, infers strict FS G args with
  | Some tr, Some ts => meth_ty m tr ts
  | _, _ => None
  end.
Proof. intros. cbn [infer]. rewrite infers_inner. reflexivity. Qed.

Definition kids (e : tm) : list tm :=
  match e with
  | XLit _ | XVar _ => []
  | XUn _ a => [a]
  | XBin _ a b | XCmp _ a b | XLogic _ a b | XIndex a b => [a; b]
  | XList es | XCall _ es => es
  | XIf c a b => [c; a; b]
  | XMeth _ r args => r :: args
  end.

Definition node_ty (strict : bool) (FS : fenv_t) (G : tenv) (e : tm) (ts : list ety) : option ety :=
  match e, ts with
  | XLit l, _ => Some (T_Enum [lit_value l])
  | XVar x, _ => lookup_t x G
  | XUn op _, [ta] => un_ty op ta
  | XBin op _ _, [ta; tb] => bin_ty strict op ta tb
  | XCmp op _ _, [ta; tb] => cmp_ty op ta tb
  | XLogic _ _ _, [ta; tb] => if sub ta T_Bool && sub tb T_Bool then Some T_Bool else None
  | XList es, t :: ts => match join_all t ts with Some tj => Some (T_List tj (Some (Z.of_nat (length es)))) | None => None end
  | XIndex _ i, [ta; _] => index_ty ta i
  | XIf _ _ _, [tc; ta; tb] => if sub tc T_Bool then join_ty ta tb else None
  | XCall f _, _ => match lookup_t f FS with
                    | Some (ps, ret) => if check_args ps ts then Some ret else None
                    | None => None
                    end
  | XMeth m _ _, tr :: ts => meth_ty m tr ts
  | _, _ => None
  end.

Lemma infer_node : forall strict FS G e,
  infer strict FS G e = match infers strict FS G (kids e) with Some ts => node_ty strict FS G e ts | None => None end.
Proof.
  intros strict FS G e. destruct e; cbn [kids infers node_ty].
  1-2: reflexivity.
  2-4, 6: cbn [infer]; destruct (infer strict FS G e1); [destruct (infer strict FS G e2)|]; reflexivity.
  - cbn [infer]. destruct (infer strict FS G e); reflexivity.
  - rewrite infer_XList. destruct (infers strict FS G es) as [[|t ts]|]; reflexivity.
  - cbn [infer]. destruct (infer strict FS G e1); [destruct (infer strict FS G e2); [destruct (infer strict FS G e3)|]|]; reflexivity.
  - rewrite infer_XCall. destruct (infers strict FS G args); reflexivity.
  - rewrite infer_XMeth. destruct (infer strict FS G e); [destruct (infers strict FS G args)|]; reflexivity.
Qed.

Lemma tm_kids_ind : forall P : tm -> Prop, (forall e, Forall P (kids e) -> P e) -> forall e, P e.
Proof. intros P step. induction e using tm_ind'; apply step; cbn [kids]; auto. Qed.

Lemma infers_length : forall strict FS G args ts, infers strict FS G args = Some ts -> length ts = length args.
Proof.
  induction args as [|x r IH]; intros ts E; cbn [infers] in E; [inversion E; reflexivity|].
  destruct (infer strict FS G x); try discriminate. destruct (infers strict FS G r); try discriminate.
  inversion E; subst. cbn. f_equal. apply IH; reflexivity.
Qed.

Lemma evals_inner : forall callf FS G en es,
  (fix evals (es : list tm) : rs (list value) :=
     match es with
     | [] => R_ok []
     | x :: r => rbind (eval callf FS G en x) (fun v => rbind (evals r) (fun vs => R_ok (v :: vs)))
     end) es = evals callf FS G en es.
Proof. induction es as [|x r IH]; [reflexivity|]. cbn [evals]. rewrite <- IH. reflexivity. Qed.

Lemma eval_XList : forall callf FS G en es,
  eval callf FS G en (XList es) = rbind (evals callf FS G en es) (fun vs => R_ok (VList vs)).
Proof. intros. cbn [eval]. rewrite evals_inner. reflexivity. Qed.

Lemma eval_XCall : forall callf FS G en f args,
  eval callf FS G en (XCall f args) =
  rbind (evals callf FS G en args) (fun vs => rbind (callf f vs) (wrapv (infer false FS G (XCall f args)))).
Proof. intros. cbn [eval]. rewrite evals_inner. reflexivity. Qed.

Lemma eval_XMeth : forall callf FS G en m r args,
  eval callf FS G en (XMeth m r args) =
  rbind (eval callf FS G en r) (fun vr =>
    rbind (evals callf FS G en args) (fun vs =>
      rbind (meth_op m vr vs) (wrapv (infer false FS G (XMeth m r args))))).
Proof. intros. cbn [eval]. rewrite evals_inner. reflexivity. Qed.

Lemma blk_inner : forall strict ss c,
  (fix blk (c : cenv) (ss : list st) : bool :=
     match ss with
     | [] => true
     | x :: r => match check_st strict c x with Some c' => blk c' r | None => false end
     end) c ss = is_some (check_block strict c ss).
Proof.
  induction ss as [|x r IH]; intros c; [reflexivity|]. cbn [check_block].
  destruct (check_st strict c x) as [c'|]; [apply IH|reflexivity].
Qed.

Lemma check_st_TIf : forall strict c cnd th el,
  check_st strict c (TIf cnd th el) =
  match infer strict (fst c) (snd c) cnd with
  | Some tc => if sub tc T_Bool && is_some (check_block strict c th) && is_some (check_block strict c el) then Some c else None
  | None => None
  end.
Proof. intros. cbn [check_st]. rewrite !blk_inner. reflexivity. Qed.

Lemma check_st_TFor : forall strict c x it body,
  check_st strict c (TFor x it body) =
  match infer strict (fst c) (snd c) it with
  | Some (T_List t n) => if is_some (check_block strict (fst c, (x, t) :: snd c) body) then Some c else None
  | _ => None
  end.
Proof.
  intros. cbn [check_st]. destruct (infer strict (fst c) (snd c) it) as [t|]; auto.
  destruct t; auto. rewrite blk_inner. reflexivity.
Qed.

Lemma for_loop_ext : forall f g v t items s, (forall s, f s = g s) -> for_loop f v t items s = for_loop g v t items s.
Proof.
  induction items as [|i r IH]; intros s H; [reflexivity|]. cbn [for_loop]. rewrite H.
  destruct (g _); auto.
Qed.

(* the block runner local to [exec] is [exec_block] itself, up to conversion *)
Lemma exec_TIf : forall fuel c th el s,
  exec fuel (TIf c th el) s =
  with_val s (ev fuel s c) (fun v =>
    match (if truthy v then exec_block fuel th s else exec_block fuel el s) with
    | S_ok s' => S_ok (restore s s')
    | bad => bad
    end).
Proof. reflexivity. Qed.

Lemma exec_TFor : forall fuel v it body s,
  exec fuel (TFor v it body) s =
  match infer false (sigs (s_F s)) (s_G s) it with
  | Some (T_List t _) =>
    with_val s (ev fuel s it) (fun vit =>
      match vit with
      | VList items => for_loop (exec_block fuel body) v t items s
      | _ => S_err EType (s_out s)
      end)
  | _ => S_err EStatic (s_out s)
  end.
Proof. reflexivity. Qed.
