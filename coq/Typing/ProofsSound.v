(** Big-step type soundness of the checked fragment (C02, C34): a well-typed expression, call, statement or program,
    run in an environment that respects its typing, yields a value of its static type or a legitimate error (never
    TypeError / AttributeError / NameError / the Nat wrapper's ValueError), whatever the fuel. *)
From Coq Require Import ZArith List Bool.
From ErgV Require Import Common.Lists CoreErg.Syntax CoreErg.Sem Typing.Types Typing.Check Typing.Eval Typing.ProofsTypes
     Typing.ProofsOps Typing.ProofsBasic.
Import ListNotations.
Open Scope Z_scope.

(* the restricted table only removes typings, and the checker is a chain of binds, monotone for [ole] *)
Definition ole {A} (a b : option A) : Prop := forall t, a = Some t -> b = Some t.

Lemma ole_refl : forall {A} (a : option A), ole a a.
Proof. intros A a t H. exact H. Qed.

Lemma ole_bind : forall {A B} (a a' : option A) (f f' : A -> option B),
  ole a a' -> (forall x, ole (f x) (f' x)) ->
  ole (match a with Some x => f x | None => None end) (match a' with Some x => f' x | None => None end).
Proof. intros A B a a' f f' Ha Hf t H. destruct a as [x|]; [|discriminate]. rewrite (Ha x eq_refl). exact (Hf x t H). Qed.

Lemma binop_res_lax : forall o a b, ole (binop_res true o a b) (binop_res false o a b).
Proof.
  intros o a b t H. unfold binop_res in *.
  destruct (is_scalar a && is_scalar b && pow_ok true o a b) eqn:E; try discriminate.
  apply andb_true_iff in E. destruct E as [E _]. rewrite E. exact H.
Qed.

Lemma bin_ty_lax : forall op ta tb, ole (bin_ty true op ta tb) (bin_ty false op ta tb).
Proof.
  intros op ta tb. unfold bin_ty.
  assert (Hg : ole (match class_of ta, class_of tb with
                    | Some ca, Some cb => binop_res true (arith_code op) ca cb | _, _ => None end)
                   (match class_of ta, class_of tb with
                    | Some ca, Some cb => binop_res false (arith_code op) ca cb | _, _ => None end)).
  { apply ole_bind; [apply ole_refl|intros ca]. apply ole_bind; [apply ole_refl|intros cb]. apply binop_res_lax. }
  destruct ta; try exact Hg. destruct tb; try exact Hg. apply ole_refl.
Qed.

Lemma infers_lax : forall FS G es, Forall (fun e => ole (infer true FS G e) (infer false FS G e)) es ->
  ole (infers true FS G es) (infers false FS G es).
Proof.
  induction 1 as [|x r Hx _ IH]; cbn [infers]; [apply ole_refl|].
  apply ole_bind; [exact Hx|intros t]. apply ole_bind; [exact IH|intros ts]. apply ole_refl.
Qed.

Lemma node_ty_lax : forall FS G e ts, ole (node_ty true FS G e ts) (node_ty false FS G e ts).
Proof.
  intros FS G e ts. destruct e; try apply ole_refl.
  destruct ts as [|ta [|tb [|]]]; try apply ole_refl. apply bin_ty_lax.
Qed.

Lemma infer_lax : forall FS G e, ole (infer true FS G e) (infer false FS G e).
Proof.
  intros FS G. induction e as [e IH] using tm_kids_ind. rewrite !infer_node.
  apply ole_bind; [exact (infers_lax _ _ _ IH)|intros ts]. apply node_ty_lax.
Qed.

Lemma check_defaults_lax : forall FS G ps, check_defaults true FS G ps = true -> check_defaults false FS G ps = true.
Proof.
  induction ps as [|[[x t] [d|]] r IH]; intros H; cbn [check_defaults] in *; auto.
  destruct (infer true FS G d) as [td|] eqn:E; try discriminate. rewrite (infer_lax _ _ _ _ E).
  apply andb_true_iff in H. destruct H as [H1 H2]. rewrite H1, (IH H2). reflexivity.
Qed.

Lemma check_locals_lax : forall FS ls G, ole (check_locals true FS G ls) (check_locals false FS G ls).
Proof.
  induction ls as [|[x e] r IH]; intros G; cbn [check_locals]; [apply ole_refl|].
  apply ole_bind; [apply infer_lax|intros t]. apply IH.
Qed.

Lemma fun_ret_lax : forall FS G ps ret locals res,
  ole (fun_ret true FS G ps ret locals res) (fun_ret false FS G ps ret locals res).
Proof.
  intros FS G ps ret locals res r H. unfold fun_ret in *.
  destruct (check_defaults true FS G ps) eqn:Ed; try discriminate. rewrite (check_defaults_lax _ _ _ Ed).
  revert r H. apply ole_bind; [apply check_locals_lax|intros Gb]. apply ole_bind; [apply infer_lax|intros tr]. apply ole_refl.
Qed.

Definition env_ok (G : tenv) (en : env) : Prop :=
  forall x t, lookup_t x G = Some t -> exists v, lookup x en = Some v /\ has_ty v t = true.

Lemma env_ok_nil : env_ok [] [].
Proof. intros x t H. discriminate. Qed.

Lemma env_ok_cons : forall G en x t v, env_ok G en -> has_ty v t = true -> env_ok ((x, t) :: G) ((x, v) :: en).
Proof.
  intros G en x t v H Hv y ty Hy. cbn [lookup_t lookup] in *.
  destruct (y =? x); [inversion Hy; subst; eauto|auto].
Qed.

Lemma res_ok_sub : forall r a b, res_ok r a -> sub a b = true -> res_ok r b.
Proof. intros r a b H Hs. eapply rs_ok_impl; [exact H|]. intros v Hv. eapply sub_sound; eauto. Qed.

Lemma wrap_res : forall (r : rs value) t, res_ok r t -> res_ok (rbind r (wrapv (Some t))) t.
Proof. intros r t H. eapply rs_bind; [exact H|]. intros v Hv. rewrite wrap_ok; auto. Qed.

Definition callf_ok (FS : fenv_t) (callf : Z -> list value -> rs value) : Prop :=
  forall f ps ret vs ts, lookup_t f FS = Some (ps, ret) -> check_args ps ts = true ->
    Forall2 (fun v t => has_ty v t = true) vs ts -> res_ok (callf f vs) ret.

Lemma join_all_sound : forall ts t tj, join_all t ts = Some tj ->
  (forall v, has_ty v t = true -> has_ty v tj = true) /\
  (forall vs, Forall2 (fun v t => has_ty v t = true) vs ts -> forallb (fun v => has_ty v tj) vs = true).
Proof.
  induction ts as [|x r IH]; intros t tj H; cbn [join_all] in H.
  - inversion H; subst. split; [auto|]. intros vs Hvs. inversion Hvs. reflexivity.
  - destruct (join_ty t x) as [t1|] eqn:J; try discriminate. destruct (IH _ _ H) as [Hup Hall].
    split.
    + intros v Hv. apply Hup. eapply join_sound; eauto.
    + intros vs Hvs. inversion Hvs as [|v ? vr ? Hv Hr]; subst. cbn [forallb].
      rewrite Hup by (eapply join_sound; eauto). exact (Hall _ Hr).
Qed.

Section EvalSound.
  Variable callf : Z -> list value -> rs value.
  Variable FS : fenv_t.
  Hypothesis Hcall : callf_ok FS callf.

  Definition tm_sound (e : tm) : Prop :=
    forall G en t, env_ok G en -> infer true FS G e = Some t -> res_ok (eval callf FS G en e) t.

  Lemma evals_sound : forall es, Forall tm_sound es ->
    forall G en ts, env_ok G en -> infers true FS G es = Some ts ->
    rs_ok (fun vs => Forall2 (fun v t => has_ty v t = true) vs ts) (evals callf FS G en es).
  Proof.
    induction 1 as [|x r Hx Hr IH]; intros G en ts He Hi; cbn [infers] in Hi; cbn [evals].
    - inversion Hi; subst. constructor.
    - destruct (infer true FS G x) as [t|] eqn:Ex; try discriminate.
      destruct (infers true FS G r) as [tr|] eqn:Er; try discriminate. inversion Hi; subst.
      eapply rs_bind; [exact (Hx _ _ _ He Ex)|intros v Hv].
      eapply rs_bind; [exact (IH _ _ _ He Er)|intros vs Hvs]. constructor; auto.
  Qed.

  Lemma sound_bind : forall e G en (f : ety -> option ety) (k : value -> rs value) t,
    tm_sound e -> env_ok G en ->
    match infer true FS G e with Some ta => f ta | None => None end = Some t ->
    (forall ta va, has_ty va ta = true -> f ta = Some t -> res_ok (k va) t) ->
    res_ok (rbind (eval callf FS G en e) k) t.
  Proof.
    intros e G en f k t IH He Hi Hk. destruct (infer true FS G e) as [ta|] eqn:Ea; [|discriminate].
    eapply rs_bind; [exact (IH _ _ _ He Ea)|]. intros va Ha. exact (Hk ta va Ha Hi).
  Qed.

  Lemma eval_sound : forall e, tm_sound e.
  Proof.
    induction e using tm_ind'; intros G en t He Hi.
    - cbn in Hi. inversion Hi; subst. cbn [eval res_ok]. apply has_ty_lit.
    - cbn [infer] in Hi. destruct (He _ _ Hi) as [v [Hl Hv]]. cbn [eval]. rewrite Hl. exact Hv.
    - cbn [eval]. rewrite (infer_lax _ _ _ _ Hi). cbn [infer] in Hi.
      apply (sound_bind e _ _ _ _ _ IHe He Hi). intros ta va Ha Hu.
      apply wrap_res. eapply un_sound; eauto.
    - cbn [eval]. rewrite (infer_lax _ _ _ _ Hi). cbn [infer] in Hi.
      apply (sound_bind e1 _ _ _ _ _ IHe1 He Hi). intros ta va Ha Hi1.
      apply (sound_bind e2 _ _ _ _ _ IHe2 He Hi1). intros tb vb Hb Hi2.
      apply wrap_res. eapply bin_sound; eauto.
    - cbn [eval]. cbn [infer] in Hi.
      apply (sound_bind e1 _ _ _ _ _ IHe1 He Hi). intros ta va Ha Hi1.
      apply (sound_bind e2 _ _ _ _ _ IHe2 He Hi1). intros tb vb Hb Hi2.
      eapply cmp_sound; eauto.
    - (* and / or: either operand may be the result *)
      cbn [eval]. cbn [infer] in Hi.
      apply (sound_bind e1 _ _ _ _ _ IHe1 He Hi). intros ta va Ha Hi1.
      destruct (infer true FS G e2) as [tb|] eqn:Eb; try discriminate.
      destruct (sub ta T_Bool && sub tb T_Bool) eqn:Es; try discriminate. inversion Hi1; subst.
      apply andb_true_iff in Es. destruct Es as [S1 S2].
      pose proof (sub_sound _ _ _ S1 Ha) as Ha'.
      pose proof (res_ok_sub _ _ _ (IHe2 _ _ _ He Eb) S2) as H2.
      destruct k; destruct (truthy va); auto.
    - rewrite eval_XList. rewrite infer_XList in Hi.
      destruct (infers true FS G es) as [[|t0 ts]|] eqn:Ei; try discriminate.
      destruct (join_all t0 ts) as [tj|] eqn:J; try discriminate. inversion Hi; subst.
      eapply rs_bind; [exact (evals_sound es H _ _ _ He Ei)|intros vs Hvs].
      cbn [res_ok has_ty len_ok]. apply andb_true_iff. split.
      + destruct (join_all_sound _ _ _ J) as [Hup Hall].
        inversion Hvs as [|v ? vr ? Hv Hr]; subst. cbn [forallb]. rewrite (Hup _ Hv). exact (Hall _ Hr).
      + apply Z.eqb_eq. rewrite (Forall2_length _ _ _ Hvs), (infers_length _ _ _ _ _ Ei). reflexivity.
    - cbn [eval]. cbn [infer] in Hi.
      apply (sound_bind e1 _ _ _ _ _ IHe1 He Hi). intros ta va Ha Hi1.
      destruct (infer true FS G e2) as [ti|] eqn:Eb; try discriminate.
      assert (Hk : exists k, e2 = XLit (LNat k)).
      { unfold index_ty in Hi1. destruct e2; try discriminate. destruct l; try discriminate. eauto. }
      destruct Hk as [k ->]. cbn [eval rbind lit_value].
      eapply index_sound; eauto.
    - cbn [eval]. cbn [infer] in Hi.
      apply (sound_bind e1 _ _ _ _ _ IHe1 He Hi). intros tc vc _ Hi1.
      destruct (infer true FS G e2) as [ta|] eqn:Ea; try discriminate.
      destruct (infer true FS G e3) as [tb|] eqn:Eb; try discriminate.
      destruct (sub tc T_Bool); try discriminate.
      destruct (truthy vc).
      + eapply rs_ok_impl; [exact (IHe2 _ _ _ He Ea)|intros v Hv]. eapply join_sound; eauto.
      + eapply rs_ok_impl; [exact (IHe3 _ _ _ He Eb)|intros v Hv]. eapply join_sound; eauto.
    - rewrite eval_XCall. rewrite (infer_lax _ _ _ _ Hi). rewrite infer_XCall in Hi.
      destruct (infers true FS G args) as [ts|] eqn:Ei; try discriminate.
      destruct (lookup_t f FS) as [[ps ret]|] eqn:Ef; try discriminate.
      destruct (check_args ps ts) eqn:Ec; try discriminate. inversion Hi; subst.
      eapply rs_bind; [exact (evals_sound args H _ _ _ He Ei)|intros vs Hvs].
      apply wrap_res. eapply Hcall; eauto.
    - rewrite eval_XMeth. rewrite (infer_lax _ _ _ _ Hi). rewrite infer_XMeth in Hi.
      apply (sound_bind e _ _ _ _ _ IHe He Hi). intros tr vr Hr Hi1.
      destruct (infers true FS G args) as [ts|] eqn:Ei; try discriminate.
      eapply rs_bind; [exact (evals_sound args H _ _ _ He Ei)|intros vs Hvs].
      apply wrap_res. eapply meth_sound; eauto.
  Qed.

  Lemma locals_sound : forall ls G en Gb, env_ok G en -> check_locals true FS G ls = Some Gb ->
    rs_ok (fun ge => fst ge = Gb /\ env_ok Gb (snd ge)) (run_locals callf FS G en ls).
  Proof.
    induction ls as [|[x e] r IH]; intros G en Gb He Hc; cbn [check_locals run_locals] in *.
    - inversion Hc; subst. split; auto.
    - destruct (infer true FS G e) as [t|] eqn:Ei; try discriminate. rewrite (infer_lax _ _ _ _ Ei).
      eapply rs_bind; [exact (eval_sound e _ _ _ He Ei)|intros v Hv].
      apply IH; auto. apply env_ok_cons; auto.
  Qed.
End EvalSound.

Definition defaults_ok (ps : list (Z * ety * option tm)) (ds : list (Z * ety * option value)) : Prop :=
  vparam_tys ds = param_tys ps /\
  map (fun p : Z * ety * option value => (snd (fst p), is_some (snd p))) ds = param_sig ps /\
  (forall x t v, In (x, t, Some v) ds -> has_ty v t = true).

Lemma defaults_ok_cons : forall x t d dv ps ds, defaults_ok ps ds -> is_some dv = is_some d ->
  (forall v, dv = Some v -> has_ty v t = true) -> defaults_ok ((x, t, d) :: ps) ((x, t, dv) :: ds).
Proof.
  intros x t d dv ps ds [I1 [I2 I3]] Hd Hv. repeat split.
  - cbn [vparam_tys param_tys map fst snd]. f_equal. exact I1.
  - cbn [param_sig map fst snd]. rewrite Hd. f_equal. exact I2.
  - intros y ty w [Heq|Hin]; [inversion Heq; subst; auto|eauto].
Qed.

(* a closure is what a checked definition leaves: its defaults evaluated, its environment captured *)
Definition fdef_ok (FS : fenv_t) (d : fdef) : Prop :=
  env_ok (fd_tenv d) (fd_env d) /\
  exists ps ret, defaults_ok ps (fd_ps d) /\
                 fun_ret true FS (fd_tenv d) ps ret (fd_locals d) (fd_res d) = Some (fd_ret d).

Fixpoint F_ok (F : fenv) : Prop :=
  match F with
  | [] => True
  | (f, d) :: r => fdef_ok (sigs r) d /\ F_ok r
  end.

Lemma lookup_split_sigs : forall F f sg, lookup_t f (sigs F) = Some sg -> F_ok F ->
  exists d Fr, lookup_split f F = Some (d, Fr) /\ sg = sig_of d /\ fdef_ok (sigs Fr) d /\ F_ok Fr.
Proof.
  induction F as [|[g d] r IH]; intros f sg Hl HF; cbn [sigs map lookup_t lookup_split fst snd] in *; try discriminate.
  destruct HF as [Hd Hr].
  destruct (f =? g).
  - inversion Hl; subst. exists d, r. auto.
  - apply IH; auto.
Qed.

Lemma bind_args_ok : forall ps vs ts,
  check_args (map (fun p : Z * ety * option value => (snd (fst p), is_some (snd p))) ps) ts = true ->
  Forall2 (fun v t => has_ty v t = true) vs ts ->
  (forall x t v, In (x, t, Some v) ps -> has_ty v t = true) ->
  exists penv, bind_args ps vs = Some penv /\
               forall G en, env_ok G en -> env_ok (vparam_tys ps ++ G) (penv ++ en).
Proof.
  induction ps as [|[[x t] dv] pr IH]; intros vs ts Hc Hv Hd.
  - cbn in Hc. destruct ts; try discriminate. inversion Hv; subst. exists []. split; [reflexivity|auto].
  - cbn [map check_args fst snd] in Hc. destruct ts as [|t0 tr].
    + inversion Hv; subst. apply andb_true_iff in Hc. destruct Hc as [Hs Hc].
      destruct dv as [d|]; try discriminate.
      destruct (IH [] [] Hc (Forall2_nil _)) as [penv [Hb Ha]]; [intros; eapply Hd; right; eauto|].
      exists ((x, d) :: penv). cbn [bind_args]. rewrite Hb. split; [reflexivity|].
      intros G en He. apply env_ok_cons; auto. eapply Hd. left. reflexivity.
    + inversion Hv as [|v ? vr ? Hvt Hrest]; subst. apply andb_true_iff in Hc. destruct Hc as [Hs Hc].
      destruct (IH vr tr Hc Hrest) as [penv [Hb Ha]]; [intros; eapply Hd; right; eauto|].
      exists ((x, v) :: penv). cbn [bind_args]. rewrite Hb. split; [destruct dv; reflexivity|].
      intros G en He. apply env_ok_cons; auto. eapply sub_sound; eauto.
Qed.

Lemma callf_ok_n : forall n F, F_ok F -> callf_ok (sigs F) (callf_n n F).
Proof.
  induction n as [|n IH]; intros F HF f ps ret vs ts Hl Hc Hv; [exact I|].
  cbn [callf_n].
  destruct (lookup_split_sigs F f _ Hl HF) as [d [Fr [Hs [Hsig [Hd HFr]]]]]. rewrite Hs.
  unfold sig_of in Hsig. inversion Hsig; subst ps ret.
  destruct Hd as [Henv [ps [ret [[D1 [D2 D3]] Er]]]]. unfold fun_ret in Er.
  destruct (check_defaults true (sigs Fr) (fd_tenv d) ps); try discriminate. rewrite <- D1 in Er.
  destruct (check_locals true (sigs Fr) (vparam_tys (fd_ps d) ++ fd_tenv d) (fd_locals d)) as [Gb|] eqn:Hloc; try discriminate.
  destruct (infer true (sigs Fr) Gb (fd_res d)) as [tr|] eqn:Hres; try discriminate.
  destruct (bind_args_ok _ _ _ Hc Hv D3) as [penv [Hb Ha]]. rewrite Hb.
  pose proof (IH Fr HFr) as Hcall.
  eapply rs_bind; [exact (locals_sound _ _ Hcall _ _ _ _ (Ha _ _ Henv) Hloc)|].
  intros [G' en'] [HG He']. cbn [fst snd] in *. subst G'.
  pose proof (eval_sound _ _ Hcall (fd_res d) Gb en' tr He' Hres) as HR.
  destruct ret as [r0|]; [destruct (sub tr r0) eqn:Es; try discriminate|]; inversion Er; subst; auto.
  eapply res_ok_sub; eauto.
Qed.

Definition st_ok (s : state) : Prop := F_ok (s_F s) /\ env_ok (s_G s) (s_en s).

Definition sres_ok (c' : cenv) (r : sres) : Prop :=
  match r with
  | S_ok s' => st_ok s' /\ (sigs (s_F s'), s_G s') = c'
  | S_err e _ => type_error e = false /\ e <> EStatic
  | S_fuel _ => True
  end.

Lemma with_val_ok : forall (P : value -> Prop) c' s r k,
  rs_ok P r -> (forall v, P v -> sres_ok c' (k v)) -> sres_ok c' (with_val s r k).
Proof. intros P c' s [v|e|] k Hr Hk; cbn [with_val sres_ok]; auto. Qed.

Section ExecSound.
  Variable fuel : nat.

  Lemma ev_sound : forall s e t, st_ok s -> infer true (sigs (s_F s)) (s_G s) e = Some t -> res_ok (ev fuel s e) t.
  Proof.
    intros s e t [HF He] Hi. unfold ev. eapply eval_sound; eauto. apply callf_ok_n; auto.
  Qed.

  Lemma evs_sound : forall s es ts, st_ok s -> infers true (sigs (s_F s)) (s_G s) es = Some ts ->
    rs_ok (fun vs => Forall2 (fun v t => has_ty v t = true) vs ts) (evs fuel s es).
  Proof.
    intros s es ts [HF He] Hi. unfold evs.
    apply (evals_sound (callf_n fuel (s_F s)) (sigs (s_F s)) es); auto.
    apply Forall_forall. intros x _. apply eval_sound. apply callf_ok_n; auto.
  Qed.

  Lemma defaults_sound : forall s ps, st_ok s -> check_defaults true (sigs (s_F s)) (s_G s) ps = true ->
    rs_ok (defaults_ok ps) (eval_defaults fuel s ps).
  Proof.
    intros s ps Hs. induction ps as [|[[x t] [d|]] r IH]; intros Hc; cbn [check_defaults eval_defaults] in *.
    - repeat split. intros ? ? ? [].
    - destruct (infer true (sigs (s_F s)) (s_G s) d) as [td|] eqn:Ed; try discriminate.
      apply andb_true_iff in Hc. destruct Hc as [Hsub Hc].
      eapply rs_bind; [exact (ev_sound s d td Hs Ed)|intros v Hv].
      eapply rs_bind; [exact (IH Hc)|intros ds Hds].
      apply defaults_ok_cons; auto. intros w Hw. inversion Hw; subst. eapply sub_sound; eauto.
    - eapply rs_bind; [exact (IH Hc)|intros ds Hds]. apply defaults_ok_cons; auto. discriminate.
  Qed.

  Definition st_sound (x : st) : Prop :=
    forall s c', st_ok s -> check_st true (sigs (s_F s), s_G s) x = Some c' -> sres_ok c' (exec fuel x s).

  Lemma block_sound : forall ss, Forall st_sound ss ->
    forall s c', st_ok s -> check_block true (sigs (s_F s), s_G s) ss = Some c' -> sres_ok c' (exec_block fuel ss s).
  Proof.
    induction 1 as [|x r Hx Hr IH]; intros s c' Hs Hc; cbn [check_block exec_block] in *.
    - inversion Hc; subst. split; auto.
    - destruct (check_st true (sigs (s_F s), s_G s) x) as [c1|] eqn:E1; try discriminate.
      pose proof (Hx s c1 Hs E1) as H1.
      destruct (exec fuel x s) as [s1|e o|o]; cbn [sres_ok] in *; auto.
      destruct H1 as [Hs1 Hc1]. subst c1. apply IH; auto.
  Qed.

  Lemma scoped_block_sound : forall ss s0 s, Forall st_sound ss -> st_ok s0 -> st_ok s ->
    is_some (check_block true (sigs (s_F s), s_G s) ss) = true ->
    sres_ok (sigs (s_F s0), s_G s0)
            (match exec_block fuel ss s with S_ok s' => S_ok (restore s0 s') | bad => bad end).
  Proof.
    intros ss s0 s Hss H0 Hs Hc.
    destruct (check_block true (sigs (s_F s), s_G s) ss) as [c1|] eqn:E; try discriminate.
    pose proof (block_sound ss Hss s c1 Hs E) as H1.
    destruct (exec_block fuel ss s) as [s1|e o|o]; cbn [sres_ok] in *; auto.
  Qed.

  (* for!: every round starts from the bindings before the loop, so the checker's verdict on the body serves each *)
  Lemma for_loop_sound : forall body x t, Forall st_sound body ->
    forall items s, st_ok s -> is_some (check_block true (sigs (s_F s), (x, t) :: s_G s) body) = true ->
    forallb (fun v => has_ty v t) items = true ->
    sres_ok (sigs (s_F s), s_G s) (for_loop (exec_block fuel body) x t items s).
  Proof.
    intros body x t Hb. induction items as [|i r IH]; intros s Hs Hc Hi; cbn [for_loop].
    - split; auto.
    - cbn [forallb] in Hi. apply andb_true_iff in Hi. destruct Hi as [Hi Hr].
      set (s2 := mkSt (s_F s) ((x, t) :: s_G s) ((x, i) :: s_en s) (s_out s)).
      assert (Hs2 : st_ok s2).
      { destruct Hs as [HF He]. split; cbn; auto. apply env_ok_cons; auto. }
      pose proof (scoped_block_sound body s s2 Hb Hs Hs2 Hc) as HB.
      destruct (exec_block fuel body s2) as [s3|e o|o]; cbn [sres_ok] in HB |- *; auto.
      destruct HB as [Hs3 _]. exact (IH (restore s s3) Hs3 Hc Hr).
  Qed.

  Lemma exec_sound : forall x, st_sound x.
  Proof.
    induction x using st_ind'; intros s c' Hs Hc.
    - cbn [check_st fst snd] in Hc. cbn [exec].
      destruct (infer true (sigs (s_F s)) (s_G s) e) as [t|] eqn:Ei; try discriminate. rewrite (infer_lax _ _ _ _ Ei).
      destruct (match ann with Some a => sub t a | None => true end); try discriminate. inversion Hc; subst.
      eapply with_val_ok; [exact (ev_sound s e t Hs Ei)|intros v Hv].
      destruct Hs as [HF He]. split; [split|]; cbn; auto. apply env_ok_cons; auto.
    - cbn [check_st fst snd] in Hc. cbn [exec].
      destruct (infers true (sigs (s_F s)) (s_G s) es) as [ts|] eqn:Ei; try discriminate. inversion Hc; subst.
      pose proof (evs_sound s es ts Hs Ei) as H1.
      destruct (evs fuel s es) as [vs|er|]; cbn [sres_ok rs_ok] in *; auto.
    - cbn [check_st fst snd] in Hc. cbn [exec].
      destruct (infer true (sigs (s_F s)) (s_G s) e) as [t|] eqn:Ei; try discriminate.
      destruct (sub t T_Bool); try discriminate. inversion Hc; subst.
      eapply with_val_ok; [exact (ev_sound s e t Hs Ei)|intros v Hv].
      destruct (truthy v); cbn; auto. split; auto; discriminate.
    - cbn [check_st fst snd] in Hc. cbn [exec].
      destruct (fun_ret true (sigs (s_F s)) (s_G s) ps ret locals res) as [r|] eqn:Er; try discriminate.
      rewrite (fun_ret_lax _ _ _ _ _ _ _ Er). inversion Hc; subst.
      assert (Ed : check_defaults true (sigs (s_F s)) (s_G s) ps = true).
      { unfold fun_ret in Er. destruct (check_defaults true _ _ ps); [reflexivity|discriminate]. }
      pose proof (defaults_sound s ps Hs Ed) as HD.
      destruct (eval_defaults fuel s ps) as [ds|er|]; cbn [sres_ok]; auto.
      destruct Hs as [HF He]. split; [split; [split; [split; [exact He|eauto]|exact HF]|exact He]|].
      cbn [s_F s_G sigs map fst snd]. unfold sig_of. cbn [fd_ps fd_ret]. destruct HD as [_ [-> _]]. reflexivity.
    - rewrite check_st_TIf in Hc. cbn [fst snd] in Hc. rewrite exec_TIf.
      destruct (infer true (sigs (s_F s)) (s_G s) c) as [tc|] eqn:Ei; try discriminate.
      destruct (sub tc T_Bool && is_some (check_block true (sigs (s_F s), s_G s) th)
                && is_some (check_block true (sigs (s_F s), s_G s) el)) eqn:Eb; try discriminate.
      inversion Hc; subst. apply andb_true_iff in Eb. destruct Eb as [Eb B2]. apply andb_true_iff in Eb. destruct Eb as [_ B1].
      eapply with_val_ok; [exact (ev_sound s c tc Hs Ei)|intros v _].
      destruct (truthy v); apply scoped_block_sound; auto.
    - rewrite check_st_TFor in Hc. cbn [fst snd] in Hc. rewrite exec_TFor.
      destruct (infer true (sigs (s_F s)) (s_G s) it) as [ti|] eqn:Ei; try discriminate.
      destruct ti as [| | | | | | | |t n]; try discriminate. rewrite (infer_lax _ _ _ _ Ei).
      destruct (is_some (check_block true (sigs (s_F s), (x, t) :: s_G s) body)) eqn:Eb; try discriminate.
      inversion Hc; subst.
      eapply with_val_ok; [exact (ev_sound s it _ Hs Ei)|intros v Hv].
      cbn [has_ty] in Hv. destruct v as [z|b0|fb|s0| |items|tl|c1 c2 c3 c4]; try discriminate.
      apply andb_true_iff in Hv. destruct Hv as [Hall _]. apply for_loop_sound; auto.
  Qed.

  Lemma exec_block_sound : forall ss s c', st_ok s -> check_block true (sigs (s_F s), s_G s) ss = Some c' ->
    sres_ok c' (exec_block fuel ss s).
  Proof. intros ss. apply block_sound. apply Forall_forall. intros x _. apply exec_sound. Qed.
End ExecSound.

Lemma init_ok : st_ok init_state.
Proof. split; cbn; auto. apply env_ok_nil. Qed.

Lemma run_block_sound : forall fuel p c', check_prog true p = Some c' -> sres_ok c' (exec_block fuel p init_state).
Proof. intros fuel p c' Hc. exact (exec_block_sound fuel p init_state c' init_ok Hc). Qed.
