(** C05 — definite static errors are always rejected.

    Model: the reference checker [typecheck] of Typing/Check.v over the fragment (expressions, definitions, functions
    and lambdas with defaults and local definitions, if!/for! blocks, builtin methods); [inject p pos m] (Typing/Inject.v)
    replaces the node at path [pos] by one of the five definite-error shapes [m], and is defined only when the new
    node is ill-typed in the environment the checker has at that position.  [strict] selects the operator table
    (false: the compiler's declared table gen/Sigs.v as it is; true: `**` restricted, see Props_C02) — the theorems
    hold for both.
    PARTIAL with respect to the real compiler: the theorems are about the reference checker; erg itself is tied
    program by program (checks/c05.py: every mutant produced by the extracted [inject] is given to `erg check` and
    `erg run`). *)
From Coq Require Import ZArith List Bool.
From ErgV Require Import CoreErg.Syntax CoreErg.Sem Typing.Types Typing.Check Typing.Eval Typing.Inject Typing.Spec
     Typing.ProofsBasic Typing.ProofsInject.
Import ListNotations.
Open Scope Z_scope.

(** 1. one injected definite error, at any position and nesting depth, makes the program ill-typed *)
Theorem mutation_ill_typed : forall strict p pos m p',
  typecheck strict p = true -> inject strict p pos m = Some p' -> typecheck strict p' = false.
Proof. intros strict p pos m p' _ H. unfold typecheck. rewrite (inject_ill strict p pos m p' H). reflexivity. Qed.

(* non-vacuity: an undefined name injected into the body of a lambda defined inside a for! block inside an if! block *)
Definition ex_prog : prog :=
  [TDef 1 None (XLit (LNat 3));
   TIf (XCmp CLt (XVar 1) (XLit (LNat 5)))
       [TFor 2 (XList [XLit (LNat 1); XLit (LNat 2)])
             [TFun 3 true [(4, T_Nat, None)] None [] (XBin OAdd (XVar 4) (XBin OMul (XVar 2) (XVar 1)));
              TPrint [XCall 3 [XVar 2]]]]
       []].
Example mutation_nonvacuous :
  typecheck false ex_prog = true /\
  exists p', inject false ex_prog [1; 1; 0; 1; 0; 2; 1; 1]%nat MUndef = Some p' /\ typecheck false p' = false.
Proof.
  split; [vm_compute; reflexivity|]. eexists. split.
  - vm_compute. reflexivity.
  - (* only now is the mutant known: evaluating the checker on an unknown program does not come back *)
    vm_compute. reflexivity.
Qed.

(** 2. a rejected program is not executed *)
Theorem rejected_not_executed : forall strict fuel p, typecheck strict p = false -> run_prog strict fuel p = ([], Rejected).
Proof. intros strict fuel p H. unfold run_prog. rewrite H. reflexivity. Qed.

(** 3. each of the five shapes is a definite error under its syntactic side condition, in every environment *)
Theorem undefined_variable_ill_typed : forall strict FS G, infer strict FS G (XVar (fresh_id FS G)) = None.
Proof. intros. cbn [infer]. apply fresh_var. Qed.
Theorem undefined_function_ill_typed : forall strict FS G args, infer strict FS G (XCall (fresh_id FS G) args) = None.
Proof. intros. rewrite infer_XCall, fresh_fun. destruct (infers strict FS G args); reflexivity. Qed.
Theorem none_operand_ill_typed : forall strict FS G op a,
  infer strict FS G (XBin op (XLit LNone) a) = None /\ infer strict FS G (XBin op a (XLit LNone)) = None.
Proof.
  intros strict FS G op a.
  pose proof (binop_res_none strict (arith_code op)) as L.
  split; cbn [infer lit_value]; destruct (infer strict FS G a) as [ta|]; try reflexivity; unfold bin_ty.
  - destruct (class_of ta) as [c|] eqn:E; cbn [class_of enum_class vclass]; [apply L|reflexivity].
  - destruct ta; cbn [class_of enum_class vclass]; try apply L;
      try (destruct (enum_class vs); [apply L|reflexivity]).
Qed.
Theorem too_many_arguments_ill_typed : forall strict FS G f args ps ret,
  @lookup_t fsig f FS = Some (ps, ret) -> (length ps < length args)%nat -> infer strict FS G (XCall f args) = None.
Proof.
  intros strict FS G f args ps ret Hl Hn. rewrite infer_XCall.
  destruct (infers strict FS G args) as [ts|] eqn:E; auto. rewrite Hl.
  rewrite <- (infers_length _ _ _ _ _ E) in Hn. rewrite (check_args_too_many _ _ Hn). reflexivity.
Qed.
Theorem missing_argument_ill_typed : forall strict FS G f args ps ret p,
  @lookup_t fsig f FS = Some (ps, ret) -> nth_error ps (length args) = Some (p, false) ->
  infer strict FS G (XCall f args) = None.
Proof.
  intros strict FS G f args ps ret p Hl Hn. rewrite infer_XCall.
  destruct (infers strict FS G args) as [ts|] eqn:E; auto. rewrite Hl.
  rewrite <- (infers_length _ _ _ _ _ E) in Hn. rewrite (check_args_too_few ps ts p Hn). reflexivity.
Qed.
Theorem argument_type_ill_typed : forall strict FS G f args ps ret ts k p d t,
  @lookup_t fsig f FS = Some (ps, ret) -> infers strict FS G args = Some ts ->
  nth_error ps k = Some (p, d) -> nth_error ts k = Some t -> sub t p = false ->
  infer strict FS G (XCall f args) = None.
Proof.
  intros strict FS G f args ps ret ts k p d t Hl Hi Hp Ht Hs.
  rewrite infer_XCall, Hi, Hl, (check_args_mismatch ps ts k p d t Hp Ht Hs). reflexivity.
Qed.
Theorem unknown_attribute_ill_typed : forall strict FS G m r args, meth_kind m = None -> infer strict FS G (XMeth m r args) = None.
Proof.
  intros strict FS G m r args H. rewrite infer_XMeth.
  destruct (infer strict FS G r); auto. destruct (infers strict FS G args); auto.
  unfold meth_ty. rewrite H. reflexivity.
Qed.
Theorem attribute_of_other_class_ill_typed : forall strict FS G m r args tr c k,
  infer strict FS G r = Some tr -> class_of tr = Some c -> int_like c = false ->
  meth_kind m = Some k -> (k = KSucc \/ k = KPred \/ k = KBitCount \/ k = KAbs \/ k = KAbsF) ->
  infer strict FS G (XMeth m r args) = None.
Proof.
  intros strict FS G m r args tr c k Hr Hc Hi Hk Hkind. rewrite infer_XMeth, Hr.
  destruct (infers strict FS G args) as [ts|]; auto. unfold meth_ty. rewrite Hk.
  destruct Hkind as [Hq|[Hq|[Hq|[Hq|Hq]]]]; subst k; destruct ts; auto; rewrite Hc, Hi; reflexivity.
Qed.
Example attribute_nonvacuous : infer false [] [] (XMeth M_succ (XLit (LStr [97])) []) = None.
Proof. reflexivity. Qed.
