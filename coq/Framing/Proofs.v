(** C25.  A schedule is reasoned about in two places: [read_exact_f_spec] says that a read loop delivers the next [n] pending
    bytes under every schedule ([py_recv_exact_f_eq]: the Python read loop is [read_exact_f]), [write_all_f_ok] that a write
    loop puts its whole buffer on the wire under every schedule.  Above them a stream is a list of bytes.  Both senders build the same sequence
    of [frame]s ([framed]); each receiver consumes one frame per iteration of its loop ([recv_frames]), hence
    takes a message from the front of any stream ([decodes]); a stream or a session repeats that.  The receive loops do not
    run out of fuel ([recv_all_f_fuel]).  At the end: the [_nofix] code on payloads above 0xFFFF bytes, at the empty schedule
    ([py_encode_nofix_overflow], [rust_truncation_nofix], [sync_nofix_step]), and the examples that Props_C25.v takes. *)
From Coq Require Import ZArith List Bool Arith Lia.
From ErgV Require Import Common.Lists Framing.Model Framing.Spec.
Import ListNotations.
Open Scope Z_scope.

Lemma next_chunk_range : forall n sch, (0 < n)%nat -> (1 <= fst (next_chunk n sch) <= n)%nat.
Proof. intros n [|c r] Hn; cbn [next_chunk fst]; lia. Qed.

Lemma read_exact_f_spec : forall fuel n p sch, (n <= fuel)%nat ->
  exists sch', read_exact_f fuel n (Src p sch) =
               (if (n <=? length p)%nat then Ok (firstn n p) else Err EEof, Src (skipn n p) sch').
Proof.
  induction fuel as [|f IH]; intros n p sch Hf.
  - assert (n = O) by lia. subst. exists sch. reflexivity.
  - destruct n as [|n']; [exists sch; reflexivity|].
    destruct p as [|z p']; [exists sch; reflexivity|].
    cbn [read_exact_f sread pending sched].
    pose proof (next_chunk_range (S n') sch (Nat.lt_0_succ _)) as Hk.
    destruct (next_chunk (S n') sch) as [k sch1]. cbn [fst] in Hk.
    assert (Hp : (0 < length (z :: p'))%nat) by apply Nat.lt_0_succ.
    remember (z :: p') as p eqn:Ep. clear Ep.
    assert (Hlen : length (firstn k p) = Nat.min k (length p)) by apply firstn_length.
    destruct (firstn k p) as [|g gs] eqn:Hgot; [cbn [length] in Hlen; lia|].
    rewrite Hlen, <- Hgot.
    destruct (IH (S n' - Nat.min k (length p))%nat (skipn k p) sch1) as [sch2 E]; [lia|].
    rewrite E. exists sch2. rewrite skipn_length.
    destruct (Nat.leb_spec (S n') (length p)) as [Hle|Hgt].
    + rewrite Nat.min_l by lia.
      rewrite (proj2 (Nat.leb_le _ _)) by lia.
      rewrite firstn_add, skipn_add. now replace (k + (S n' - k))%nat with (S n') by lia.
    + rewrite (proj2 (Nat.leb_gt _ _)) by lia.
      now rewrite !skipn_all2 by (rewrite ?skipn_length; lia).
Qed.

Lemma read_exact_spec : forall n p sch,
  exists sch', read_exact n (Src p sch) =
               (if (n <=? length p)%nat then Ok (firstn n p) else Err EEof, Src (skipn n p) sch').
Proof. intros. apply read_exact_f_spec, le_n. Qed.

Lemma read_exact_app : forall a b sch n, length a = n ->
  exists sch', read_exact n (Src (a ++ b) sch) = (Ok a, Src b sch').
Proof.
  intros a b sch n Hn. destruct (read_exact_spec n (a ++ b) sch) as [sch' E]. exists sch'.
  rewrite E, firstn_app_exact, skipn_app_exact by assumption.
  now rewrite (proj2 (Nat.leb_le _ _)) by (rewrite app_length; lia).
Qed.

Lemma read_exact_progress : forall n s,
  match read_exact n s with
  | (Ok _, s') => (length (pending s') + n = length (pending s))%nat
  | (Err e, _) => e <> EFuel
  end.
Proof.
  intros n [p sch]. destruct (read_exact_spec n p sch) as [sch' E]. rewrite E.
  destruct (Nat.leb_spec n (length p)); [|discriminate].
  cbn [pending]. rewrite skipn_length. lia.
Qed.

Lemma read_exact_fuel : forall n s r s', read_exact n s = (r, s') -> r <> Err EFuel.
Proof.
  intros n s r s' H. pose proof (read_exact_progress n s) as P. rewrite H in P.
  destruct r; congruence.
Qed.

Lemma py_recv_exact_f_eq : forall fuel n s, py_recv_exact_f fuel n s = read_exact_f fuel n s.
Proof.
  induction fuel as [|f IH]; intros n s; destruct n; try reflexivity.
  all: cbn [py_recv_exact_f read_exact_f]; destruct (sread (S n) s) as [c s1]; destruct c; [reflexivity|];
    now rewrite IH.
Qed.

Lemma py_recv_exact_eq : forall n s, py_recv_exact n s = read_exact n s.
Proof. intros. apply py_recv_exact_f_eq. Qed.

Lemma write_all_f_ok : forall fuel buf wsch, (length buf <= fuel)%nat ->
  exists wsch', write_all_f fuel buf wsch = (buf, Ok tt, wsch').
Proof.
  induction fuel as [|f IH]; intros buf wsch Hf.
  - destruct buf; [exists wsch; reflexivity|cbn in Hf; lia].
  - destruct buf as [|b bs]; [exists wsch; reflexivity|].
    cbn [write_all_f swrite].
    pose proof (next_chunk_range (length (b :: bs)) wsch (Nat.lt_0_succ _)) as Hk.
    destruct (next_chunk (length (b :: bs)) wsch) as [[|k] w1]; cbn [fst length] in Hk; [lia|].
    destruct (IH (skipn (S k) (b :: bs)) w1) as [w2 E].
    + rewrite skipn_length. lia.
    + rewrite E. exists w2. now rewrite firstn_skipn.
Qed.

Lemma write_all_ok : forall buf wsch, exists wsch', write_all buf wsch = (buf, Ok tt, wsch').
Proof. intros. apply write_all_f_ok. lia. Qed.

Lemma be16_dec : forall n, 0 <= n <= MAXF -> from_bytes_be (be16 n) = n.
Proof.
  intros n Hn. unfold from_bytes_be, be16. cbn [fold_left].
  pose proof (Z.div_mod n 256). lia.
Qed.
Lemma be16_length : forall n, length (be16 n) = 2%nat.
Proof. reflexivity. Qed.
Lemma from_bytes_be_1 : forall b, from_bytes_be [b] = b.
Proof. intros. unfold from_bytes_be. cbn. lia. Qed.

(** [NF] is opaque so that no proof step unfolds it into 65535 successors.  Proofs pass between [NF] and
    [Z.to_nat MAXF] by rewriting with [NF_def], never by conversion: the kernel may decide such a conversion
    by evaluating both sides. *)
Definition NF : nat := Z.to_nat MAXF.
Lemma NF_eq : Z.of_nat NF = MAXF.
Proof. apply Z2Nat.id. discriminate. Qed.
Lemma NF_def : Z.to_nat MAXF = NF.
Proof. unfold NF. reflexivity. Qed.
Global Opaque NF.

Definition frame (inst : Z) (d : list Z) : list Z := inst :: be16 (Z.of_nat (length d)) ++ d.

Inductive framed (inst : Z) : list Z -> list Z -> Prop :=
| framed_last : forall d, Z.of_nat (length d) < MAXF -> framed inst d (frame inst d)
| framed_more : forall d data more, Z.of_nat (length d) = MAXF -> framed inst data more ->
    framed inst (d ++ data) (frame inst d ++ more).

Lemma firstn_NF_length : forall data : list Z, MAXF <= Z.of_nat (length data) ->
  Z.of_nat (length (firstn NF data)) = MAXF.
Proof. intros data H. pose proof NF_eq. rewrite firstn_length_le; lia. Qed.

Lemma frames_f_short : forall f inst data, Z.of_nat (length data) < MAXF ->
  frames_f (S f) inst data = Ok (frame inst data).
Proof.
  intros f inst data H. cbn [frames_f]. rewrite Z.min_l by lia.
  destruct (Z.ltb_spec (Z.of_nat (length data)) MAXF); [|lia].
  now rewrite Nat2Z.id, firstn_all.
Qed.

Lemma frames_f_long : forall f inst data, MAXF <= Z.of_nat (length data) ->
  frames_f (S f) inst data =
  match frames_f f inst (skipn NF data) with
  | Ok more => Ok (frame inst (firstn NF data) ++ more)
  | Err e => Err e
  end.
Proof.
  intros f inst data H. cbn [frames_f]. rewrite Z.min_r by lia.
  destruct (Z.ltb_spec MAXF MAXF); [lia|].
  unfold frame. now rewrite NF_def, firstn_NF_length.
Qed.

Lemma frames_total : forall fe inst data, (length data < fe)%nat -> exists bs, frames_f fe inst data = Ok bs.
Proof.
  induction fe as [|f IH]; intros inst data H; [lia|].
  destruct (Z.ltb_spec (Z.of_nat (length data)) MAXF) as [Hs|Hl].
  - rewrite frames_f_short by assumption. eexists; reflexivity.
  - rewrite frames_f_long by assumption.
    destruct (IH inst (skipn NF data)) as [more E].
    + rewrite skipn_length. pose proof NF_eq; unfold MAXF in *; lia.
    + rewrite E. eexists; reflexivity.
Qed.

Lemma frames_framed : forall fe inst data bs, frames_f fe inst data = Ok bs -> framed inst data bs.
Proof.
  induction fe as [|f IH]; intros inst data bs H; [discriminate|].
  destruct (Z.ltb_spec (Z.of_nat (length data)) MAXF) as [Hs|Hl].
  - rewrite frames_f_short in H by assumption. injection H as <-. now constructor.
  - rewrite frames_f_long in H by assumption.
    destruct (frames_f f inst (skipn NF data)) as [more|] eqn:E; [injection H as <-|discriminate].
    rewrite <- (firstn_skipn NF data) at 1.
    constructor; [now apply firstn_NF_length|now apply IH].
Qed.

Lemma framed_length : forall inst data bs, framed inst data bs -> (length data < length bs)%nat.
Proof.
  induction 1 as [d _|d data more _ _ IH]; unfold frame; cbn [length app be16]; rewrite ?app_length; lia.
Qed.

Lemma rust_encode_total : forall m, exists bs, rust_encode m = Ok bs.
Proof. intros m. unfold rust_encode. apply frames_total. lia. Qed.

Lemma py_to_bytes1_ok : forall n, 0 <= n <= 255 -> py_to_bytes1 n = Ok [n].
Proof.
  intros n H. unfold py_to_bytes1.
  now rewrite (proj2 (Z.leb_le 0 n)), (proj2 (Z.leb_le n 255)) by lia.
Qed.
Lemma py_to_bytes2_ok : forall n, 0 <= n <= MAXF -> py_to_bytes2 n = Ok (be16 n).
Proof.
  intros n H. unfold py_to_bytes2.
  now rewrite (proj2 (Z.leb_le 0 n)), (proj2 (Z.leb_le n MAXF)) by lia.
Qed.

Lemma py_frames_eq : forall fe inst data, 0 <= inst <= 255 -> py_frames_f fe inst data = frames_f fe inst data.
Proof.
  induction fe as [|f IH]; intros inst data Hi; [reflexivity|].
  cbn [py_frames_f frames_f]. rewrite IH, py_to_bytes1_ok, NF_def by assumption.
  assert (Hlen : Z.of_nat (length (firstn NF data)) = Z.min (Z.of_nat (length data)) MAXF).
  { rewrite firstn_length. pose proof NF_eq. lia. }
  rewrite Hlen, py_to_bytes2_ok by (unfold MAXF; lia).
  destruct (Z.ltb_spec (Z.min (Z.of_nat (length data)) MAXF) MAXF) as [Hs|Hl].
  - rewrite Z.min_l, Nat2Z.id, firstn_all by lia.
    now rewrite firstn_all2 by (pose proof NF_eq; lia).
  - now rewrite Z.min_r, NF_def by lia.
Qed.

Lemma py_encode_eq : forall m, wf_py m -> py_encode m = rust_encode m.
Proof. intros m H. unfold py_encode, rust_encode. now apply py_frames_eq. Qed.

Lemma wf_msg_py : forall m, wf_msg m -> wf_py m.
Proof. intros m [H0 H6]. unfold wf_py. lia. Qed.

Definition decodes (recv : src -> res msg * src) (b : list Z) (m : msg) : Prop :=
  forall rest sch, exists sch', recv (Src (b ++ rest) sch) = (Ok m, Src rest sch').

Section RecvFrames.
  Variable recvf : nat -> list Z -> src -> res msg * src.
  Variable imap : Z -> Z.
  Hypothesis frame_step : forall f acc inst d tail sch, Z.of_nat (length d) <= MAXF ->
    exists sch', recvf (S f) acc (Src (frame inst d ++ tail) sch) =
                 if Z.of_nat (length d) <? MAXF then (Ok (Msg (imap inst) (acc ++ d)), Src tail sch')
                 else recvf f (acc ++ d) (Src tail sch').

  Lemma recv_frames : forall inst data bs, framed inst data bs ->
    forall fr acc rest sch, (length data < fr)%nat ->
    exists sch', recvf fr acc (Src (bs ++ rest) sch) = (Ok (Msg (imap inst) (acc ++ data)), Src rest sch').
  Proof.
    induction 1 as [d Hd|d data more Hd _ IH]; intros fr acc rest sch Hfr; (destruct fr as [|fr]; [lia|]).
    - destruct (frame_step fr acc inst d rest sch) as [sch' E]; [lia|].
      rewrite (proj2 (Z.ltb_lt _ _)) in E by assumption. now exists sch'.
    - rewrite <- app_assoc.
      destruct (frame_step fr acc inst d (more ++ rest) sch) as [sch1 E]; [lia|].
      rewrite (proj2 (Z.ltb_ge _ _)) in E by lia. rewrite E.
      destruct (IH fr (acc ++ d) rest sch1) as [sch2 E2].
      + rewrite app_length in Hfr. unfold MAXF in Hd. lia.
      + rewrite E2, <- app_assoc. now exists sch2.
  Qed.
End RecvFrames.

Lemma inst_of_u8_wf : forall i, wf_inst i -> inst_of_u8 i = i.
Proof.
  intros i [H0 H6]. unfold inst_of_u8.
  destruct (Z.leb_spec 1 i); destruct (Z.leb_spec i 6); cbn [andb]; lia.
Qed.

Lemma rust_recv_frame_ok : forall inst d, Z.of_nat (length d) <= MAXF ->
  decodes rust_recv_frame (frame inst d) (Msg (inst_of_u8 inst) d).
Proof.
  intros inst d Hd tail sch. unfold rust_recv_frame, frame. cbn [app]. rewrite <- app_assoc.
  destruct (read_exact_app [inst] (be16 (Z.of_nat (length d)) ++ d ++ tail) sch 1 eq_refl) as [s1 E1].
  cbn [app] in E1. rewrite E1.
  destruct (read_exact_app (be16 (Z.of_nat (length d))) (d ++ tail) s1 2 eq_refl) as [s2 E2]. rewrite E2.
  rewrite be16_dec, Nat2Z.id by lia.
  destruct (read_exact_app d tail s2 (length d) eq_refl) as [s3 E3]. rewrite E3.
  rewrite from_bytes_be_1. now exists s3.
Qed.

Lemma rust_more_done : forall fuel inst acc last s, last <> MAXF ->
  rust_recv_more_f fuel inst acc last s = (Ok (Msg inst acc), s).
Proof.
  intros fuel inst acc last s H. destruct fuel; cbn [rust_recv_more_f];
    destruct (Z.eqb_spec last MAXF); congruence.
Qed.

Lemma rust_first_frame : forall inst d tail sch, Z.of_nat (length d) <= MAXF ->
  exists sch', rust_recv_msg (Src (frame inst d ++ tail) sch) =
               rust_recv_more_f (S (length tail)) (inst_of_u8 inst) d (Z.of_nat (length d)) (Src tail sch').
Proof.
  intros inst d tail sch Hd. unfold rust_recv_msg.
  destruct (rust_recv_frame_ok inst d Hd tail sch) as [sch' E]. rewrite E.
  unfold msg_len. rewrite Z.min_l by assumption. now exists sch'.
Qed.

(** the continuation loop, entered with [last = 0xFFFF] *)
Lemma rust_frame_step : forall i0 f acc inst d tail sch, Z.of_nat (length d) <= MAXF ->
  exists sch', rust_recv_more_f (S f) i0 acc MAXF (Src (frame inst d ++ tail) sch) =
               if Z.of_nat (length d) <? MAXF then (Ok (Msg i0 (acc ++ d)), Src tail sch')
               else rust_recv_more_f f i0 (acc ++ d) MAXF (Src tail sch').
Proof.
  intros i0 f acc inst d tail sch Hd. cbn [rust_recv_more_f]. rewrite Z.eqb_refl.
  destruct (rust_recv_frame_ok inst d Hd tail sch) as [sch' E]. rewrite E. cbn [m_data].
  unfold msg_len. rewrite Z.min_l by assumption. exists sch'.
  destruct (Z.ltb_spec (Z.of_nat (length d)) MAXF) as [Hlt|Hge].
  - apply rust_more_done. lia.
  - now replace (Z.of_nat (length d)) with MAXF by lia.
Qed.

Lemma rust_recv_one : forall m b, wf_msg m -> rust_encode m = Ok b -> decodes rust_recv_msg b m.
Proof.
  intros [inst data] b Hw He rest sch. apply frames_framed in He. cbn [m_inst m_data] in He.
  rewrite <- (inst_of_u8_wf inst Hw).
  destruct He as [d Hd|d data more Hd Hm].
  - destruct (rust_first_frame inst d rest sch) as [sch' E]; [lia|].
    exists sch'. rewrite E. apply rust_more_done. lia.
  - rewrite <- app_assoc.
    destruct (rust_first_frame inst d (more ++ rest) sch) as [sch1 E]; [lia|]. rewrite E, Hd.
    set (i0 := inst_of_u8 inst).
    apply (recv_frames (fun fuel acc s => rust_recv_more_f fuel i0 acc MAXF s) (fun _ => i0) (rust_frame_step i0)
             inst data more Hm).
    apply framed_length in Hm. rewrite app_length. lia.
Qed.

Lemma py_frame_step : forall f acc inst d tail sch, Z.of_nat (length d) <= MAXF ->
  exists sch', py_recv_msg_f (S f) acc (Src (frame inst d ++ tail) sch) =
               if Z.of_nat (length d) <? MAXF then (Ok (Msg inst (acc ++ d)), Src tail sch')
               else py_recv_msg_f f (acc ++ d) (Src tail sch').
Proof.
  intros f acc inst d tail sch Hd. cbn [py_recv_msg_f]. rewrite !py_recv_exact_eq.
  destruct (read_exact_app (inst :: be16 (Z.of_nat (length d))) (d ++ tail) sch 3 eq_refl) as [s1 E1].
  unfold frame. cbn [app] in E1 |- *. rewrite <- app_assoc, E1.
  cbn [firstn skipn be16 nth]. fold (be16 (Z.of_nat (length d))).
  rewrite be16_dec, Nat2Z.id, py_recv_exact_eq by lia.
  destruct (read_exact_app d tail s1 (length d) eq_refl) as [s2 E2]. rewrite E2.
  now exists s2.
Qed.

Lemma py_recv_one : forall m b, rust_encode m = Ok b -> decodes py_recv_msg b m.
Proof.
  intros [inst data] b He rest sch. apply frames_framed in He. cbn [m_inst m_data] in He.
  apply (recv_frames _ _ py_frame_step inst data b He).
  apply framed_length in He. cbn [pending]. rewrite app_length. lia.
Qed.

Lemma zs_eqb_eq : forall a b, zs_eqb a b = true <-> a = b.
Proof. exact Common.Lists.zs_eqb_eq. Qed.
Lemma msg_eqb_eq : forall a b, msg_eqb a b = true <-> a = b.
Proof.
  intros [i d] [j e]. unfold msg_eqb. cbn [m_inst m_data]. rewrite andb_true_iff, Z.eqb_eq, zs_eqb_eq.
  split; [intros [-> ->]; reflexivity|intro H; inversion H; auto].
Qed.
Lemma msgs_eqb_eq : forall a b, msgs_eqb a b = true <-> a = b.
Proof.
  induction a as [|x a IH]; destruct b as [|y b]; cbn [msgs_eqb]; try easy.
  rewrite andb_true_iff, msg_eqb_eq, IH. split; [now intros [-> ->]|intro H; now inversion H].
Qed.
Lemma judge_transport_iff : forall sent got, judge_transport sent got = true <-> got = (sent, None).
Proof.
  intros sent [g [e|]]; unfold judge_transport; cbn [fst snd].
  - split; [discriminate|intro H; inversion H].
  - rewrite msgs_eqb_eq. split; [intros ->; reflexivity|intro H; inversion H; reflexivity].
Qed.

Definition on_stream (enc : msg -> res (list Z)) (ms : list msg) (f : list Z -> list msg * option err)
  : list msg * option err :=
  match encode_all enc ms with Ok bs => f bs | Err e => ([], Some e) end.

Lemma recv_all_f_first : forall recv fuel s m s1,
  (0 < length (pending s) <= fuel)%nat -> recv s = (Ok m, s1) ->
  recv_all_f recv fuel s = let (ms, e) := recv_all_f recv (pred fuel) s1 in (m :: ms, e).
Proof.
  intros recv [|f] [[|z p] sch] m s1 H E; cbn [pending length] in H; try lia.
  cbn [recv_all_f pending Nat.pred]. now rewrite E.
Qed.

Section Stream.
  Variable enc : msg -> res (list Z).
  Variable recv : src -> res msg * src.
  Variable P : msg -> Prop.
  Hypothesis enc_frames : forall m, P m -> enc m = rust_encode m.
  Hypothesis recv_one : forall m b, P m -> rust_encode m = Ok b -> decodes recv b m.

  Lemma encode_all_total : forall msgs, Forall P msgs -> exists bs, encode_all enc msgs = Ok bs.
  Proof.
    induction 1 as [|m r Pm _ [bs Ebs]]; [eexists; reflexivity|].
    destruct (rust_encode_total m) as [b Eb]. rewrite <- enc_frames in Eb by assumption.
    cbn [encode_all]. rewrite Eb, Ebs. eexists; reflexivity.
  Qed.

  Lemma recv_all_encoded : forall msgs bs, Forall P msgs -> encode_all enc msgs = Ok bs ->
    forall sch fuel, (length bs <= fuel)%nat -> recv_all_f recv fuel (Src bs sch) = (msgs, None).
  Proof.
    induction msgs as [|m r IH]; intros bs HP He sch fuel Hf.
    - injection He as <-. destruct fuel; reflexivity.
    - cbn [encode_all] in He. destruct (enc m) as [b|] eqn:Eb; [|discriminate].
      destruct (encode_all enc r) as [bs'|] eqn:Er; [|discriminate].
      injection He as <-. inversion HP as [|? ? Pm Pr].
      rewrite enc_frames in Eb by assumption.
      destruct (recv_one m b Pm Eb bs' sch) as [sch' E].
      apply frames_framed, framed_length in Eb. rewrite app_length in Hf.
      assert (Hl : (0 < length (pending (Src (b ++ bs') sch)) <= fuel)%nat)
        by (cbn [pending]; rewrite app_length; lia).
      rewrite (recv_all_f_first recv fuel _ m _ Hl E).
      rewrite (IH bs' Pr eq_refl sch' (pred fuel)); [reflexivity|lia].
  Qed.

  Theorem stream_decoded : forall msgs chunks bs, Forall P msgs -> encode_all enc msgs = Ok bs ->
    recv_all_f recv (length bs) (Src bs chunks) = (msgs, None).
  Proof. intros. now apply recv_all_encoded. Qed.

  Lemma on_stream_decoded : forall msgs chunks, Forall P msgs ->
    judge_transport msgs (on_stream enc msgs (fun bs => recv_all_f recv (length bs) (Src bs chunks))) = true.
  Proof.
    intros msgs chunks HP. destruct (encode_all_total msgs HP) as [bs E].
    unfold on_stream. rewrite E. apply judge_transport_iff. now apply stream_decoded.
  Qed.
End Stream.

Lemma rust_send_wire : forall m wsch, exists bs wsch',
  rust_encode m = Ok bs /\ rust_send_msg m wsch = (bs, Ok tt, wsch').
Proof.
  intros m wsch. destruct (rust_encode_total m) as [bs E]. destruct (write_all_ok bs wsch) as [w' Ew].
  exists bs, w'. split; [assumption|]. unfold rust_send_msg. now rewrite E.
Qed.

Lemma py_send_wire : forall m wsch, wf_py m -> exists bs wsch',
  py_encode m = Ok bs /\ py_send_msg m wsch = (bs, Ok tt, wsch').
Proof.
  intros m wsch Hm. destruct (rust_encode_total m) as [bs E]. rewrite <- py_encode_eq in E by assumption.
  destruct (write_all_ok bs wsch) as [w' Ew].
  exists bs, w'. split; [assumption|]. unfold py_send_msg. now rewrite E.
Qed.

Section Sync.
  Variable St : Type.
  Variable handler : St -> msg -> St * msg.
  Hypothesis handler_wf : forall st m, wf_msg (snd (handler st m)).

  Lemma step_in_sync : forall st r,
    step St handler codec_now (Sys st [] []) r =
    (Ok (snd (handler st (r_req r))), Sys (fst (handler st (r_req r))) [] []).
  Proof.
    intros st [req cw sr sw cr]. unfold step.
    cbn [c_send c_recv s_send s_recv codec_now r_req r_cw r_sr r_sw r_cr srv c2s s2c app].
    destruct (rust_send_wire req cw) as [b1 [w1 [E1 S1]]]. rewrite S1.
    destruct (py_recv_one req b1 E1 [] sr) as [sch1 R1]. rewrite app_nil_r in R1. rewrite R1.
    pose proof (handler_wf st req) as Hr.
    destruct (handler st req) as [st' resp].
    destruct (py_send_wire resp sw (wf_msg_py _ Hr)) as [b2 [w2 [E2 S2]]]. rewrite S2.
    rewrite py_encode_eq in E2 by (now apply wf_msg_py).
    destruct (rust_recv_one resp b2 Hr E2 [] cr) as [sch2 R2]. rewrite app_nil_r in R2. rewrite R2.
    reflexivity.
  Qed.

  Lemma sync_now : forall rounds st,
    run_history St handler codec_now (Sys st [] []) rounds = (ref_run St handler st (map r_req rounds), None).
  Proof.
    induction rounds as [|r rest IH]; intros st; [reflexivity|].
    cbn [run_history map ref_run]. rewrite step_in_sync.
    destruct (handler st (r_req r)) as [st' a].
    now rewrite IH.
  Qed.
End Sync.

(** a received message took at least its 3 header bytes from the stream *)
Definition progress (s : src) (x : res msg * src) : Prop :=
  match x with
  | (Ok _, s') => (length (pending s') + 3 <= length (pending s))%nat
  | (Err e, _) => e <> EFuel
  end.

Lemma rust_recv_frame_progress : forall s, progress s (rust_recv_frame s).
Proof.
  intros s. unfold rust_recv_frame.
  pose proof (read_exact_progress 1 s) as P1. destruct (read_exact 1 s) as [[ib|e] s1]; [|exact P1].
  pose proof (read_exact_progress 2 s1) as P2. destruct (read_exact 2 s1) as [[sb|e] s2]; [|exact P2].
  pose proof (read_exact_progress (Z.to_nat (from_bytes_be sb)) s2) as P3.
  destruct (read_exact (Z.to_nat (from_bytes_be sb)) s2) as [[d|e] s3]; [|exact P3].
  cbn [progress]. lia.
Qed.

Lemma rust_recv_more_f_progress : forall fuel inst acc last s, (length (pending s) < fuel)%nat ->
  match rust_recv_more_f fuel inst acc last s with
  | (Ok _, s') => (length (pending s') <= length (pending s))%nat
  | (Err e, _) => e <> EFuel
  end.
Proof.
  induction fuel as [|f IH]; intros inst acc last s Hf; [lia|].
  cbn [rust_recv_more_f]. destruct (last =? MAXF); [|lia].
  pose proof (rust_recv_frame_progress s) as Hp.
  destruct (rust_recv_frame s) as [[m|e] s1]; cbn [progress] in Hp; [|assumption].
  assert (Hlt : (length (pending s1) < f)%nat) by lia.
  specialize (IH inst (acc ++ m_data m) (msg_len (m_data m)) s1 Hlt).
  destruct (rust_recv_more_f f inst (acc ++ m_data m) (msg_len (m_data m)) s1) as [[m'|e'] s'];
    [lia|assumption].
Qed.

Lemma rust_recv_msg_progress : forall s, progress s (rust_recv_msg s).
Proof.
  intros s. unfold rust_recv_msg.
  pose proof (rust_recv_frame_progress s) as Hp.
  destruct (rust_recv_frame s) as [[m|e] s1]; cbn [progress] in Hp; [|assumption].
  pose proof (rust_recv_more_f_progress (S (length (pending s1))) (m_inst m) (m_data m) (msg_len (m_data m)) s1
                (Nat.lt_succ_diag_r _)) as Hm.
  destruct (rust_recv_more_f _ _ _ _ _) as [[m'|e'] s']; cbn [progress]; [lia|assumption].
Qed.

Lemma py_recv_msg_f_progress : forall fuel acc s, (length (pending s) < fuel)%nat ->
  progress s (py_recv_msg_f fuel acc s).
Proof.
  induction fuel as [|f IH]; intros acc s Hf; [lia|].
  cbn [py_recv_msg_f]. rewrite py_recv_exact_eq.
  pose proof (read_exact_progress 3 s) as P1. destruct (read_exact 3 s) as [[head|e] s1]; [|exact P1].
  rewrite py_recv_exact_eq.
  pose proof (read_exact_progress (Z.to_nat (from_bytes_be (firstn 2 (skipn 1 head)))) s1) as P2.
  destruct (read_exact (Z.to_nat (from_bytes_be (firstn 2 (skipn 1 head)))) s1) as [[d|e] s2]; [|exact P2].
  destruct (from_bytes_be (firstn 2 (skipn 1 head)) <? MAXF).
  - cbn [progress]. lia.
  - assert (Hlt : (length (pending s2) < f)%nat) by lia.
    specialize (IH (acc ++ d) s2 Hlt).
    destruct (py_recv_msg_f f (acc ++ d) s2) as [[m|e] s']; cbn [progress] in *; [lia|assumption].
Qed.

Lemma py_recv_msg_progress : forall s, progress s (py_recv_msg s).
Proof. intros. unfold py_recv_msg. apply py_recv_msg_f_progress. lia. Qed.

Section RecvAllFuel.
  Variable recv : src -> res msg * src.
  Hypothesis recv_progress : forall s, progress s (recv s).
  Lemma recv_all_f_fuel : forall fuel s, (length (pending s) <= fuel)%nat ->
    snd (recv_all_f recv fuel s) <> Some EFuel.
  Proof.
    induction fuel as [|f IH]; intros [p sch] Hf; cbn [pending] in Hf.
    - destruct p; [cbn; discriminate|cbn in Hf; lia].
    - destruct p as [|z p']; [cbn; discriminate|].
      cbn [recv_all_f pending].
      pose proof (recv_progress (Src (z :: p') sch)) as Hp.
      destruct (recv (Src (z :: p') sch)) as [[m|e] s1]; cbn [progress pending] in Hp.
      + specialize (IH s1). destruct (recv_all_f recv f s1) as [ms e'].
        apply IH. lia.
      + cbn [snd]. congruence.
  Qed.
End RecvAllFuel.

Lemma rust_recv_all_fuel : forall s, snd (rust_recv_all s) <> Some EFuel.
Proof. intros s. apply recv_all_f_fuel; [apply rust_recv_msg_progress|apply le_n]. Qed.
Lemma py_recv_all_fuel : forall s, snd (py_recv_all s) <> Some EFuel.
Proof. intros s. apply recv_all_f_fuel; [apply py_recv_msg_progress|apply le_n]. Qed.

(** instruction codes of concrete messages are in range *)
Ltac wf_insts := repeat constructor; unfold wf_msg, wf_inst; cbn [m_inst r_req]; lia.

(** The [_nofix] code, on payloads larger than the size field.  The facts are proved for every such
    payload, so that the concrete witnesses are never evaluated. *)

Lemma fill_length : forall n b, 0 <= n -> Z.of_nat (length (fill n b)) = n.
Proof. intros n b H. unfold fill. rewrite repeat_length. now apply Z2Nat.id. Qed.

Lemma fill_65536 : forall b, fill 65536 b = b :: repeat b NF /\ skipn NF (fill 65536 b) = [b].
Proof.
  intro b. unfold fill.
  replace (Z.to_nat 65536) with (S NF)
    by (apply Nat2Z.inj; rewrite Nat2Z.inj_succ, NF_eq, Z2Nat.id by discriminate; reflexivity).
  split; [reflexivity|].
  cbn [repeat]. rewrite repeat_cons. apply skipn_app_exact, repeat_length.
Qed.

Lemma py_encode_nofix_overflow : forall inst data, 0 <= inst <= 255 -> MAXF < Z.of_nat (length data) ->
  py_encode_nofix (Msg inst data) = Err EOverflow.
Proof.
  intros inst data Hi Hd. unfold py_encode_nofix. cbn [m_inst m_data]. rewrite py_to_bytes1_ok by assumption.
  unfold py_to_bytes2. rewrite (proj2 (Z.leb_gt _ _) Hd). now rewrite andb_false_r.
Qed.

(** Rust sender: the size field says 0xFFFF and the whole payload follows, so a receiver takes the first
    0xFFFF bytes for the message and finds the rest where it expects the next header *)
Lemma rust_encode_nofix_long : forall inst data, MAXF <= Z.of_nat (length data) ->
  rust_encode_nofix (Msg inst data) = Ok (frame inst (firstn NF data) ++ skipn NF data).
Proof.
  intros inst data H. unfold rust_encode_nofix, frame. cbn [m_inst m_data app].
  now rewrite Z.min_r, firstn_NF_length, <- app_assoc, firstn_skipn by assumption.
Qed.

Lemma rust_truncation_nofix : forall inst data ms chunks bs, MAXF < Z.of_nat (length data) ->
  encode_all rust_encode_nofix (Msg inst data :: ms) = Ok bs ->
  rust_recv_all_nofix (Src bs chunks) <> (Msg inst data :: ms, None).
Proof.
  intros inst data ms chunks bs Hd He H. cbn [encode_all] in He.
  rewrite rust_encode_nofix_long in He by lia.
  destruct (encode_all rust_encode_nofix ms) as [bs'|]; [|discriminate].
  assert (Hbs : bs = (frame inst (firstn NF data) ++ skipn NF data) ++ bs') by congruence.
  rewrite Hbs, <- app_assoc in H.
  destruct (rust_recv_frame_ok inst (firstn NF data)) with (rest := skipn NF data ++ bs') (sch := chunks)
    as [sch' E]; [rewrite firstn_NF_length; lia|].
  set (B := frame inst (firstn NF data) ++ skipn NF data ++ bs') in *.
  assert (Hne : (0 < length B)%nat) by (unfold B, frame; cbn [app length]; lia).
  change (rust_recv_all_nofix (Src B chunks)) with (recv_all_f rust_recv_msg_nofix (length B) (Src B chunks)) in H.
  rewrite (recv_all_f_first rust_recv_msg_nofix (length B) (Src B chunks) _ _ (conj Hne (le_n _)) E) in H.
  destruct (recv_all_f rust_recv_msg_nofix _ _) as [ms' e]. injection H as Hi Hdata _ _.
  apply (f_equal (@length Z)) in Hdata. rewrite firstn_length in Hdata. pose proof NF_eq. lia.
Qed.

Lemma sread_unchunked : forall n p, sread n (Src p []) = (firstn n p, Src (skipn n p) []).
Proof. intros [|n] [|z p]; reflexivity. Qed.

Lemma py_recv_msg_nofix_unchunked : forall inst d tail, Z.of_nat (length d) <= MAXF ->
  py_recv_msg_nofix (Src (frame inst d ++ tail) []) = (Ok (Msg inst d), Src tail []).
Proof.
  intros inst d tail Hd. unfold py_recv_msg_nofix, frame. rewrite sread_unchunked.
  cbn [app firstn skipn be16]. fold (be16 (Z.of_nat (length d))).
  rewrite from_bytes_be_1, be16_dec, Nat2Z.id, sread_unchunked by lia.
  now rewrite firstn_app_exact, skipn_app_exact by reflexivity.
Qed.

Lemma py_send_msg_nofix_unchunked : forall inst d, 0 <= inst <= 255 -> Z.of_nat (length d) <= MAXF ->
  py_send_msg_nofix (Msg inst d) [] = (frame inst d, Ok tt, []).
Proof.
  intros inst d Hi Hd. unfold py_send_msg_nofix, py_encode_nofix. cbn [m_inst m_data].
  rewrite py_to_bytes1_ok, py_to_bytes2_ok by lia.
  unfold send_once. cbn [app swrite next_chunk]. now rewrite firstn_all.
Qed.

Definition first_byte_handler (st : unit) (m : msg) : unit * msg := (st, Msg 1 (firstn 1 (m_data m))).

(** a session desynchronises after one large request: what the server leaves in the stream stands in front of
    the next request *)
Lemma sync_nofix_step : forall data, MAXF < Z.of_nat (length data) ->
  step unit first_byte_handler codec_nofix (Sys tt [] []) (Round (Msg 6 data) [] [] [] []) =
  (Ok (Msg 1 (firstn 1 data)), Sys tt (skipn NF data) []).
Proof.
  intros data Hd. unfold step.
  cbn [c_send c_recv s_send s_recv codec_nofix r_req r_cw r_sr r_sw r_cr srv c2s s2c app].
  rewrite rust_encode_nofix_long by lia.
  destruct (write_all_ok (frame 6 (firstn NF data) ++ skipn NF data) []) as [w1 E1]. rewrite E1.
  pose proof (firstn_NF_length data ltac:(lia)) as Hn.
  rewrite py_recv_msg_nofix_unchunked by lia.
  cbn [first_byte_handler m_data pending]. rewrite firstn_firstn.
  replace (Nat.min 1 NF) with 1%nat by (pose proof NF_eq; unfold MAXF in *; lia).
  assert (H1 : Z.of_nat (length (firstn 1 data)) <= MAXF).
  { rewrite firstn_length. unfold MAXF. lia. }
  rewrite py_send_msg_nofix_unchunked by (assumption || lia).
  destruct (rust_recv_frame_ok 1 (firstn 1 data) H1 [] []) as [sch' E2].
  rewrite app_nil_r in E2. unfold rust_recv_msg_nofix. rewrite E2. reflexivity.
Qed.

Definition w_sync_rounds : list round :=
  [Round (Msg 6 (fill 65536 97)) [] [] [] []; Round (Msg 6 [98]) [] [] [] []].

(* what the client sees in that session: the second answer is [1] (a byte of the first request's tail
   header) instead of [98] *)
Example sync_nofix_trace :
  run_history unit first_byte_handler codec_nofix (Sys tt [] []) w_sync_rounds = ([Msg 1 [97]; Msg 1 [1]], None).
Proof.
  unfold w_sync_rounds. cbn [run_history].
  rewrite sync_nofix_step by (rewrite fill_length; [reflexivity|discriminate]).
  destruct (fill_65536 97) as [-> ->]. reflexivity.
Qed.

(** the small inputs are evaluated; those with payloads larger than a frame are instances of the theorems *)
Definition ex_msgs : list msg := [Msg 6 [104; 105]; Msg 5 []; Msg 1 [0; 255]].
Definition ex_big : list msg := [Msg 6 (fill 70000 97); Msg 5 []; Msg 1 (fill 65535 98); Msg 2 [1; 2; 3]].
Definition ex_chunks : list nat := [1; 2; 3; Z.to_nat 65535; 1; 1; Z.to_nat 70000; 5; 0; 2]%nat.

Lemma wf_ex_big : Forall wf_msg ex_big.
Proof. wf_insts. Qed.

Example ex_rust_small :
  Forall wf_msg ex_msgs /\ encode_all rust_encode ex_msgs = Ok [6; 0; 2; 104; 105; 5; 0; 0; 1; 0; 2; 0; 255] /\
  rust_recv_all (Src [6; 0; 2; 104; 105; 5; 0; 0; 1; 0; 2; 0; 255] [1; 1; 1; 1; 3]%nat) = (ex_msgs, None).
Proof. split; [wf_insts|split; vm_compute; reflexivity]. Qed.

Example ex_rust_big :
  Forall wf_msg ex_big /\
  judge_transport ex_big (on_stream rust_encode ex_big (fun bs => rust_recv_all (Src bs ex_chunks))) = true.
Proof.
  split; [exact wf_ex_big|].
  exact (on_stream_decoded rust_encode rust_recv_msg wf_msg (fun _ _ => eq_refl) rust_recv_one
           ex_big ex_chunks wf_ex_big).
Qed.

Example ex_py_big :
  Forall wf_py ex_big /\
  judge_transport ex_big (on_stream py_encode ex_big (fun bs => py_recv_all (Src bs ex_chunks))) = true.
Proof.
  assert (Hw : Forall wf_py ex_big) by (eapply Forall_impl; [apply wf_msg_py|exact wf_ex_big]).
  split; [exact Hw|].
  exact (on_stream_decoded py_encode py_recv_msg wf_py py_encode_eq (fun m b _ => py_recv_one m b)
           ex_big ex_chunks Hw).
Qed.

Example ex_cross_big :
  judge_transport ex_big (on_stream rust_encode ex_big (fun bs => py_recv_all (Src bs ex_chunks))) = true /\
  judge_transport ex_big (on_stream py_encode ex_big (fun bs => rust_recv_all (Src bs ex_chunks))) = true.
Proof.
  split.
  - exact (on_stream_decoded rust_encode py_recv_msg wf_msg (fun _ _ => eq_refl) (fun m b _ => py_recv_one m b)
             ex_big ex_chunks wf_ex_big).
  - exact (on_stream_decoded py_encode rust_recv_msg wf_msg (fun m H => py_encode_eq m (wf_msg_py m H))
             rust_recv_one ex_big ex_chunks wf_ex_big).
Qed.

Lemma rust_encode_full : forall inst data, Z.of_nat (length data) = MAXF ->
  rust_encode (Msg inst data) = Ok (frame inst data ++ frame inst []).
Proof.
  intros inst data H. unfold rust_encode. cbn [m_inst m_data]. rewrite frames_f_long by lia.
  replace NF with (length data) by (apply Nat2Z.inj; now rewrite NF_eq).
  rewrite firstn_all, skipn_all.
  destruct (length data); [discriminate H|]. now rewrite frames_f_short by reflexivity.
Qed.

Example ex_boundary :
  match rust_encode (Msg 1 (fill 65535 7)) with
  | Ok bs => (Z.of_nat (length bs) =? 65541) && zs_eqb (firstn 3 bs) [1; 255; 255] && zs_eqb (skipn (Z.to_nat 65538) bs) [1; 0; 0]
  | Err _ => false
  end = true.
Proof.
  assert (Hd : Z.of_nat (length (fill 65535 7)) = MAXF) by (apply fill_length; discriminate).
  rewrite rust_encode_full by exact Hd.
  revert Hd. generalize (fill 65535 7). intros d Hd.
  assert (Hn : Z.of_nat (length (frame 1 d)) = 65538).
  { unfold frame. cbn [length app be16]. rewrite !Nat2Z.inj_succ, Hd. reflexivity. }
  rewrite <- Hn, Nat2Z.id, skipn_app_exact by reflexivity.
  rewrite app_length, Nat2Z.inj_add, Hn. unfold frame. rewrite Hd. reflexivity.
Qed.

Example ex_send_short_writes :
  fst (fst (rust_send_msg (Msg 6 [1; 2; 3; 4]) [1; 2; 1]%nat)) = [6; 0; 4; 1; 2; 3; 4] /\
  fst (fst (py_send_msg (Msg 1 [1; 2; 3; 4]) [3; 1]%nat)) = [1; 0; 4; 1; 2; 3; 4].
Proof. split; vm_compute; reflexivity. Qed.

Definition double_handler (n : Z) (m : msg) : Z * msg := (n + 1, Msg 1 (n :: m_data m ++ m_data m)).
Definition ex_rounds : list round :=
  [Round (Msg 6 (fill 70000 97)) [1; 7]%nat [2; 2; 1]%nat [1; 1; 1]%nat [1; 2; 3; Z.to_nat 65535; 4]%nat;
   Round (Msg 6 []) [] [1]%nat [5]%nat [1; 1]%nat;
   Round (Msg 6 (fill 65535 98)) [] [] [] [Z.to_nat 65536]%nat;
   Round (Msg 5 [9]) [] [] [] []].
Lemma double_handler_wf : forall st m, wf_msg (snd (double_handler st m)).
Proof. intros. unfold wf_msg, wf_inst. cbn. lia. Qed.
Example ex_sync :
  Forall (fun r => wf_msg (r_req r)) ex_rounds /\
  judge_session (ref_run Z double_handler 0 (map r_req ex_rounds))
                (run_history Z double_handler codec_now (Sys 0 [] []) ex_rounds) = true.
Proof.
  split; [wf_insts|]. apply judge_transport_iff, sync_now, double_handler_wf.
Qed.
