(** C25 — REPL results stay in step with inputs for any history.
    Model: Framing/Model.v (src/dummy.rs, src/scripts/repl_server.py).  Spec and judges: Framing/Spec.v.
    There is no size precondition: payloads of any length are carried by continuation frames.
    The only hypotheses are typing conditions: instruction codes are those of the protocol (0..6; the
    Python sender accepts 0..255, [int.to_bytes(1)]). *)
From Coq Require Import ZArith List.
From ErgV Require Import Framing.Model Framing.Spec Framing.Proofs.
Import ListNotations.
Open Scope Z_scope.

(** Rust client receiving what a Rust sender framed, for every message list, every size, every chunking. *)
Theorem rust_decode_any_split : forall (msgs : list msg) (chunks : list nat) (bs : list Z),
  Forall wf_msg msgs -> encode_all rust_encode msgs = Ok bs ->
  rust_recv_all (Src bs chunks) = (msgs, None).
Proof. exact (stream_decoded rust_encode rust_recv_msg wf_msg (fun _ _ => eq_refl) rust_recv_one). Qed.
Example rust_decode_any_split_ex :
  Forall wf_msg ex_big /\
  judge_transport ex_big (on_stream rust_encode ex_big (fun bs => rust_recv_all (Src bs ex_chunks))) = true.
Proof. exact ex_rust_big. Qed.

(** Python server receiving what a Python sender framed. *)
Theorem py_decode_any_split : forall (msgs : list msg) (chunks : list nat) (bs : list Z),
  Forall wf_py msgs -> encode_all py_encode msgs = Ok bs ->
  py_recv_all (Src bs chunks) = (msgs, None).
Proof. exact (stream_decoded py_encode py_recv_msg wf_py py_encode_eq (fun m b _ => py_recv_one m b)). Qed.
Example py_decode_any_split_ex :
  Forall wf_py ex_big /\
  judge_transport ex_big (on_stream py_encode ex_big (fun bs => py_recv_all (Src bs ex_chunks))) = true.
Proof. exact ex_py_big. Qed.

(** The pairings that occur in the REPL: the server decodes the client's stream, the client the server's. *)
Theorem server_decodes_client_any_split : forall (msgs : list msg) (chunks : list nat) (bs : list Z),
  Forall wf_msg msgs -> encode_all rust_encode msgs = Ok bs ->
  py_recv_all (Src bs chunks) = (msgs, None).
Proof. exact (stream_decoded rust_encode py_recv_msg wf_msg (fun _ _ => eq_refl) (fun m b _ => py_recv_one m b)). Qed.
Theorem client_decodes_server_any_split : forall (msgs : list msg) (chunks : list nat) (bs : list Z),
  Forall wf_msg msgs -> encode_all py_encode msgs = Ok bs ->
  rust_recv_all (Src bs chunks) = (msgs, None).
Proof. exact (stream_decoded py_encode rust_recv_msg wf_msg (fun m H => py_encode_eq m (wf_msg_py m H)) rust_recv_one). Qed.
Example cross_decode_any_split_ex :
  judge_transport ex_big (on_stream rust_encode ex_big (fun bs => py_recv_all (Src bs ex_chunks))) = true /\
  judge_transport ex_big (on_stream py_encode ex_big (fun bs => rust_recv_all (Src bs ex_chunks))) = true.
Proof. exact ex_cross_big. Qed.

(** Framing never fails (no overflow, no fuel) and both senders build the same frames. *)
Theorem encode_never_fails : forall msgs : list msg,
  (exists bs, encode_all rust_encode msgs = Ok bs) /\
  (Forall wf_py msgs -> exists bs, encode_all py_encode msgs = Ok bs).
Proof.
  intro msgs. split.
  - apply (encode_all_total rust_encode (fun _ => True)); [reflexivity|now apply Forall_forall].
  - exact (encode_all_total py_encode wf_py py_encode_eq msgs).
Qed.
Theorem senders_agree : forall m : msg, wf_py m -> py_encode m = rust_encode m.
Proof. exact py_encode_eq. Qed.

(** Sending: however the socket splits the writes, exactly the frames reach the wire. *)
Theorem send_any_short_writes : forall (m : msg) (wsch : list nat),
  (exists bs w', rust_encode m = Ok bs /\ rust_send_msg m wsch = (bs, Ok tt, w')) /\
  (wf_py m -> exists bs w', py_encode m = Ok bs /\ py_send_msg m wsch = (bs, Ok tt, w')).
Proof. intros m wsch. split; [exact (rust_send_wire m wsch)|exact (py_send_wire m wsch)]. Qed.
Example send_any_short_writes_ex :
  fst (fst (rust_send_msg (Msg 6 [1; 2; 3; 4]) [1; 2; 1]%nat)) = [6; 0; 4; 1; 2; 3; 4] /\
  fst (fst (py_send_msg (Msg 1 [1; 2; 3; 4]) [3; 1]%nat)) = [1; 0; 4; 1; 2; 3; 4].
Proof. exact ex_send_short_writes. Qed.

(** The receive loops terminate on every stream, also on garbage and truncated ones (fuel is never the outcome). *)
Theorem receivers_never_out_of_fuel : forall s : src,
  snd (rust_recv_all s) <> Some EFuel /\ snd (py_recv_all s) <> Some EFuel.
Proof. intro s. split; [exact (rust_recv_all_fuel s)|exact (py_recv_all_fuel s)]. Qed.

(** Sessions: for every server (state type, handler), every history of requests of any size and every
    chunking of every read and write, the i-th result the client obtains is the server's answer to the
    i-th request. *)
Theorem sync : forall (St : Type) (handler : St -> msg -> St * msg) (st0 : St) (history : list round),
  (forall st m, wf_msg (snd (handler st m))) ->
  Forall (fun r => wf_msg (r_req r)) history ->
  run_history St handler codec_now (Sys st0 [] []) history
  = (ref_run St handler st0 (map r_req history), None).
Proof. intros St handler st0 history Hh _. exact (sync_now St handler Hh history st0). Qed.
Example sync_ex :
  Forall (fun r => wf_msg (r_req r)) ex_rounds /\
  judge_session (ref_run Z double_handler 0 (map r_req ex_rounds))
                (run_history Z double_handler codec_now (Sys 0 [] []) ex_rounds) = true.
Proof. exact ex_sync. Qed.

(** * The code before the fixes ([_nofix] model) violates each of these *)

(** one recv per field: a 2-byte first chunk desynchronises the Python receiver (payloads <= 65535) *)
Theorem py_decode_any_split_nofix_refuted :
  exists msgs chunks bs, Forall wf_msg msgs /\ Forall small msgs /\
    encode_all py_encode_nofix msgs = Ok bs /\ py_recv_all_nofix (Src bs chunks) <> (msgs, None).
Proof.
  exists [Msg 6 [104; 105]], [2%nat], [6; 0; 2; 104; 105].
  split; [|split; [|split]].
  - wf_insts.
  - repeat constructor; discriminate.
  - reflexivity.
  - vm_compute. discriminate.
Qed.

(** send instead of sendall: a short write silently drops the rest of the frame *)
Theorem py_send_nofix_refuted :
  exists m wsch bs, wf_msg m /\ small m /\ py_encode_nofix m = Ok bs /\
    fst (fst (py_send_msg_nofix m wsch)) <> bs /\ snd (fst (py_send_msg_nofix m wsch)) = Ok tt.
Proof.
  exists (Msg 1 [104; 105; 106]), [4%nat], [1; 0; 3; 104; 105; 106].
  split; [|split; [|split; [|split]]].
  - wf_insts.
  - discriminate.
  - reflexivity.
  - vm_compute. discriminate.
  - reflexivity.
Qed.

(** to_bytes(2) raises OverflowError for a payload of 65536 bytes *)
Theorem py_send_overflow_nofix_refuted :
  exists m, wf_msg m /\ py_encode_nofix m = Err EOverflow.
Proof.
  exists (Msg 1 (fill 65536 97)). split; [wf_insts|].
  apply py_encode_nofix_overflow; [split; discriminate|].
  rewrite fill_length; [reflexivity|discriminate].
Qed.

(** size field truncated to 65535 while the whole payload is sent: the tail is read as the next header *)
Theorem rust_truncation_nofix_refuted :
  exists msgs chunks bs, Forall wf_msg msgs /\
    encode_all rust_encode_nofix msgs = Ok bs /\ rust_recv_all_nofix (Src bs chunks) <> (msgs, None).
Proof.
  exists [Msg 6 (fill 65536 97); Msg 6 [98]], []. eexists.
  split; [wf_insts|split; [reflexivity|]].
  apply rust_truncation_nofix; [|reflexivity].
  rewrite fill_length; [reflexivity|discriminate].
Qed.

(** a session: after one 65536-byte request the answer to the next request is wrong *)
Theorem sync_nofix_refuted :
  exists rounds, Forall (fun r => wf_msg (r_req r)) rounds /\
    run_history unit first_byte_handler codec_nofix (Sys tt [] []) rounds
    <> (ref_run unit first_byte_handler tt (map r_req rounds), None).
Proof.
  exists w_sync_rounds. split; [wf_insts|].
  rewrite sync_nofix_trace. intro H. lazy in H. discriminate H.
Qed.
