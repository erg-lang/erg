(** C12 — behaviour as a partial function of the program: a program simulates itself, so more fuel does not change
    an observable behaviour. *)
From Coq Require Import ZArith List Bool Arith Lia.
From ErgV Require Import Common.Lists Optimize.Model Optimize.Spec Optimize.ProofsBase Optimize.ProofsSim.
Import ListNotations.
Open Scope Z_scope.

Lemma mentions_none : forall e, mentions (fun _ => false) e = false.
Proof.
  induction e using expr_ind'; simpl; repeat apply orb_false_intro; auto; apply mentions_all_false; assumption.
Qed.

Lemma behaviour_mono : forall n m p b,
  (n <= m)%nat -> behaviour n p = b -> observable b -> behaviour m p = b.
Proof.
  intros n m p b. apply (behaviour_sim (fun _ => false)).
  apply Forall2_diag, Forall_forall. intros e _. apply o_same, mentions_none.
Qed.

Lemma behaviour_unique : forall n m p,
  observable (behaviour n p) -> observable (behaviour m p) -> behaviour n p = behaviour m p.
Proof.
  intros n m p H1 H2.
  destruct (Nat.le_ge_cases n m) as [Hle|Hle].
  - symmetry. eapply behaviour_mono; eauto.
  - eapply behaviour_mono; eauto.
Qed.

Lemma behaviour_total : forall p p' n,
  (forall m, (n <= m)%nat -> behaviour m p' = behaviour n p) -> observable (behaviour n p) ->
  forall m, observable (behaviour m p') -> behaviour m p' = behaviour n p.
Proof.
  intros p p' n Hfwd Hobs m Hobs'.
  rewrite <- (Hfwd (Nat.max n m) (Nat.le_max_l n m)).
  apply behaviour_unique; [exact Hobs'|]. rewrite (Hfwd _ (Nat.le_max_l n m)). exact Hobs.
Qed.
