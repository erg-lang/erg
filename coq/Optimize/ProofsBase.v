(** C12 — basic lemmas: induction principle for [expr], three-valued or, list forms of the local fixpoints, [agree],
    sequencing in the evaluator, [quiet]. *)
From Coq Require Import ZArith List Bool Arith Lia.
From ErgV Require Import Common.Lists Optimize.Model Optimize.Spec.
Import ListNotations.
Open Scope Z_scope.

Section ExprInd.
  Variable P : expr -> Prop.
  Hypothesis HLit : forall l, P (ELit l).
  Hypothesis HVar : forall d b, P (EVar d b).
  Hypothesis HAttr : forall o n, P o -> P (EAttr o n).
  Hypothesis HCall : forall ci obj pos var kw kwvar, P obj -> Forall P pos -> Forall P var -> Forall P kw -> Forall P kwvar ->
                                                     P (ECall ci obj pos var kw kwvar).
  Hypothesis HBin : forall op l r, P l -> P r -> P (EBin op l r).
  Hypothesis HUn : forall op e, P e -> P (EUn op e).
  Hypothesis HList : forall es, Forall P es -> P (EList es).
  Hypothesis HListLen : forall a l, P a -> Forall P l -> P (EListLen a l).
  Hypothesis HListOther : P EListOther.
  Hypothesis HTuple : forall es, Forall P es -> P (ETuple es).
  Hypothesis HSet : forall es, Forall P es -> P (ESet es).
  Hypothesis HSetLen : forall a b, P a -> P b -> P (ESetLen a b).
  Hypothesis HDict : forall es, Forall P es -> P (EDict es).
  Hypothesis HDictOther : P EDictOther.
  Hypothesis HRecord : forall es, Forall P es -> P (ERecord es).
  Hypothesis HLambda : forall bang simple ps body, Forall P body -> P (ELambda bang simple ps body).
  Hypothesis HDef : forall s body, Forall P body -> P (EDef s body).
  Hypothesis HTypeAsc : forall e, P e -> P (ETypeAsc e).
  Hypothesis HCode : forall es, Forall P es -> P (ECode es).
  Hypothesis HCompound : forall es, Forall P es -> P (ECompound es).
  Hypothesis HDummy : forall es, Forall P es -> P (EDummy es).
  Hypothesis HOther : forall k, P (EOther k).

  Fixpoint expr_ind' (e : expr) : P e :=
    let all := Forall_all expr_ind' in
    match e with
    | ELit l => HLit l
    | EVar d b => HVar d b
    | EAttr o n => HAttr o n (expr_ind' o)
    | ECall ci obj pos var kw kwvar => HCall ci obj pos var kw kwvar (expr_ind' obj) (all pos) (all var) (all kw) (all kwvar)
    | EBin op l r => HBin op l r (expr_ind' l) (expr_ind' r)
    | EUn op e1 => HUn op e1 (expr_ind' e1)
    | EList es => HList es (all es)
    | EListLen a l => HListLen a l (expr_ind' a) (all l)
    | EListOther => HListOther
    | ETuple es => HTuple es (all es)
    | ESet es => HSet es (all es)
    | ESetLen a b => HSetLen a b (expr_ind' a) (expr_ind' b)
    | EDict es => HDict es (all es)
    | EDictOther => HDictOther
    | ERecord es => HRecord es (all es)
    | ELambda bang simple ps body => HLambda bang simple ps body (all body)
    | EDef s body => HDef s body (all body)
    | ETypeAsc e1 => HTypeAsc e1 (expr_ind' e1)
    | ECode es => HCode es (all es)
    | ECompound es => HCompound es (all es)
    | EDummy es => HDummy es (all es)
    | EOther k => HOther k
    end.
End ExprInd.

Lemma tor_false : forall a b, tor a b = TFalse <-> a = TFalse /\ b = TFalse.
Proof. intros [] []; simpl; split; intros; try tauto; try discriminate; destruct H; discriminate. Qed.

Lemma tb_false : forall b, tb b = TFalse <-> b = false.
Proof. intros []; simpl; split; intros; congruence. Qed.

Fixpoint impure_all (l : list expr) : tri := match l with [] => TFalse | x :: r => tor (is_impure x) (impure_all r) end.
Fixpoint impure_nofix_all (l : list expr) : tri :=
  match l with [] => TFalse | x :: r => tor (is_impure_nofix x) (impure_nofix_all r) end.

Lemma any_false : forall (f : expr -> bool) (any : list expr -> bool),
  any [] = false -> (forall x r, any (x :: r) = f x || any r) ->
  forall l, any l = false <-> Forall (fun e => f e = false) l.
Proof.
  intros f any H0 Hc. induction l as [|x r IH].
  - split; auto.
  - rewrite Hc, orb_false_iff, IH. split.
    + intros [H1 H2]. constructor; auto.
    + intros H. inversion H; subst. auto.
Qed.

Lemma risky_all_false : forall l, risky_all l = false <-> Forall (fun e => risky e = false) l.
Proof. apply any_false; reflexivity. Qed.

Lemma mentions_all_false : forall R l, mentions_all R l = false <-> Forall (fun e => mentions R e = false) l.
Proof. intros R. apply any_false; reflexivity. Qed.

Lemma is_impure_call : forall ci obj pos var kw kwvar,
  is_impure (ECall ci obj pos var kw kwvar) =
  tor (tb (c_obj_proc ci)) (tor (tb (c_attr ci && c_attr_proc ci)) (tor (is_impure obj)
      (tor (impure_all pos) (tor (impure_all var) (tor (impure_all kw) (impure_all kwvar)))))).
Proof. reflexivity. Qed.

Lemma risky_call : forall ci obj pos var kw kwvar,
  risky (ECall ci obj pos var kw kwvar) =
  (negb (callee_procedural ci) && negb (total_builtin_call ci obj))
  || risky obj || risky_all pos || risky_all var || risky_all kw || risky_all kwvar.
Proof. reflexivity. Qed.
Lemma risky_list : forall es, risky (EList es) = risky_all es. Proof. reflexivity. Qed.
Lemma risky_tuple : forall es, risky (ETuple es) = risky_all es. Proof. reflexivity. Qed.
Lemma risky_set : forall es, risky (ESet es) = risky_all es. Proof. reflexivity. Qed.
Lemma risky_dict : forall es, risky (EDict es) = risky_all es. Proof. reflexivity. Qed.
Lemma risky_record : forall es, risky (ERecord es) = risky_all es. Proof. reflexivity. Qed.
Lemma risky_compound : forall es, risky (ECompound es) = risky_all es. Proof. reflexivity. Qed.
Lemma risky_listlen : forall a l, risky (EListLen a l) = risky a || risky_all l. Proof. reflexivity. Qed.
Lemma risky_lambda : forall bang s ps body, risky (ELambda bang s ps body) = risky_all body. Proof. reflexivity. Qed.
Lemma risky_def : forall s body, risky (EDef s body) = risky_all body. Proof. reflexivity. Qed.

Lemma binds_call : forall ci obj pos var kw kwvar,
  binds (ECall ci obj pos var kw kwvar) = binds obj ++ binds_all pos ++ binds_all var ++ binds_all kw ++ binds_all kwvar.
Proof. reflexivity. Qed.
Lemma binds_lambda : forall bang s ps body, binds (ELambda bang s ps body) = ps ++ binds_all body. Proof. reflexivity. Qed.
Lemma binds_def : forall s body, binds (EDef s body) = d_id s :: d_params s ++ binds_all body. Proof. reflexivity. Qed.

Lemma mentions_call : forall R ci obj pos var kw kwvar,
  mentions R (ECall ci obj pos var kw kwvar) =
  mentions R obj || mentions_all R pos || mentions_all R var || mentions_all R kw || mentions_all R kwvar.
Proof. reflexivity. Qed.
Lemma mentions_list_eqs : forall R,
  (forall es, mentions R (EList es) = mentions_all R es) /\ (forall es, mentions R (ETuple es) = mentions_all R es) /\
  (forall es, mentions R (ESet es) = mentions_all R es) /\ (forall es, mentions R (EDict es) = mentions_all R es) /\
  (forall es, mentions R (ERecord es) = mentions_all R es) /\ (forall es, mentions R (ECompound es) = mentions_all R es) /\
  (forall a l, mentions R (EListLen a l) = mentions R a || mentions_all R l) /\
  (forall bang s ps b, mentions R (ELambda bang s ps b) = mentions_all R b) /\
  (forall s b, mentions R (EDef s b) = mentions_all R b).
Proof. repeat split; reflexivity. Qed.

Lemma agree_refl : forall R st, agree R st st.
Proof. intros; repeat split. Qed.

Lemma agree_sym : forall R a b, agree R a b -> agree R b a.
Proof. intros R a b (H1 & H2 & H3). repeat split; intros; symmetry; auto. Qed.

Lemma agree_trans : forall R a b c, agree R a b -> agree R b c -> agree R a c.
Proof.
  intros R a b c (H1 & H2 & H3) (K1 & K2 & K3). repeat split; intros.
  - congruence.
  - rewrite H2, K2; auto.
  - rewrite H3, K3; auto.
Qed.

Lemma agree_mono : forall (R R' : ident -> bool) a b, (forall i, R i = true -> R' i = true) -> agree R a b -> agree R' a b.
Proof.
  intros R R' a b HR (H1 & H2 & H3). repeat split; auto; intros i Hi.
  - apply H2. destruct (R i) eqn:E; auto. rewrite (HR i E) in Hi; discriminate.
  - apply H3. destruct (R i) eqn:E; auto. rewrite (HR i E) in Hi; discriminate.
Qed.

Lemma agree_bind_var : forall (R : ident -> bool) st i v, R i = true -> agree R st (bind_var st i v).
Proof.
  intros R st i v Hi. repeat split. intros j Hj. simpl.
  destruct (i =? j) eqn:E; auto. apply Z.eqb_eq in E; subst. congruence.
Qed.

Lemma agree_bind_fun : forall (R : ident -> bool) st i f, R i = true -> agree R st (bind_fun st i f).
Proof.
  intros R st i f Hi. repeat split. intros j Hj. simpl.
  destruct (i =? j) eqn:E; auto. apply Z.eqb_eq in E; subst. congruence.
Qed.

Lemma inb_app : forall a b i, inb (a ++ b) i = inb a i || inb b i.
Proof. intros; unfold inb; apply existsb_app. Qed.

Lemma inb_incl : forall a b i, incl a b -> inb a i = true -> inb b i = true.
Proof.
  unfold inb. intros a b i Hincl H. apply existsb_exists in H. destruct H as [x [Hx Hxi]].
  apply existsb_exists. exists x. split; auto.
Qed.

Lemma inb_cons : forall a l i, inb (a :: l) i = (i =? a) || inb l i.
Proof. reflexivity. Qed.

(** Every [match] the evaluator makes on a sub-result is convertible to one of these two forms, so a lemma stated
    over [bindv] / [bindl] applies to the evaluator's own text. *)
Definition bindv (x : state * result) (k : state -> value -> state * result) : state * result :=
  match x with
  | (s, RVal v) => k s v
  | (s, RExc c) => (s, RExc c)
  | (s, RStuck) => (s, RStuck)
  | (s, RFuel) => (s, RFuel)
  end.

Definition bindl (x : state * lres) (k : state -> list value -> state * result) : state * result :=
  match x with (s, LVals vs) => k s vs | (s, LStop o) => (s, o) end.

Definition stop_of (l : lres) : result := match l with LVals _ => RVal VNone | LStop o => o end.

(** [silent] for one run: [R] for the bound identifiers, [res_of] reads the result ([id]; [stop_of] for [evals]) *)
Definition quiet {A} (res_of : A -> result) (R : ident -> bool) (st : state) (x : state * A) : Prop :=
  agree R st (fst x) /\ noexc (res_of (snd x)).

Lemma silent_quiet : forall e, silent e <-> forall fuel st, quiet id (inb (binds e)) st (eval fuel st e).
Proof.
  intros e. split.
  - intros H fuel st. apply (H fuel st). apply surjective_pairing.
  - intros H fuel st st' r E. specialize (H fuel st). rewrite E in H. exact H.
Qed.
