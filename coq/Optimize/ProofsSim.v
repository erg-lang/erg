(** C12 — simulation: a program in which silent definitions, whose identifiers nobody mentions, are replaced by Dummy
    and which is run with at least as much fuel ends as the original does, whenever that ends at all. *)
From Coq Require Import ZArith List Bool Lia.
From ErgV Require Import Optimize.Model Optimize.Spec Optimize.ProofsBase.
Import ListNotations.
Open Scope Z_scope.

(* a run that is stuck or out of fuel promises nothing *)
Definition okr (r : result) : Prop := r <> RFuel /\ r <> RStuck.

Lemma okr_val : forall v, okr (RVal v). Proof. split; discriminate. Qed.
Lemma okr_exc : forall c, okr (RExc c). Proof. split; discriminate. Qed.

Definition opt_rel {A} (P : A -> A -> Prop) (a b : option A) : Prop :=
  match a, b with Some x, Some y => P x y | None, None => True | _, _ => False end.

Lemma apply_builtin_state : forall b st vs,
  apply_builtin b st vs = (if b =? 1 then emit st vs else st, snd (apply_builtin b init_state vs)).
Proof.
  intros b st vs. unfold apply_builtin.
  repeat match goal with |- context [if ?c then _ else _] => destruct c end;
    repeat match goal with |- context [match ?x with _ => _ end] => destruct x end; reflexivity.
Qed.

Section Sim.
  Variable R : ident -> bool.

  Definition silentR (e : expr) : Prop := forall fuel st, quiet id R st (eval fuel st e).

  (** [orel e e']: what the pass can make of [e], one constructor per arm of [elim] (optimize.rs
      eliminate_unused_def descends only into positional arguments, lambda bodies and Compound / Code blocks; what it
      leaves in a code object is not evaluated) and [o_same] for what it leaves alone, which mentions nothing of [R].
      A removed definition is silent and binds only identifiers of [R]. *)
  Inductive orel : expr -> expr -> Prop :=
  | o_same : forall e, mentions R e = false -> orel e e
  | o_call : forall ci obj pos pos' var kw kwvar,
      mentions R obj = false -> Forall2 orel pos pos' ->
      orel (ECall ci obj pos var kw kwvar) (ECall ci obj pos' var kw kwvar)
  | o_lambda : forall bang s ps body body', Forall2 orel body body' -> orel (ELambda bang s ps body) (ELambda bang s ps body')
  | o_compound : forall es es', Forall2 orel es es' -> orel (ECompound es) (ECompound es')
  | o_code : forall es es', orel (ECode es) (ECode es')
  | o_removed : forall s body, silentR (EDef s body) -> orel (EDef s body) (EDummy []).

  Lemma orel_same_all : forall es, mentions_all R es = false -> Forall2 orel es es.
  Proof.
    induction es as [|e r IH]; simpl; intros Hm; constructor; apply orb_false_iff in Hm; destruct Hm; auto using o_same.
  Qed.

  (** The pass never touches a definition it keeps, so the two runs store equal function entries outside [R]:
      [agree], and that those entries mention nothing of [R], is all that relates the states. *)
  Definition inv (a b : state) : Prop :=
    agree R a b /\ forall i f, R i = false -> lookup (fenv a) i = Some f -> mentions_all R (f_body f) = false.

  Lemma inv_bind_var : forall a b i v, inv a b -> inv (bind_var a i v) (bind_var b i v).
  Proof.
    intros a b i v [(H1 & H2 & H3) H4]. repeat split; auto. intros j Hj. simpl. destruct (i =? j); auto.
  Qed.

  Lemma inv_bind_fun : forall a b i f, mentions_all R (f_body f) = false -> inv a b -> inv (bind_fun a i f) (bind_fun b i f).
  Proof.
    intros a b i f Hf [(H1 & H2 & H3) H4]. repeat split; auto; simpl; intros j.
    - intros Hj. destruct (i =? j); auto.
    - intros g Hj. destruct (i =? j); [|exact (H4 j g Hj)]. intros E. inversion E; subst; assumption.
  Qed.

  Lemma inv_emit : forall a b l, inv a b -> inv (emit a l) (emit b l).
  Proof. intros a b l [(H1 & H2 & H3) H4]. repeat split; auto. simpl. congruence. Qed.

  Lemma inv_agree_l : forall a a' b, agree R a a' -> inv a b -> inv a' b.
  Proof.
    intros a a' b A [H H4]. split; [eapply agree_trans; [apply agree_sym|]; eassumption|].
    intros i f Hi. rewrite <- (proj2 (proj2 A) i Hi). eauto.
  Qed.

  Lemma inv_bind_vars : forall ps vs a b, inv a b -> opt_rel inv (bind_vars a ps vs) (bind_vars b ps vs).
  Proof.
    induction ps as [|p ps IH]; intros [|v vs] a b H; simpl; auto.
    apply IH, inv_bind_var, H.
  Qed.

  Lemma inv_init : inv init_state init_state.
  Proof. split; [apply agree_refl|discriminate]. Qed.

  Lemma as_var_free : forall e d b, mentions R e = false -> as_var e = Some (d, b) -> R d = false.
  Proof. intros [] d0 b0 Hm E; try discriminate. inversion E; subst. exact Hm. Qed.

  Lemma as_thunk_rel : forall e e', orel e e' -> opt_rel (Forall2 orel) (as_thunk e) (as_thunk e').
  Proof. destruct 1 as [[] Hm| | | | |]; simpl; auto; destruct ps; simpl; auto using orel_same_all. Qed.

  Lemma as_fun1_rel : forall e e', orel e e' ->
    opt_rel (fun x y => fst x = fst y /\ Forall2 orel (snd x) (snd y)) (as_fun1 e) (as_fun1 e').
  Proof. destruct 1 as [[] Hm| | | | |]; simpl; auto; destruct ps as [|p [|]]; simpl; auto using orel_same_all. Qed.

  Lemma def_lambda_free : forall body f,
    mentions_all R body = false -> def_lambda body = Some f -> mentions_all R (f_body f) = false.
  Proof.
    intros [|[] [|]] f Hm E; try discriminate. inversion E; subst. simpl in Hm. rewrite orb_false_r in Hm. exact Hm.
  Qed.

  Definition sim {A} (res_of : A -> result) (x1 x2 : state * A) : Prop :=
    okr (res_of (snd x1)) -> snd x2 = snd x1 /\ inv (fst x1) (fst x2).

  Lemma sim_ret : forall A (res_of : A -> result) s1 s2 a, inv s1 s2 -> sim res_of (s1, a) (s2, a).
  Proof. intros A res_of s1 s2 a Hi _. split; [reflexivity|exact Hi]. Qed.

  Lemma sim_stuck : forall s1 x2, sim id (s1, RStuck) x2.
  Proof. intros s1 x2 [_ H]. destruct H. reflexivity. Qed.

  Lemma sim_fuel : forall s1 x2, sim id (s1, RFuel) x2.
  Proof. intros s1 x2 [H _]. destruct H. reflexivity. Qed.

  Lemma sim_bind : forall x1 x2 k1 k2,
    sim id x1 x2 -> (forall s1 s2 v, inv s1 s2 -> sim id (k1 s1 v) (k2 s2 v)) -> sim id (bindv x1 k1) (bindv x2 k2).
  Proof.
    intros [s1 r1] [s2 r2] k1 k2 H Hk. destruct r1 as [v|c| |]; simpl.
    - destruct (H (okr_val v)) as [E Hi]. simpl in E, Hi. subst r2. apply Hk, Hi.
    - intros Hok. destruct (H Hok) as [E Hi]. simpl in E, Hi. subst r2. split; [reflexivity|exact Hi].
    - apply sim_stuck.
    - apply sim_fuel.
  Qed.

  Lemma sim_bindl : forall x1 x2 k1 k2,
    sim stop_of x1 x2 -> (forall s1 s2 vs, inv s1 s2 -> sim id (k1 s1 vs) (k2 s2 vs)) -> sim id (bindl x1 k1) (bindl x2 k2).
  Proof.
    intros [s1 l1] [s2 l2] k1 k2 H Hk. destruct l1 as [vs|o]; simpl.
    - destruct (H (okr_val VNone)) as [E Hi]. simpl in E, Hi. subst l2. apply Hk, Hi.
    - intros Hok. destruct (H Hok) as [E Hi]. simpl in E, Hi. subst l2. split; [reflexivity|exact Hi].
  Qed.

  Definition ev_sim (ev1 ev2 : state -> expr -> state * result) : Prop :=
    forall e e' s1 s2, orel e e' -> inv s1 s2 -> sim id (ev1 s1 e) (ev2 s2 e').

  Section Step.
    Variables ev1 ev2 : state -> expr -> state * result.
    Hypothesis Hsim : ev_sim ev1 ev2.

    Lemma evals_sim : forall es es', Forall2 orel es es' -> forall s1 s2,
      inv s1 s2 -> sim stop_of (evals ev1 s1 es) (evals ev2 s2 es').
    Proof.
      induction 1 as [|e e' r r' He _ IH]; intros s1 s2 Hi; simpl.
      - apply sim_ret, Hi.
      - pose proof (Hsim _ _ _ _ He Hi) as H1.
        destruct (ev1 s1 e) as [sa [v|c| |]], (ev2 s2 e') as [sb rb].
        + destruct (H1 (okr_val v)) as [E Hab]. simpl in E, Hab. subst rb.
          specialize (IH _ _ Hab).
          destruct (evals ev1 sa r) as [sc [vs|o]], (evals ev2 sb r') as [sd ld]; intros Hok;
            destruct (IH Hok) as [E Hcd]; simpl in E, Hcd; subst ld; split; auto.
        + intros Hok. destruct (H1 Hok) as [E Hab]. simpl in E, Hab. subst rb. split; auto.
        + intros [_ Hf]. destruct Hf. reflexivity.
        + intros [Hf _]. destruct Hf. reflexivity.
    Qed.

    Lemma eval_block_sim : forall b b', Forall2 orel b b' -> forall cur s1 s2,
      inv s1 s2 -> sim id (eval_block ev1 s1 cur b) (eval_block ev2 s2 cur b').
    Proof.
      induction 1 as [|e e' r r' He _ IH]; intros cur s1 s2 Hi; simpl.
      - apply sim_ret, Hi.
      - apply sim_bind; auto.
    Qed.

    Lemma for_loop_sim : forall body body' p, Forall2 orel body body' -> forall vs s1 s2,
      inv s1 s2 -> sim id (for_loop ev1 s1 p body vs) (for_loop ev2 s2 p body' vs).
    Proof.
      intros body body' p Hb. induction vs as [|v vs IH]; intros s1 s2 Hi; simpl.
      - apply sim_ret, Hi.
      - apply sim_bind; auto. apply eval_block_sim; auto using inv_bind_var.
    Qed.

    Lemma eval_opaque_sim : forall es es', Forall2 orel es es' -> forall s1 s2,
      inv s1 s2 -> sim id (eval_opaque ev1 s1 es) (eval_opaque ev2 s2 es').
    Proof. intros es es' Hes s1 s2 Hi. apply sim_bindl; auto using evals_sim, sim_ret. Qed.

    Lemma eval_cond_sim : forall c c' b1 b1' b2 b2', orel c c' -> Forall2 orel b1 b1' -> opt_rel (Forall2 orel) b2 b2' ->
      forall s1 s2, inv s1 s2 -> sim id (eval_cond ev1 s1 c b1 b2) (eval_cond ev2 s2 c' b1' b2').
    Proof.
      intros c c' b1 b1' b2 b2' Hc Hb1 Hb2 s1 s2 Hi. apply sim_bind; auto.
      intros sa sb [| |[]| | |] Hab; try apply sim_stuck.
      - apply eval_block_sim; auto.
      - destruct b2, b2'; try contradiction; auto using eval_block_sim, sim_ret.
    Qed.

    Lemma eval_if_sim : forall pos pos', Forall2 orel pos pos' -> forall s1 s2,
      inv s1 s2 -> sim id (eval_if ev1 s1 pos) (eval_if ev2 s2 pos').
    Proof.
      intros pos pos' Hp s1 s2 Hi. unfold eval_if.
      destruct Hp as [|c c' ? ? Hc [|t1 t1' ? ? H1 [|t2 t2' ? ? H2 [|]]]]; try apply sim_stuck.
      - apply as_thunk_rel in H1.
        destruct (as_thunk t1), (as_thunk t1'); try contradiction; try apply sim_stuck.
        apply eval_cond_sim; simpl; auto.
      - apply as_thunk_rel in H1. apply as_thunk_rel in H2.
        destruct (as_thunk t1), (as_thunk t1'); try contradiction; try apply sim_stuck.
        destruct (as_thunk t2), (as_thunk t2'); try contradiction; try apply sim_stuck.
        apply eval_cond_sim; simpl; auto.
    Qed.

    Lemma eval_for_sim : forall pos pos', Forall2 orel pos pos' -> forall s1 s2,
      inv s1 s2 -> sim id (eval_for ev1 s1 pos) (eval_for ev2 s2 pos').
    Proof.
      intros pos pos' Hp s1 s2 Hi. unfold eval_for.
      destruct Hp as [|it it' ? ? Hit [|f f' ? ? Hf [|]]]; try apply sim_stuck.
      apply as_fun1_rel in Hf.
      destruct (as_fun1 f) as [[p body]|], (as_fun1 f') as [[p' body']|]; try contradiction; try apply sim_stuck.
      destruct Hf as [Hp Hb]. simpl in Hp, Hb. subst p'.
      apply sim_bind; auto.
      intros sa sb [] Hab; try apply sim_stuck. apply for_loop_sim; auto.
    Qed.

    Lemma eval_builtin_sim : forall b pos pos', Forall2 orel pos pos' -> forall s1 s2,
      inv s1 s2 -> sim id (eval_builtin ev1 s1 b pos) (eval_builtin ev2 s2 b pos').
    Proof.
      intros b pos pos' Hp s1 s2 Hi. unfold eval_builtin.
      destruct ((b =? 7) || (b =? 9)); [apply eval_if_sim; auto|].
      destruct (b =? 8); [apply eval_for_sim; auto|].
      apply sim_bindl; auto using evals_sim.
      intros sa sb vs Hab. rewrite (apply_builtin_state b sa), (apply_builtin_state b sb).
      apply sim_ret. destruct (b =? 1); auto using inv_emit.
    Qed.

    Lemma eval_user_sim : forall d pos pos', R d = false -> Forall2 orel pos pos' -> forall s1 s2,
      inv s1 s2 -> sim id (eval_user ev1 s1 d pos) (eval_user ev2 s2 d pos').
    Proof.
      intros d pos pos' Hd Hp s1 s2 Hi. apply sim_bindl; auto using evals_sim.
      intros sa sb vs Hab. rewrite <- (proj2 (proj2 (proj1 Hab)) d Hd).
      destruct (lookup (fenv sa) d) as [f|] eqn:Ef; [|apply sim_stuck].
      destruct (f_simple f); [|apply sim_stuck].
      pose proof (inv_bind_vars (f_params f) vs _ _ Hab) as Hbv.
      destruct (bind_vars sa (f_params f) vs), (bind_vars sb (f_params f) vs); try contradiction; try apply sim_stuck.
      apply eval_block_sim; auto. exact (orel_same_all _ (proj2 Hab d f Hd Ef)).
    Qed.

    Lemma eval_mut_method_sim : forall m obj pos pos', mentions R obj = false -> Forall2 orel pos pos' -> forall s1 s2,
      inv s1 s2 -> sim id (eval_mut_method ev1 s1 m obj pos) (eval_mut_method ev2 s2 m obj pos').
    Proof.
      intros m obj pos pos' Ho Hp s1 s2 Hi. unfold eval_mut_method.
      destruct (as_var obj) as [[d b]|] eqn:Ev; [|apply sim_stuck].
      apply sim_bindl; auto using evals_sim.
      intros sa sb vs Hab. rewrite <- (proj1 (proj2 (proj1 Hab)) d (as_var_free _ _ _ Ho Ev)).
      destruct (lookup (venv sa) d) as [old|]; [|apply sim_stuck].
      destruct (apply_mut_method m old vs); [|apply sim_stuck].
      apply sim_ret, inv_bind_var, Hab.
    Qed.

    Lemma eval_method_sim : forall m obj pos pos', mentions R obj = false -> Forall2 orel pos pos' -> forall s1 s2,
      inv s1 s2 -> sim id (eval_method ev1 s1 m obj pos) (eval_method ev2 s2 m obj pos').
    Proof.
      intros m obj pos pos' Ho Hp s1 s2 Hi. apply sim_bind; auto using o_same.
      intros sa sb recv Hab. apply sim_bindl; auto using evals_sim, sim_ret.
    Qed.

    Lemma eval_call_sim : forall ci obj pos pos' var kw kwvar,
      mentions R obj = false -> Forall2 orel pos pos' -> forall s1 s2, inv s1 s2 ->
      sim id (eval_call ev1 s1 ci obj pos var kw kwvar) (eval_call ev2 s2 ci obj pos' var kw kwvar).
    Proof.
      intros ci obj pos pos' var kw kwvar Ho Hp s1 s2 Hi.
      unfold eval_call.
      destruct (no_extra var kw kwvar); [|apply sim_stuck].
      destruct (c_attr ci).
      - destruct (is_mut_method (c_meth ci)); auto using eval_mut_method_sim, eval_method_sim.
      - destruct (as_var obj) as [[d b]|] eqn:Ev; [|apply sim_stuck].
        destruct (d =? 0); eauto using eval_builtin_sim, eval_user_sim, as_var_free.
    Qed.

    Lemma eval_def_sim : forall s body, mentions_all R body = false -> forall s1 s2,
      inv s1 s2 -> sim id (eval_def ev1 s1 s body) (eval_def ev2 s2 s body).
    Proof.
      intros s body Hb s1 s2 Hi. unfold eval_def.
      destruct (d_glob s); [apply sim_stuck|].
      destruct (d_subr s); [apply sim_ret, inv_bind_fun; auto|].
      destruct (def_lambda body) eqn:El; [apply sim_ret, inv_bind_fun; eauto using def_lambda_free|].
      apply sim_bind; auto using eval_block_sim, orel_same_all.
      intros sa sb v Hab. apply sim_ret, inv_bind_var, Hab.
    Qed.
  End Step.

  Lemma eval_def_val : forall ev st s body v, snd (eval_def ev st s body) = RVal v -> v = VNone.
  Proof.
    intros ev st s body v. unfold eval_def.
    destruct (d_glob s); [discriminate|]. destruct (d_subr s); [simpl; congruence|].
    destruct (def_lambda body); [simpl; congruence|].
    destruct (eval_block ev st VNone body) as [sa [| | |]]; simpl; congruence.
  Qed.

  Lemma eval_step_sim : forall n ev2, ev_sim (eval n) ev2 -> ev_sim (eval (S n)) (eval_step ev2).
  Proof.
    intros n ev2 IH e e' s1 s2 Hrel Hi.
    destruct Hrel as [e Hm| | | | |]; simpl;
      auto using sim_ret, sim_stuck, eval_call_sim, eval_block_sim.
    - (* the same expression on both sides: its parts mention nothing of [R] either *)
      destruct e; simpl in Hm |- *; repeat (apply orb_false_iff in Hm; destruct Hm as [Hm ?]);
        auto 6 using sim_ret, sim_stuck, eval_call_sim, eval_def_sim, eval_block_sim, eval_opaque_sim, o_same, orel_same_all.
      + destruct (d =? 0); [apply sim_stuck|].
        rewrite <- (proj1 (proj2 (proj1 Hi)) d Hm). destruct (lookup (venv s1) d); auto using sim_ret, sim_stuck.
      + apply sim_bind; auto using o_same. intros; apply sim_stuck.
      + apply sim_bind; auto using o_same. intros sa sb a Hab. apply sim_bind; auto using sim_ret, o_same.
      + apply sim_bind; auto using sim_ret, o_same.
      + apply sim_bindl; auto using evals_sim, sim_ret, orel_same_all.
      + apply sim_bindl; auto using evals_sim, sim_ret, orel_same_all.
    - (* removed: the definition did nothing but bind identifiers of [R] and return None *)
      destruct (H (S n) s1) as [A N]. simpl in A, N.
      pose proof (eval_def_val (eval n) s1 s body) as Hv.
      destruct (eval_def (eval n) s1 s body) as [sa [v|c| |]]; simpl in *.
      + intros _. rewrite (Hv v eq_refl). split; [reflexivity|]. eapply inv_agree_l; eauto.
      + destruct (N c eq_refl).
      + apply sim_stuck.
      + apply sim_fuel.
  Qed.

  Lemma eval_sim : forall n m, (n <= m)%nat -> ev_sim (eval n) (eval m).
  Proof.
    induction n as [|n IH]; intros m Hle.
    - intros e e' s1 s2 _ _. apply sim_fuel.
    - destruct m as [|m]; [lia|]. apply eval_step_sim, IH. lia.
  Qed.

  Theorem behaviour_sim : forall p p' n m b,
    Forall2 orel p p' -> (n <= m)%nat -> behaviour n p = b -> observable b -> behaviour m p' = b.
  Proof.
    intros p p' n m b Hp Hle Hb [Ho1 Ho2]. subst b. unfold behaviour in *.
    pose proof (eval_block_sim _ _ (eval_sim n m Hle) _ _ Hp VNone _ _ inv_init) as H.
    destruct (eval_block (eval n) init_state VNone p) as [s1 r], (eval_block (eval m) init_state VNone p') as [s2 r2].
    destruct H as [E [[Hout _] _]].
    - destruct r; simpl in *; [apply okr_val|apply okr_exc|destruct Ho1; reflexivity|destruct Ho2; reflexivity].
    - simpl in E, Hout. subst r2. rewrite Hout. reflexivity.
  Qed.
End Sim.
