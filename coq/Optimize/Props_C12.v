(** C12 — "Optimisation never changes observable behaviour": the property theorems.

    Model: coq/Optimize/Model.v (HIROptimizer::eliminate_unused_def, SideEffectChecker::is_impure, a trace semantics
    for the mini language); definitions of the statements: coq/Optimize/Spec.v.
    The reference counts ([refs], what ModuleIndex::get_refs answers) are an input: what they are trusted for is the
    decidable hypothesis [oracle_sound] (nothing that is left mentions an identifier bound by a removed definition),
    which the check evaluates on every dumped program.

    Full statement of the property for the model: for every program, every level 0..3 and every run of the
    unoptimised program that ends (normally or with an uncaught exception), the optimised program prints the same and
    ends the same way.  It is proved outside the class [Known_C12] ("a removed initialiser is effect free but may
    raise": a call of a function other than the total builtins, a division, an import), refuted inside it
    ([*_known_refuted], the known finding) and refuted for the code as it was before the two repairs ([*_nofix_refuted]).
    [opt_preserves_total]: behaviour is a partial function of the program (more fuel never changes an observable
    result), and whenever the unoptimised program has an observable behaviour the optimised one has exactly that one.
    Not covered: a source program that has no observable behaviour (diverges, or leaves the interpreted fragment) —
    nothing is claimed about its optimised version; reference-count correctness (C30's concern). *)
From Coq Require Import ZArith List Bool Arith.
From ErgV Require Import gen.OptLevels Optimize.Model Optimize.Spec Optimize.ProofsPure Optimize.Proofs Optimize.ProofsWitness
                          Optimize.ProofsMono.
Import ListNotations.
Open Scope Z_scope.

(** What [is_impure] judges pure is silent: no output, no exception, no binding changed other than its own. *)
Theorem purity_sound : forall e, is_impure e = TFalse -> Known_C12 e = false -> silent e.
Proof. exact pure_silent. Qed.

Example purity_sound_nonvacuous :
  let e := nth 1 ex_prog (EOther 0) in
  is_impure e = TFalse /\ Known_C12 e = false /\ binds e = [ex_x; ex_a] /\
  fst (behaviour 9 [e]) = [] /\ snd (behaviour 9 [e]) = Normal.
Proof. vm_compute. repeat split. Qed.

(** the code before the repairs: `x = print! "hello"` was judged pure (the result type of the call was tested) *)
Theorem purity_sound_nofix_refuted : exists e, is_impure_nofix e = TFalse /\ Known_C12 e = false /\ ~ silent e.
Proof.
  exists w1_def. split; [reflexivity|split; [reflexivity|]].
  apply (not_silent_by_output w1_def 5%nat). vm_compute. discriminate.
Qed.

(** the code before the repairs: `x = {a = print! "hello"}` was judged pure (record fields were not visited) *)
Theorem purity_sound_nofix_subexpr_refuted : exists e, is_impure_nofix e = TFalse /\ Known_C12 e = false /\ ~ silent e.
Proof.
  exists w2_def. split; [reflexivity|split; [reflexivity|]].
  apply (not_silent_by_output w2_def 8%nat). vm_compute. discriminate.
Qed.

(** the known finding: `y = 1 // 0` is judged pure and raises *)
Theorem purity_sound_known_refuted : exists e, is_impure e = TFalse /\ Known_C12 e = true /\ ~ silent e.
Proof.
  exists (EDef (var_sig 2000002) [EBin 4 (ELit (LInt 1)) (ELit (LInt 0))]).
  split; [reflexivity|split; [reflexivity|]].
  apply (not_silent_by_exc _ 5%nat 1). reflexivity.
Qed.

(** Removing silent unused definitions preserves the behaviour of every ending run (statement lists, blocks passed
    as arguments, compound blocks, at every depth). *)
Theorem opt_preserves : forall refs p p',
  eliminate refs p = Ok p' ->
  (forall e, In e (removed_defs refs p) -> silent e) ->
  oracle_sound refs p p' ->
  forall fuel b, behaviour fuel p = b -> observable b -> behaviour fuel p' = b.
Proof. intros refs p p' He Hs Ho fuel b. exact (elim_preserves is_impure refs p p' He Hs Ho fuel fuel b (le_n fuel)). Qed.

(** ... and with [purity_sound]: outside the known class no hypothesis about the removed definitions is needed *)
Theorem opt_preserves_known : forall refs p p',
  eliminate refs p = Ok p' ->
  oracle_sound refs p p' ->
  (forall e, In e (removed_defs refs p) -> Known_C12 e = false) ->
  forall fuel b, behaviour fuel p = b -> observable b -> behaviour fuel p' = b.
Proof. intros refs p p' He Ho Hk fuel b. exact (known_preserves refs p p' He Ho Hk fuel fuel b (le_n fuel)). Qed.

Example opt_preserves_nonvacuous :
  exists p', eliminate ex_refs ex_prog = Ok p' /\
    map (fun e => match e with EDef s _ => d_id s | _ => 0 end) (removed_defs ex_refs ex_prog) = [ex_x; ex_u] /\
    oracle_sound ex_refs ex_prog p' /\
    (forall e, In e (removed_defs ex_refs ex_prog) -> Known_C12 e = false) /\
    behaviour 9 ex_prog = ([[VList false [VInt 1; VInt 2; VInt 3]]], Normal) /\
    behaviour 9 p' = behaviour 9 ex_prog /\ p' <> ex_prog.
Proof.
  eexists. split; [vm_compute; reflexivity|].
  split; [vm_compute; reflexivity|]. split; [vm_compute; reflexivity|].
  split; [|split; [vm_compute; reflexivity|split; [vm_compute; reflexivity|vm_compute; discriminate]]].
  intros e He. vm_compute in He. destruct He as [<-|[<-|[]]]; reflexivity.
Qed.

(** the code before the repairs dropped the output of `x = print! "hello"` *)
Theorem opt_preserves_nofix_refuted :
  exists refs p p' fuel,
    eliminate_nofix refs p = Ok p' /\
    mentions_all (inb (binds_all (removed_all is_impure_nofix refs p))) p' = false /\
    (forall e, In e (removed_all is_impure_nofix refs p) -> Known_C12 e = false) /\
    observable (behaviour fuel p) /\ behaviour fuel p' <> behaviour fuel p.
Proof.
  exists w1_refs, w1, [EDummy []; print_ (ELit (LStr s_end))], 5%nat.
  split; [reflexivity|split; [reflexivity|split; [|split]]].
  - intros e [<-|[]]. reflexivity.
  - vm_compute. split; discriminate.
  - vm_compute. discriminate.
Qed.

(** the known finding: `n = 0; y = 1 // n; print! "end"` ends with ZeroDivisionError, its optimised version normally *)
Theorem opt_preserves_known_refuted :
  exists refs p p' fuel,
    eliminate refs p = Ok p' /\ oracle_sound refs p p' /\
    (exists e, In e (removed_defs refs p) /\ Known_C12 e = true) /\
    observable (behaviour fuel p) /\ behaviour fuel p' <> behaviour fuel p.
Proof.
  exists w3_refs, w3, [EDef (var_sig 1000002) [ELit (LInt 0)]; EDummy []; print_ (ELit (LStr s_end))], 6%nat.
  split; [reflexivity|split; [reflexivity|split; [|split]]].
  - exists w3_def. split; [left; reflexivity|reflexivity].
  - vm_compute. split; discriminate.
  - vm_compute. discriminate.
Qed.

(** Levels 1, 2 and 3 run the same passes; level 0 runs none (table generated from optimize.rs on every run). *)
Theorem levels_same_pass : forall n, In n [1; 2; 3] -> passes_of opt_level_passes n = Some [1; 2].
Proof. exact passes_level123. Qed.

Theorem level0_no_pass : passes_of opt_level_passes 0 = Some [].
Proof. exact passes_level0. Qed.

(** the match arms of is_impure / eliminate_unused_def in the source are the ones modelled *)
Theorem arms_as_modelled : is_impure_arms = modelled_is_impure_arms /\ elim_arms = modelled_elim_arms.
Proof. split; reflexivity. Qed.

(** The property: every level 0..3 preserves the behaviour of every ending run. *)
Theorem all_levels_preserve : forall refs level p p',
  In level [0; 1; 2; 3] ->
  optimize refs level p = Ok p' ->
  oracle_sound refs p (match eliminate refs p with Ok q => q | Panic _ => p end) ->
  (forall e, In e (removed_defs refs p) -> Known_C12 e = false) ->
  forall fuel b, behaviour fuel p = b -> observable b -> behaviour fuel p' = b.
Proof. intros refs level p p' Hl Hopt Ho Hk fuel b. exact (levels_preserve refs level p p' Hl Hopt Ho Hk fuel fuel b (le_n fuel)). Qed.

(** Behaviour as a partial function: if the unoptimised program has an observable behaviour with fuel [n], the
    optimised program has the same behaviour with every fuel >= n, and no other observable behaviour with any fuel. *)
Theorem opt_preserves_total : forall refs level p p',
  In level [0; 1; 2; 3] ->
  optimize refs level p = Ok p' ->
  oracle_sound refs p (match eliminate refs p with Ok q => q | Panic _ => p end) ->
  (forall e, In e (removed_defs refs p) -> Known_C12 e = false) ->
  forall n, observable (behaviour n p) ->
    (forall m, (n <= m)%nat -> behaviour m p' = behaviour n p) /\
    (forall m, observable (behaviour m p') -> behaviour m p' = behaviour n p).
Proof.
  intros refs level p p' Hl Hopt Ho Hk n Hobs.
  assert (Hfwd : forall m, (n <= m)%nat -> behaviour m p' = behaviour n p).
  { intros m Hle. exact (levels_preserve refs level p p' Hl Hopt Ho Hk n m _ Hle eq_refl Hobs). }
  split; [exact Hfwd|exact (behaviour_total p p' n Hfwd Hobs)].
Qed.

Example all_levels_nonvacuous :
  forall level, In level [1; 2; 3] ->
  exists p', optimize ex_refs level ex_prog = Ok p' /\ p' <> ex_prog /\ behaviour 9 p' = behaviour 9 ex_prog.
Proof.
  intros level [<-|[<-|[<-|[]]]]; eexists; (split; [vm_compute; reflexivity|split; [vm_compute; discriminate|vm_compute; reflexivity]]).
Qed.

(** The optimiser does not panic when every definition is registered in the index and no comprehension node occurs. *)
Theorem optimize_no_panic : forall refs level p,
  (forall d, refs d <> None) -> In level [0; 1; 2; 3] -> no_todo_all p = true ->
  exists p', optimize refs level p = Ok p'.
Proof.
  intros refs level p Hreg Hl Hn. destruct Hl as [<-|Hl].
  - rewrite optimize_level0. eauto.
  - rewrite (optimize_level123 refs level p Hl). unfold eliminate, eliminate_unused_variables.
    apply (elim_all_nopanic refs); [|exact Hn]. apply Forall_forall. intros e _. apply (elim_nopanic refs Hreg).
Qed.
