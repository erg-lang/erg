(** C12 — concrete programs (the witnesses of the refutations on the model of the code as found ([is_impure_nofix]) and on the known class, the
    non-vacuity example) and the traversal without panic. *)
From Coq Require Import ZArith List Bool Arith Lia.
From ErgV Require Import Optimize.Model Optimize.Spec Optimize.ProofsBase Optimize.ProofsPure Optimize.ProofsSim Optimize.Proofs.
Import ListNotations.
Open Scope Z_scope.

(** The witnesses: the same programs are replayed against the implementation by checks/c12.py. *)
Definition s_hello : list Z := [104; 101; 108; 108; 111].
Definition s_end : list Z := [101; 110; 100].
Definition ci_print := MkCI true false false false 0.        (* print!: the callee is a procedure, the result NoneType *)
Definition ci_fun := MkCI false false false false 0.
Definition print_ (e : expr) : expr := ECall ci_print (EVar 0 1) [e] [] [] [].
Definition var_sig (id : ident) : defsig := MkSig id false false false false false true [].

(** x = print! "hello"        (x unused)
    print! "end" *)
Definition w1_def : expr := EDef (var_sig 1000002) [print_ (ELit (LStr s_hello))].
Definition w1 : program := [w1_def; print_ (ELit (LStr s_end))].
Definition w1_refs (d : ident) : option nat := if d =? 1000002 then Some 0%nat else None.

(** x = {a = print! "hello"}  (x unused) *)
Definition w2_def : expr := EDef (var_sig 1000002) [ERecord [EDef (var_sig 1005006) [print_ (ELit (LStr s_hello))]]].
Definition w2 : program := [w2_def; print_ (ELit (LStr s_end))].

(** n = 0
    y = 1 // n                (y unused)
    print! "end" *)
Definition w3_def : expr := EDef (var_sig 2000002) [EBin 4 (ELit (LInt 1)) (EVar 1000002 0)].
Definition w3 : program := [EDef (var_sig 1000002) [ELit (LInt 0)]; w3_def; print_ (ELit (LStr s_end))].
Definition w3_refs (d : ident) : option nat :=
  if d =? 1000002 then Some 1%nat else if d =? 2000002 then Some 0%nat else None.

Lemma not_silent_by_output : forall e fuel,
  out (fst (eval fuel init_state e)) <> [] -> ~ silent e.
Proof.
  intros e fuel Hout Hs. destruct (proj1 (silent_quiet e) Hs fuel init_state) as [[Ho _] _].
  simpl in Ho. congruence.
Qed.

Lemma not_silent_by_exc : forall e fuel c,
  snd (eval fuel init_state e) = RExc c -> ~ silent e.
Proof. intros e fuel c Hr Hs. destruct (proj1 (silent_quiet e) Hs fuel init_state) as [_ N]. exact (N c Hr). Qed.

(** after the repairs both witnesses are impure *)
Lemma witnesses_impure_now : is_impure w1_def = TTrue /\ is_impure w2_def = TTrue.
Proof. split; reflexivity. Qed.

(** l = ![1]
    x =                       (unused, pure: removed)
        a = 2
        [a, len([a, 3])]
    if! 1 == 1, do!:
        u = abs(-4) + 1       (unused, inside a block argument: removed)
        l.push! 2
    k = l.push! 3             (unused, but a procedural method: kept)
    print! l                                                                    *)
Definition ex_l := 1000002. Definition ex_x := 2000002. Definition ex_a := 3004006.
Definition ex_u := 6004006. Definition ex_k := 8000002.
Definition ci_meth_proc := MkCI false true true false 1.
Definition ex_prog : program :=
  [ EDef (var_sig ex_l) [EUn 1 (EList [ELit (LInt 1)])];
    EDef (var_sig ex_x) [EDef (var_sig ex_a) [ELit (LInt 2)];
                         EList [EVar ex_a 0; ECall ci_fun (EVar 0 2) [EList [EVar ex_a 0; ELit (LInt 3)]] [] [] []]];
    ECall ci_print (EVar 0 7) [EBin 8 (ELit (LInt 1)) (ELit (LInt 1));
                               ELambda false true [] [EDef (var_sig ex_u) [EBin 1 (ECall ci_fun (EVar 0 3) [ELit (LInt (-4))] [] [] []) (ELit (LInt 1))];
                                                      ECall ci_meth_proc (EVar ex_l 0) [ELit (LInt 2)] [] [] []]] [] [] [];
    EDef (var_sig ex_k) [ECall ci_meth_proc (EVar ex_l 0) [ELit (LInt 3)] [] [] []];
    print_ (EVar ex_l 0) ].
Definition ex_refs (d : ident) : option nat :=
  if d =? ex_l then Some 3%nat else if d =? ex_a then Some 2%nat
  else if (d =? ex_x) || (d =? ex_u) || (d =? ex_k) then Some 0%nat else None.

Lemma no_todo_all_forall : forall l, no_todo_all l = true <-> Forall (fun e => no_todo e = true) l.
Proof. intros l. rewrite Forall_forall. apply (forallb_forall no_todo). Qed.

Lemma tor_nopanic : forall a b, a <> TPanic -> b <> TPanic -> tor a b <> TPanic.
Proof. intros [] []; simpl; congruence. Qed.

Lemma tb_nopanic : forall b, tb b <> TPanic.
Proof. intros []; simpl; discriminate. Qed.

Lemma impure_all_nopanic : forall l,
  Forall (fun e => no_todo e = true -> is_impure e <> TPanic) l -> no_todo_all l = true -> impure_all l <> TPanic.
Proof.
  induction 1 as [|x r Hx Hr IH]; simpl; intros Hn; [discriminate|].
  apply andb_true_iff in Hn. destruct Hn. apply tor_nopanic; auto.
Qed.

(** ([simpl] leaves the lists of a node under local fixpoints convertible to [impure_all] and [no_todo_all]) *)
Lemma is_impure_nopanic : forall e, no_todo e = true -> is_impure e <> TPanic.
Proof.
  induction e using expr_ind'; simpl; intros Hn; try discriminate;
    repeat (apply andb_true_iff in Hn; destruct Hn as [Hn ?]);
    repeat apply tor_nopanic; auto using tb_nopanic, impure_all_nopanic.
Qed.

Section NoPanic.
  Variable refs : ident -> option nat.
  Hypothesis registered : forall d, refs d <> None.

  Lemma elim_all_nopanic : forall l,
    Forall (fun e => no_todo e = true -> exists e', elim is_impure refs e = Ok e') l ->
    no_todo_all l = true -> exists l', elim_all is_impure refs l = Ok l'.
  Proof.
    induction 1 as [|x r Hx Hr IH]; simpl; intros Hn; [eauto|].
    apply andb_true_iff in Hn. destruct Hn as [N1 N2].
    destruct (Hx N1) as [x' ->]. destruct (IH N2) as [r' ->]. simpl. eauto.
  Qed.

  Lemma elim_nopanic : forall e, no_todo e = true -> exists e', elim is_impure refs e = Ok e'.
  Proof.
    induction e using expr_ind'; intros Hn; try (simpl; eauto; fail).
    - rewrite elim_call. simpl in Hn. repeat (apply andb_true_iff in Hn; destruct Hn as [Hn ?]).
      destruct (elim_all_nopanic pos) as [pos' ->]; auto. simpl. eauto.
    - rewrite elim_lambda. destruct (elim_all_nopanic body H Hn) as [b' ->]. simpl. eauto.
    - rewrite elim_def. destruct (d_glob s || d_disc s || d_pub s); eauto.
      destruct (refs (d_id s)) as [n|] eqn:E; [|exfalso; eapply registered; eauto].
      destruct (n =? 0)%nat; eauto.
      pose proof (is_impure_nopanic (EDef s body) Hn) as Hp.
      destruct (is_impure (EDef s body)); eauto. congruence.
    - rewrite elim_code. destruct (elim_all_nopanic es H Hn) as [b' ->]. simpl. eauto.
    - rewrite elim_compound. destruct (elim_all_nopanic es H Hn) as [b' ->]. simpl. eauto.
  Qed.
End NoPanic.
