(** C12 — purity_sound: what [is_impure] accepts and the known class does not contain is silent. *)
From Coq Require Import ZArith List Bool Arith Lia.
From ErgV Require Import Optimize.Model Optimize.Spec Optimize.ProofsBase.
Import ListNotations.
Open Scope Z_scope.

Lemma noexc_val : forall v, noexc (RVal v). Proof. intros v c H; discriminate. Qed.
Lemma noexc_stuck : noexc RStuck. Proof. intros c H; discriminate. Qed.
Lemma noexc_fuel : noexc RFuel. Proof. intros c H; discriminate. Qed.

Section Pure.
  (** any set that contains the identifiers the expression binds: stated so, the claim passes to sub-expressions
      as it is *)
  Variable R : ident -> bool.

  Definition calm (e : expr) : Prop :=
    is_impure e = TFalse /\ risky e = false /\ Forall (fun i => R i = true) (binds e).

  Lemma calm_all : forall l,
    impure_all l = TFalse -> risky_all l = false -> Forall (fun i => R i = true) (binds_all l) -> Forall calm l.
  Proof.
    induction l as [|e r IH]; simpl; intros H1 H2 H3; [constructor|].
    apply tor_false in H1 as [I1 I2]. apply orb_false_iff in H2 as [K1 K2]. apply Forall_app in H3 as [B1 B2].
    constructor; [repeat split; assumption|apply IH; assumption].
  Qed.

  (** what [calm] says of the parts of a node that the evaluator runs, and of the node itself *)
  Definition calm_parts (e : expr) : Prop :=
    match e with
    | EAttr o _ | EUn _ o | ETypeAsc o => calm o
    | EBin op l r => calm l /\ calm r /\ (op =? 4) = false /\ (op =? 5) = false /\ (op =? 6) = false
    | ECall ci obj pos _ _ _ => total_builtin_call ci obj = true /\ Forall calm pos
    | EList es | ETuple es | ESet es | EDict es | ERecord es | ECompound es | ELambda _ _ _ es => Forall calm es
    | EListLen a l => Forall calm (a :: l)
    | ESetLen a b => Forall calm [a; b]
    | EDef s body => R (d_id s) = true /\ Forall calm body
    | _ => True
    end.

  (** ([simpl] leaves the lists of a node under local fixpoints that are convertible to [impure_all], [risky_all],
      [binds_all]) *)
  Lemma calm_inv : forall e, calm e -> calm_parts e.
  Proof.
    intros e (I & K & B). destruct e; simpl in I, K, B |- *; auto;
      repeat (apply tor_false in I; destruct I as [? I]);
      repeat (apply orb_false_iff in K; destruct K as [K ?]);
      try (apply Forall_cons_iff in B; destruct B as [? B]);
      repeat (apply Forall_app in B; destruct B as [? B]);
      repeat constructor; auto using calm_all.
    (* the callee of a call is a total builtin *)
    unfold callee_procedural in K.
    destruct (c_obj_proc ci), (c_attr ci && c_attr_proc ci), (total_builtin_call ci e); (discriminate || reflexivity).
  Qed.

  Lemma calm_thunk : forall e b, calm e -> as_thunk e = Some b -> Forall calm b.
  Proof.
    intros e b0 Hc E. apply calm_inv in Hc. destruct e; try discriminate. destruct ps; inversion E; subst. exact Hc.
  Qed.

  Lemma quiet_ret : forall A (res_of : A -> result) st a, noexc (res_of a) -> quiet res_of R st (st, a).
  Proof. intros A res_of st a H. split; [apply agree_refl|exact H]. Qed.

  Lemma quiet_bind : forall st x k,
    quiet id R st x -> (forall s v, quiet id R s (k s v)) -> quiet id R st (bindv x k).
  Proof.
    intros st [s [v|c| |]] k [A N] Hk; simpl; try (split; assumption).
    destruct (Hk s v) as [A' N']. split; [eapply agree_trans; eassumption|exact N'].
  Qed.

  Lemma quiet_bindl : forall st x k,
    quiet stop_of R st x -> (forall s vs, quiet id R s (k s vs)) -> quiet id R st (bindl x k).
  Proof.
    intros st [s [vs|o]] k [A N] Hk; simpl; try (split; assumption).
    destruct (Hk s vs) as [A' N']. split; [eapply agree_trans; eassumption|exact N'].
  Qed.

  Section Step.
    Variable ev : state -> expr -> state * result.
    Hypothesis Hev : forall e st, calm e -> quiet id R st (ev st e).

    Lemma evals_quiet : forall es, Forall calm es -> forall st, quiet stop_of R st (evals ev st es).
    Proof.
      induction 1 as [|e r He _ IH]; intros st; simpl.
      - apply quiet_ret, noexc_val.
      - destruct (Hev e st He) as [A N]. destruct (ev st e) as [s [v|c| |]]; try (split; assumption).
        destruct (IH s) as [A' N']. simpl in A.
        destruct (evals ev s r) as [s' [vs|o]]; (split; [eapply agree_trans; eassumption|exact N']).
    Qed.

    Lemma eval_block_quiet : forall b, Forall calm b -> forall st cur, quiet id R st (eval_block ev st cur b).
    Proof.
      induction 1 as [|e r He _ IH]; intros st cur; simpl.
      - apply quiet_ret, noexc_val.
      - apply quiet_bind; auto.
    Qed.

    Lemma eval_opaque_quiet : forall es, Forall calm es -> forall st, quiet id R st (eval_opaque ev st es).
    Proof. intros es H st. apply quiet_bindl; [apply evals_quiet, H|]. intros. apply quiet_ret, noexc_val. Qed.

    Lemma eval_cond_quiet : forall st c b1 b2,
      calm c -> Forall calm b1 -> (forall b, b2 = Some b -> Forall calm b) -> quiet id R st (eval_cond ev st c b1 b2).
    Proof.
      intros st c b1 b2 Hc H1 H2. apply quiet_bind; auto.
      intros s [| |[]| | |]; try apply quiet_ret, noexc_stuck.
      - apply eval_block_quiet, H1.
      - destruct b2; [apply eval_block_quiet, H2; reflexivity|apply quiet_ret, noexc_val].
    Qed.

    Lemma eval_if_quiet : forall pos, Forall calm pos -> forall st, quiet id R st (eval_if ev st pos).
    Proof.
      intros pos Hp st. unfold eval_if.
      destruct Hp as [|c ? Hc [|t1 ? H1 [|t2 ? H2 [|]]]]; try apply quiet_ret, noexc_stuck.
      - destruct (as_thunk t1) eqn:T1; [|apply quiet_ret, noexc_stuck].
        apply eval_cond_quiet; [exact Hc|exact (calm_thunk _ _ H1 T1)|discriminate].
      - destruct (as_thunk t1) eqn:T1; [|apply quiet_ret, noexc_stuck].
        destruct (as_thunk t2) eqn:T2; [|apply quiet_ret, noexc_stuck].
        apply eval_cond_quiet; [exact Hc|exact (calm_thunk _ _ H1 T1)|].
        intros b E. inversion E; subst. exact (calm_thunk _ _ H2 T2).
    Qed.

    (** [if] takes blocks and is not applied to values: [apply_builtin] has no arm for it *)
    Lemma apply_builtin_total : forall b st vs, total_builtin b = true -> quiet id R st (apply_builtin b st vs).
    Proof.
      intros b st vs Ht. unfold total_builtin in Ht.
      repeat (apply orb_true_iff in Ht as [Ht|Ht]); apply Z.eqb_eq in Ht; subst b; unfold apply_builtin; simpl.
      - destruct vs as [|[] [|]]; apply quiet_ret, noexc_val || apply quiet_ret, noexc_stuck.
      - destruct vs as [|[] [|]]; apply quiet_ret, noexc_val || apply quiet_ret, noexc_stuck.
      - apply quiet_ret, noexc_stuck.
      - destruct vs as [|? [|]]; apply quiet_ret, noexc_val || apply quiet_ret, noexc_stuck.
      - destruct vs as [|[] [|]]; apply quiet_ret, noexc_val || apply quiet_ret, noexc_stuck.
    Qed.

    Lemma eval_call_quiet : forall st ci obj pos var kw kwvar,
      calm (ECall ci obj pos var kw kwvar) -> quiet id R st (eval_call ev st ci obj pos var kw kwvar).
    Proof.
      intros st ci obj pos var kw kwvar Hc. destruct (calm_inv _ Hc) as [K Hpos].
      unfold total_builtin_call in K. destruct obj; try discriminate.
      apply andb_true_iff in K as [K Hattr]. apply andb_true_iff in K as [K Hb].
      apply Z.eqb_eq in K. subst d. apply negb_true_iff in Hattr.
      unfold eval_call. rewrite Hattr. simpl.
      destruct (no_extra var kw kwvar); [|apply quiet_ret, noexc_stuck].
      unfold eval_builtin.
      destruct ((b =? 7) || (b =? 9)); [apply eval_if_quiet, Hpos|].
      destruct (b =? 8) eqn:E8.
      { apply Z.eqb_eq in E8. subst b. discriminate. }
      apply quiet_bindl; [apply evals_quiet, Hpos|].
      intros s vs. apply apply_builtin_total, Hb.
    Qed.

    Lemma binop_noexc : forall op a b, (op =? 4) = false -> (op =? 5) = false -> (op =? 6) = false -> noexc (binop op a b).
    Proof.
      intros op a b H4 H5 H6 c H. unfold binop in H.
      destruct a as [x|x|x| |[] x|]; destruct b as [y|y|y| |[] y|];
        rewrite ?H4, ?H5, ?H6 in H;
        repeat match type of H with context [if ?c then _ else _] => destruct c end; discriminate.
    Qed.

    Lemma unop_noexc : forall op a, noexc (unop op a).
    Proof.
      intros op a c H. unfold unop in H.
      destruct (op =? 1); [discriminate|]. destruct a; try discriminate.
      repeat match type of H with context [if ?c then _ else _] => destruct c end; discriminate.
    Qed.

    (** a definition binds its own identifier, which is in [R] *)
    Lemma eval_def_quiet : forall st s body, calm (EDef s body) -> quiet id R st (eval_def ev st s body).
    Proof.
      intros st s body Hc. destruct (calm_inv _ Hc) as [Hid Hb].
      unfold eval_def.
      destruct (d_glob s); [apply quiet_ret, noexc_stuck|].
      destruct (d_subr s); [split; [apply agree_bind_fun, Hid|apply noexc_val]|].
      destruct (def_lambda body); [split; [apply agree_bind_fun, Hid|apply noexc_val]|].
      apply quiet_bind.
      - apply eval_block_quiet, Hb.
      - intros s1 v. split; [apply agree_bind_var, Hid|apply noexc_val].
    Qed.

    Lemma eval_step_quiet : forall e st, calm e -> quiet id R st (eval_step ev st e).
    Proof.
      intros e st Hc. pose proof (calm_inv e Hc) as Hp.
      destruct e; simpl in Hp |- *; try (apply quiet_ret; (apply noexc_val || apply noexc_stuck));
        (* a call, a definition, the opaque containers, a block, a type ascription: the lemma of that name, or [Hev], at [Hp] *)
        auto using eval_call_quiet, eval_def_quiet, eval_opaque_quiet, eval_block_quiet.
      - apply quiet_ret. destruct l; (apply noexc_val || apply noexc_stuck).
      - destruct (d =? 0); [apply quiet_ret, noexc_stuck|].
        destruct (lookup (venv st) d); apply quiet_ret; [apply noexc_val|apply noexc_stuck].
      - apply quiet_bind; [apply Hev, Hp|]. intros. apply quiet_ret, noexc_stuck.
      - destruct Hp as (Hl & Hr & H4 & H5 & H6). apply quiet_bind; [apply Hev, Hl|].
        intros s a. apply quiet_bind; [apply Hev, Hr|].
        intros s' b. apply quiet_ret, binop_noexc; assumption.
      - apply quiet_bind; [apply Hev, Hp|]. intros. apply quiet_ret, unop_noexc.
      - apply quiet_bindl; [apply evals_quiet, Hp|]. intros. apply quiet_ret, noexc_val.
      - apply quiet_bindl; [apply evals_quiet, Hp|]. intros. apply quiet_ret, noexc_val.
    Qed.
  End Step.

  Lemma eval_quiet : forall fuel e st, calm e -> quiet id R st (eval fuel st e).
  Proof.
    induction fuel as [|f IH]; intros e st Hc; simpl.
    - apply quiet_ret, noexc_fuel.
    - apply eval_step_quiet; assumption.
  Qed.
End Pure.

Lemma pure_silent : forall e, is_impure e = TFalse -> Known_C12 e = false -> silent e.
Proof.
  intros e H1 H2. apply silent_quiet. intros fuel st. apply eval_quiet.
  split; [exact H1|split; [exact H2|]].
  apply Forall_forall. intros i Hi. apply existsb_exists. exists i. split; [exact Hi|apply Z.eqb_refl].
Qed.
