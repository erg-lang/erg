(** C12 — what the traversal [elim] returns is related to its input by [orel] ([elim_orel]); [behaviour_sim] then gives
    the three preservation theorems, the optimised program running with at least as much fuel. *)
From Coq Require Import ZArith List Bool.
From ErgV Require Import Optimize.Model Optimize.Spec Optimize.ProofsBase Optimize.ProofsPure Optimize.ProofsSim
                          Optimize.ProofsMono.
From ErgV Require Import gen.OptLevels.
Import ListNotations.
Open Scope Z_scope.

Section ElimEq.
  Variable impure : expr -> tri.
  Variable refs : ident -> option nat.

  Lemma elim_call : forall ci obj pos var kw kwvar,
    elim impure refs (ECall ci obj pos var kw kwvar) =
    rbind (elim_all impure refs pos) (fun pos' => Ok (ECall ci obj pos' var kw kwvar)).
  Proof. reflexivity. Qed.
  Lemma elim_code : forall b, elim impure refs (ECode b) = rbind (elim_all impure refs b) (fun b' => Ok (ECode b')).
  Proof. reflexivity. Qed.
  Lemma elim_compound : forall b, elim impure refs (ECompound b) = rbind (elim_all impure refs b) (fun b' => Ok (ECompound b')).
  Proof. reflexivity. Qed.
  Lemma elim_lambda : forall bang s ps b,
    elim impure refs (ELambda bang s ps b) = rbind (elim_all impure refs b) (fun b' => Ok (ELambda bang s ps b')).
  Proof. reflexivity. Qed.

  Lemma elim_def : forall s body,
    elim impure refs (EDef s body) =
    if d_glob s || d_disc s || d_pub s then Ok (EDef s body)
    else match refs (d_id s) with
         | None => Panic 1
         | Some n => if (n =? 0)%nat then
                       match impure (EDef s body) with
                       | TFalse => Ok (EDummy []) | TTrue => Ok (EDef s body) | TPanic => Panic 2
                       end
                     else Ok (EDef s body)
         end.
  Proof. reflexivity. Qed.

  Lemma removed_call : forall ci obj pos var kw kwvar,
    removed impure refs (ECall ci obj pos var kw kwvar) = removed_all impure refs pos.
  Proof. reflexivity. Qed.
  Lemma removed_code : forall b, removed impure refs (ECode b) = removed_all impure refs b. Proof. reflexivity. Qed.
  Lemma removed_compound : forall b, removed impure refs (ECompound b) = removed_all impure refs b. Proof. reflexivity. Qed.
  Lemma removed_lambda : forall bang s ps b, removed impure refs (ELambda bang s ps b) = removed_all impure refs b.
  Proof. reflexivity. Qed.

  Lemma removed_all_Forall : forall (P : expr -> Prop) l,
    Forall (fun e => Forall P (removed impure refs e)) l -> Forall P (removed_all impure refs l).
  Proof. induction 1; simpl; [constructor|apply Forall_app; split; assumption]. Qed.

  Lemma removed_pure : forall e, Forall (fun x => impure x = TFalse) (removed impure refs e).
  Proof.
    induction e using expr_ind'; try (simpl; constructor).
    - rewrite removed_call. apply removed_all_Forall. assumption.
    - rewrite removed_lambda. apply removed_all_Forall. assumption.
    - simpl. destruct (d_glob s || d_disc s || d_pub s); [constructor|].
      destruct (refs (d_id s)) as [[|n]|]; try constructor.
      destruct (impure (EDef s body)) eqn:E; repeat constructor. exact E.
    - rewrite removed_code. apply removed_all_Forall. assumption.
    - rewrite removed_compound. apply removed_all_Forall. assumption.
  Qed.

  Lemma removed_all_pure : forall l, Forall (fun x => impure x = TFalse) (removed_all impure refs l).
  Proof. intros l. apply removed_all_Forall, Forall_forall. intros e _. apply removed_pure. Qed.
End ElimEq.

Section Rel.
  Variable R : ident -> bool.

  Variable impure : expr -> tri.
  Variable refs : ident -> option nat.

  Definition elim_ok (e : expr) : Prop :=
    forall e', elim impure refs e = Ok e' -> Forall (silentR R) (removed impure refs e) -> mentions R e' = false -> orel R e e'.

  Lemma elim_all_orel : forall es, Forall elim_ok es -> forall es',
    elim_all impure refs es = Ok es' -> Forall (silentR R) (removed_all impure refs es) -> mentions_all R es' = false ->
    Forall2 (orel R) es es'.
  Proof.
    induction 1 as [|e r He Hr IH]; simpl; intros es' H Hs Hm.
    - inversion H; subst. constructor.
    - destruct (elim impure refs e) as [x|] eqn:E1; simpl in H; [|discriminate].
      destruct (elim_all impure refs r) as [xs|] eqn:E2; simpl in H; [|discriminate].
      inversion H; subst. simpl in Hm. apply orb_false_iff in Hm. destruct Hm as [M1 M2].
      apply Forall_app in Hs. destruct Hs as [S1 S2].
      constructor; auto.
  Qed.

  Lemma elim_orel : forall e, elim_ok e.
  Proof.
    induction e using expr_ind'; intros e' H' Hs Hm;
      try (simpl in H'; inversion H'; subst; apply o_same; exact Hm).
    - rewrite elim_call in H'. rewrite removed_call in Hs.
      destruct (elim_all impure refs pos) as [pos'|] eqn:E; simpl in H'; [|discriminate].
      inversion H'; subst. rewrite mentions_call in Hm.
      repeat (apply orb_false_iff in Hm; destruct Hm as [Hm ?]).
      apply o_call; eauto using elim_all_orel.
    - rewrite elim_lambda in H'. rewrite removed_lambda in Hs.
      destruct (elim_all impure refs body) as [b'|] eqn:E; simpl in H'; [|discriminate].
      inversion H'; subst. apply o_lambda. eapply elim_all_orel; eauto.
    - simpl in H', Hs.
      destruct (d_glob s || d_disc s || d_pub s); [inversion H'; subst; apply o_same; exact Hm|].
      destruct (refs (d_id s)) as [[|n]|]; simpl in H'; try discriminate.
      + destruct (impure (EDef s body)); try discriminate.
        * inversion H'; subst. apply o_removed. inversion Hs; subst. assumption.
        * inversion H'; subst. apply o_same; exact Hm.
      + inversion H'; subst. apply o_same; exact Hm.
    - rewrite elim_code in H'.
      destruct (elim_all impure refs es) as [b'|] eqn:E; simpl in H'; [|discriminate].
      inversion H'; subst. apply o_code.
    - rewrite elim_compound in H'. rewrite removed_compound in Hs.
      destruct (elim_all impure refs es) as [b'|] eqn:E; simpl in H'; [|discriminate].
      inversion H'; subst. apply o_compound. eapply elim_all_orel; eauto.
  Qed.
End Rel.

Lemma binds_in_all : forall l e, In e l -> incl (binds e) (binds_all l).
Proof.
  induction l as [|x r IH]; simpl; intros e H; [contradiction|].
  destruct H as [->|H]; [apply incl_appl, incl_refl|apply incl_appr; auto].
Qed.

(** [impure] is arbitrary: all that is asked of the purity test is that what it lets go is silent *)
Theorem elim_preserves : forall impure refs p p',
  eliminate_unused_variables impure refs p = Ok p' ->
  (forall e, In e (removed_all impure refs p) -> silent e) ->
  mentions_all (inb (binds_all (removed_all impure refs p))) p' = false ->
  forall n m b, (n <= m)%nat -> behaviour n p = b -> observable b -> behaviour m p' = b.
Proof.
  intros impure refs p p' He Hs Hm n m b.
  apply (behaviour_sim (inb (binds_all (removed_all impure refs p)))).
  apply (elim_all_orel _ impure refs); auto.
  - apply Forall_forall. intros e _. apply elim_orel.
  - apply Forall_forall. intros e Hin fuel st.
    destruct (proj1 (silent_quiet e) (Hs e Hin) fuel st) as [A N]. split; [|exact N].
    eapply agree_mono; [|exact A]. intros i. apply inb_incl, binds_in_all, Hin.
Qed.

Theorem known_preserves : forall refs p p',
  eliminate refs p = Ok p' ->
  oracle_sound refs p p' ->
  (forall e, In e (removed_defs refs p) -> Known_C12 e = false) ->
  forall n m b, (n <= m)%nat -> behaviour n p = b -> observable b -> behaviour m p' = b.
Proof.
  intros refs p p' He Ho Hk. apply (elim_preserves is_impure refs p p' He); auto.
  intros e Hin. apply pure_silent; auto.
  exact (proj1 (Forall_forall _ _) (removed_all_pure is_impure refs p) e Hin).
Qed.

Lemma passes_level123 : forall n, In n [1; 2; 3] -> passes_of opt_level_passes n = Some [1; 2].
Proof. intros n [<-|[<-|[<-|[]]]]; reflexivity. Qed.

Lemma passes_level0 : passes_of opt_level_passes 0 = Some [].
Proof. reflexivity. Qed.

Lemma optimize_level0 : forall refs p, optimize refs 0 p = Ok p.
Proof. intros. unfold optimize, optimize_with. rewrite passes_level0. reflexivity. Qed.

Lemma optimize_level123 : forall refs n p, In n [1; 2; 3] -> optimize refs n p = eliminate refs p.
Proof.
  intros refs n p Hn. unfold optimize, optimize_with. rewrite (passes_level123 n Hn).
  simpl. unfold run_pass. simpl. unfold eliminate. destruct (eliminate_unused_variables is_impure refs p); reflexivity.
Qed.

Theorem levels_preserve : forall refs level p p',
  In level [0; 1; 2; 3] ->
  optimize refs level p = Ok p' ->
  oracle_sound refs p (match eliminate refs p with Ok q => q | Panic _ => p end) ->
  (forall e, In e (removed_defs refs p) -> Known_C12 e = false) ->
  forall n m b, (n <= m)%nat -> behaviour n p = b -> observable b -> behaviour m p' = b.
Proof.
  intros refs level p p' Hl Hopt Ho Hk n m b.
  destruct Hl as [<-|Hl].
  - rewrite optimize_level0 in Hopt. inversion Hopt; subst. apply behaviour_mono.
  - rewrite (optimize_level123 refs level p Hl) in Hopt. rewrite Hopt in Ho.
    apply (known_preserves refs p p'); auto.
Qed.
