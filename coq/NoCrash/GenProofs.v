(** The printed text of the operator sub-fragment lexes and parses to the intended tree (against the models in
    ErgV.ExprParse.Model of Lexer::op_fix, negative-literal folding and the parser's operator stack).  The
    inductions go by [ofrag_ind]: a numeric literal seen through [num_of], a variable, a prefix operator, and one
    binary [node] standing for the three binary constructors, whose text, lexemes, tokens and tree have one shape. *)
From Coq Require Import ZArith NArith List Bool String Ascii Lia Arith.
From ErgV Require Import Common.Sx CoreErg.Syntax gen.Prec.
From ErgV Require CoreErg.Sem ExprParse.Model ExprParse.Spec ExprParse.Proofs.
From ErgV Require Import NoCrash.Gen NoCrash.GenOps.
Import ListNotations.

Module PS := ErgV.ExprParse.Spec.
Module PP := ErgV.ExprParse.Proofs.

Local Open Scope Z_scope.

Lemma spell_app : forall a b, spell (a ++ b) = spell a ++ spell b.
Proof. intros. unfold spell. apply flat_map_app. Qed.

Lemma spell_cons : forall sp l r, spell ((sp, l) :: r) = (if sp then [32] else []) ++ lexeme_text l ++ spell r.
Proof. intros. unfold spell. simpl. rewrite app_assoc. reflexivity. Qed.

Definition spt (sp : bool) : list Z := if sp then [32] else [].

Lemma str_int_nonneg : forall n, 0 <=? n = true -> Sem.str_int n = Sem.dec_nonneg n.
Proof. intros n H. unfold Sem.str_int. apply Z.leb_le in H. destruct (n <? 0) eqn:E; [apply Z.ltb_lt in E; lia|reflexivity]. Qed.

Lemma str_int_neg : forall z, z <? 0 = true -> Sem.str_int z = 45 :: Sem.dec_nonneg (- z).
Proof. intros z H. unfold Sem.str_int. rewrite H. reflexivity. Qed.

Lemma arith_sym_text : forall o, opsym_text (arith_sym o) = arith_text o.
Proof. destruct o; reflexivity. Qed.
Lemma cmp_sym_text : forall o, binop_text (cmp_bin o) = cmp_text o.
Proof. destruct o; reflexivity. Qed.

Inductive bop := BA (o : arith) | BC (o : cmpop) | BL (k : bool).
Definition node (w : wrapc) (k : bop) (a b : expr) : expr :=
  match k with BA o => EBin w o a b | BC o => ECmp w o a b | BL k => ELogic w k a b end.
Definition bop_sym (k : bop) : PM.opsym :=
  match k with BA o => arith_sym o | BC o => PM.SBin (cmp_bin o) | BL k => PM.SBin (logic_bin k) end.
Definition bop_bin (k : bop) : PM.binop :=
  match k with BA o => arith_bin o | BC o => cmp_bin o | BL k => logic_bin k end.

Definition opnd_lex (sp : bool) (e : expr) : list (bool * PM.lexeme) :=
  if atomic e then lex_e sp e else (sp, PM.LLP) :: lex_e false e ++ [(false, PM.LRP)].
Definition opnd_tok (sp : bool) (e : expr) : list PM.tok :=
  if atomic e then tok_e sp e else PM.TLP (negb sp) :: tok_e false e ++ [PM.TRP].

Lemma lex_e_node : forall w k a b sp,
  lex_e sp (node w k a b) = opnd_lex sp a ++ (true, PM.LOp (bop_sym k)) :: opnd_lex true b.
Proof. intros w [o|o|k] a b sp; reflexivity. Qed.
Lemma tok_e_node : forall w k a b sp,
  tok_e sp (node w k a b) = opnd_tok sp a ++ PM.TBin (bop_bin k) :: opnd_tok true b.
Proof. intros w [o|o|k] a b sp; reflexivity. Qed.
Lemma ast_node : forall w k a b, ast (node w k a b) = PM.EBin (bop_bin k) (ast a) (ast b).
Proof. intros w [o|o|k] a b; reflexivity. Qed.
Lemma p_expr_node : forall w k a b,
  p_expr vname (node w k a b) = p_op vname a ++ 32 :: opsym_text (bop_sym k) ++ 32 :: p_op vname b.
Proof.
  intros w [o|o|[]] a b; unfold p_op; cbn [node p_expr bop_sym opsym_text];
    rewrite ?arith_sym_text, ?cmp_sym_text; reflexivity.
Qed.

Definition sf_sign (f : SpecFloat.spec_float) : bool :=
  match f with
  | SpecFloat.S754_zero s | SpecFloat.S754_infinity s | SpecFloat.S754_finite s _ _ => s
  | SpecFloat.S754_nan => false
  end.

Lemma b2sf_sign : forall bits, (0 <= bits < Sem.sign_bit)%Z -> sf_sign (Sem.b2sf bits) = false.
Proof.
  intros bits H. unfold Sem.b2sf. rewrite (Z.div_small _ _ H). change (negb (0 =? 0)) with false.
  destruct (_ =? 0); [destruct (bits mod Sem.two52); reflexivity|].
  destruct (_ =? 2047); [destruct (_ =? 0); reflexivity|]. destruct (_ + Sem.two52); reflexivity.
Qed.

Lemma float_k_sf : forall bits s k, float_k bits = Some (s, k) -> sf_sign (Sem.b2sf bits) = s.
Proof.
  intros bits s k. unfold float_k. destruct (Sem.b2sf bits) as [s0|s0| |s0 m e]; try discriminate; simpl.
  - intros E. inversion E. reflexivity.
  - destruct (0 <=? e + 10); [destruct (e + 10 <=? 40)|destruct (Z.pos m mod 2 ^ (- (e + 10)) =? 0)];
      try discriminate; intros E; inversion E; reflexivity.
Qed.

Lemma float_k_sign : forall bits k s, (0 <= bits)%Z -> (bits < Sem.sign_bit)%Z -> float_k bits = Some (s, k) -> s = false.
Proof. intros bits k s H0 H1 E. rewrite <- (float_k_sf bits s k E). apply b2sf_sign. lia. Qed.

Lemma ofrag_ind : forall P : expr -> Prop,
  (forall w l neg r ds, num_of l = Some (neg, r, ds) -> lit_text l = (if neg then [45] else []) ++ ds -> P (ELit w l)) ->
  (forall w x, P (EVar w x)) ->
  (forall w op a, op <> UNot -> ofrag a = true -> P a -> P (EUn w op a)) ->
  (forall w k a b, ofrag a = true -> ofrag b = true -> P a -> P b -> P (node w k a b)) ->
  forall e, ofrag e = true -> P e.
Proof.
  intros P Hlit Hvar Hun Hbin. induction e; intros Hf; simpl in Hf; try discriminate.
  - destruct l; try discriminate.
    + apply (Hlit w _ false false (Sem.dec_nonneg n)); [reflexivity|apply (str_int_nonneg _ Hf)].
    + apply (Hlit w _ true false (Sem.dec_nonneg (- z))); [reflexivity|apply (str_int_neg _ Hf)].
    + apply andb_true_iff in Hf. destruct Hf as [_ Hf]. unfold simple_float in Hf.
      destruct (float_k bits) as [[s k]|] eqn:E; [|discriminate].
      apply (Hlit w _ s true (ufloat_text k)); [simpl; rewrite E; reflexivity|unfold lit_text, float_text; rewrite E; reflexivity].
  - apply Hvar.
  - destruct op; try discriminate; apply Hun; auto; discriminate.
  - apply andb_true_iff in Hf. destruct Hf. apply (Hbin w (BA op)); auto.
  - apply andb_true_iff in Hf. destruct Hf. apply (Hbin w (BC op)); auto.
  - apply andb_true_iff in Hf. destruct Hf. apply (Hbin w (BL is_or)); auto.
Qed.

Lemma spell_opnd : forall e sp,
  (forall sp, spell (lex_e sp e) = spt sp ++ p_expr vname e) ->
  spell (opnd_lex sp e) = spt sp ++ p_op vname e.
Proof.
  intros e sp IH. unfold opnd_lex, p_op. destruct (atomic e); [apply IH|].
  rewrite spell_cons, spell_app, IH. simpl. reflexivity.
Qed.

Lemma print_is_spell_gen : forall e, ofrag e = true -> forall sp, spell (lex_e sp e) = spt sp ++ p_expr vname e.
Proof.
  apply (ofrag_ind (fun e => forall sp, spell (lex_e sp e) = spt sp ++ p_expr vname e)).
  - intros w l neg r ds Hn Ht sp. cbn [lex_e p_expr]. rewrite Hn, Ht.
    destruct neg; rewrite !spell_cons, app_nil_r; destruct sp; reflexivity.
  - intros w x sp. cbn [lex_e]. rewrite spell_cons, app_nil_r. reflexivity.
  - intros w op a Ho _ IH sp. cbn [lex_e p_expr]. rewrite !spell_cons, spell_app, IH.
    destruct op; [| |contradiction|]; destruct sp; reflexivity.
  - intros w k a b _ _ IHa IHb sp.
    rewrite lex_e_node, p_expr_node, spell_app, spell_cons, (spell_opnd a sp IHa), (spell_opnd b true IHb).
    rewrite <- app_assoc. reflexivity.
Qed.

Definition prefix_cat (c : N) : Prop := forall sp a, PM.op_fix c sp a = Some PM.Prefix.
Definition operand_cat (c : N) : Prop :=
  PM.op_fix c true (Some true) = Some PM.Infix /\ PM.op_fix c false (Some true) = Some PM.Infix.

Definition lapp (ts : list PM.tok) (r : PM.lexres) : PM.lexres :=
  match r with PM.LexOk ts' => PM.LexOk (ts ++ ts') | e => e end.

Lemma lex_cons_lapp : forall t r, PM.lex_cons t r = lapp [t] r.
Proof. intros t [ts| |]; reflexivity. Qed.
Lemma lapp_lapp : forall a b r, lapp a (lapp b r) = lapp (a ++ b) r.
Proof. intros a b [ts| |]; simpl; try reflexivity. rewrite app_assoc. reflexivity. Qed.
Lemma lapp_nil : forall r, lapp [] r = r.
Proof. intros [ts| |]; reflexivity. Qed.

Definition follow_ok (rest : list (bool * PM.lexeme)) : Prop :=
  match rest with
  | [] => True
  | (true, _) :: _ => True
  | (false, PM.LRP) :: _ => True
  | _ => False
  end.

(** [op_fix] answers Prefix after every category of its first list, whatever the white space *)
Lemma prefix_cat_of : forall c,
  existsb (N.eqb c) [cat_LEnclosure; cat_BinOp; cat_UnaryOp; cat_Separator; cat_SpecialBinOp; cat_DefOp; cat_LambdaOp;
                     cat_StrInterpLeft; cat_StrInterpMid; cat_BOF] = true -> prefix_cat c.
Proof. intros c H sp a. unfold PM.op_fix. rewrite H. reflexivity. Qed.

Lemma prefix_binop : forall o, prefix_cat (PM.category (PM.binop_kind o)).
Proof. intros o. apply prefix_cat_of. destruct o; reflexivity. Qed.
Lemma prefix_preop : forall p, prefix_cat (PM.category (PM.preop_kind p)).
Proof. intros p. apply prefix_cat_of. destruct p; reflexivity. Qed.
Lemma prefix_lparen : prefix_cat (PM.category kind_LParen).
Proof. apply prefix_cat_of. reflexivity. Qed.
Lemma prefix_defop : prefix_cat cat_DefOp.
Proof. apply prefix_cat_of. reflexivity. Qed.
Lemma prefix_bof : prefix_cat cat_BOF.
Proof. apply prefix_cat_of. reflexivity. Qed.
Lemma operand_lit : forall k, operand_cat (PM.category (PM.litkind_kind k)).
Proof. destruct k; split; reflexivity. Qed.
Lemma operand_sym : operand_cat (PM.category kind_Symbol).
Proof. split; reflexivity. Qed.
Lemma operand_rparen : operand_cat (PM.category kind_RParen).
Proof. split; reflexivity. Qed.

(** 23: the code of a parenthesis in [PM.lx_code] *)
Lemma glued_paren : forall l l', PM.lx_code l = 23%nat -> PM.glued l l' = false.
Proof. intros l l' H. unfold PM.glued. rewrite H. reflexivity. Qed.
Lemma next_glued_paren : forall l r, PM.lx_code l = 23%nat -> PM.next_glued l r = false.
Proof. intros l [|[[] l'] r] H; simpl; auto using glued_paren. Qed.

Lemma glued_lp : forall l, PM.glued PM.LLP l = false.
Proof. intros l. apply glued_paren. reflexivity. Qed.
Lemma glued_rp : forall l, PM.glued PM.LRP l = false.
Proof. intros l. apply glued_paren. reflexivity. Qed.
Lemma next_glued_lp : forall r, PM.next_glued PM.LLP r = false.
Proof. intros r. apply next_glued_paren. reflexivity. Qed.
Lemma next_glued_rp : forall r, PM.next_glued PM.LRP r = false.
Proof. intros r. apply next_glued_paren. reflexivity. Qed.

Lemma next_glued_follow : forall l rest, follow_ok rest ->
  (forall l', l' = PM.LRP -> PM.glued l l' = false) -> PM.next_glued l rest = false.
Proof. intros l [|[[] l'] r] Hf Hg; simpl; auto. destruct l'; try contradiction. exact (Hg _ eq_refl). Qed.

Lemma num_follow : forall ratio s rest, follow_ok rest -> PM.num_follow_ok ratio s rest = true.
Proof.
  intros ratio s [|[[] l'] r] Hf; simpl; auto.
  simpl in Hf. destruct l'; try contradiction. reflexivity.
Qed.

Lemma next_glued_sp : forall l l' r, PM.next_glued l ((true, l') :: r) = false.
Proof. reflexivity. Qed.

Lemma next_glued_spaced : forall l rest, PM.sp_after rest = Some true -> PM.next_glued l rest = false.
Proof. intros l [|[[] l'] r] H; [discriminate|apply next_glued_sp|discriminate]. Qed.

(** what follows the step stays a variable [rest]: over a list with known head the kernel compares the unfolded
    [PM.lex_from] with its folded form branch by branch *)
Lemma lex_num : forall c sp (neg r : bool) ds rest, prefix_cat c -> follow_ok rest ->
  PM.lex_from c ((if neg then [(sp, PM.LOp PM.SMinus); (false, PM.LNum r ds)] else [(sp, PM.LNum r ds)]) ++ rest)
  = lapp [PM.num_tok neg r ds] (PM.lex_from (PM.num_cat neg r ds) rest).
Proof.
  intros c sp neg r ds rest Hc Hr. rewrite <- lex_cons_lapp.
  destruct neg; cbn [app PM.lex_from PM.next_glued PM.sp_after]; [rewrite (Hc sp (Some false))|];
    rewrite (num_follow r ds rest Hr); reflexivity.
Qed.

Lemma lex_prefix : forall c sp op rest, prefix_cat c -> op <> UNot ->
  PM.lex_from c ((sp, PM.LOp (un_sym op)) :: (false, PM.LLP) :: rest)
  = lapp [PM.TPre (un_pre op)] (PM.lex_from (PM.category (PM.preop_kind (un_pre op))) ((false, PM.LLP) :: rest)).
Proof.
  intros c sp op rest Hc Ho. rewrite <- lex_cons_lapp.
  destruct op; [| |contradiction|]; cbn [un_sym un_pre PM.preop_kind PM.lex_from PM.next_glued PM.sp_after];
    rewrite ?(Hc sp (Some false)); reflexivity.
Qed.

Lemma lex_infix : forall c k rest, operand_cat c -> PM.sp_after rest = Some true ->
  PM.lex_from c ((true, PM.LOp (bop_sym k)) :: rest)
  = lapp [PM.TBin (bop_bin k)] (PM.lex_from (PM.category (PM.binop_kind (bop_bin k))) rest).
Proof.
  intros c k rest [H1 H2] Hs. rewrite <- lex_cons_lapp. cbn [PM.lex_from].
  rewrite (next_glued_spaced _ rest Hs), Hs.
  destruct k as [[]|o|b]; cbn [bop_sym bop_bin arith_sym arith_bin PM.binop_kind]; rewrite ?H1, ?H2; reflexivity.
Qed.

Lemma lex_e_head : forall e sp, ofrag e = true -> exists l r, lex_e sp e = (sp, l) :: r.
Proof.
  intros e sp. revert e. apply ofrag_ind.
  - intros w l neg r ds Hn _. cbn [lex_e]. rewrite Hn. destruct neg; eauto.
  - intros w x. cbn [lex_e]. eauto.
  - intros w op a _ _ _. cbn [lex_e]. eauto.
  - intros w k a b _ _ IHa _. rewrite lex_e_node. unfold opnd_lex.
    destruct (atomic a); [destruct IHa as (l & r & ->)|]; cbn [app]; eauto.
Qed.

Lemma opnd_head : forall e sp, ofrag e = true -> exists l r, opnd_lex sp e = (sp, l) :: r.
Proof. intros e sp Hf. unfold opnd_lex. destruct (atomic e); [apply lex_e_head; auto|eauto]. Qed.

Definition lex_stmt (e : expr) : Prop :=
  forall sp c rest, prefix_cat c -> follow_ok rest ->
    exists c', operand_cat c' /\ PM.lex_from c (lex_e sp e ++ rest) = lapp (tok_e sp e) (PM.lex_from c' rest).

Lemma lex_paren : forall e sp c rest, lex_stmt e -> prefix_cat c -> follow_ok rest ->
  exists c', operand_cat c' /\
    PM.lex_from c (((sp, PM.LLP) :: lex_e false e ++ [(false, PM.LRP)]) ++ rest)
    = lapp (PM.TLP (negb sp) :: tok_e false e ++ [PM.TRP]) (PM.lex_from c' rest).
Proof.
  intros e sp c rest IH Hc Hr.
  exists (PM.category kind_RParen). split; [apply operand_rparen|].
  simpl app. rewrite <- app_assoc. simpl app.
  cbn [PM.lex_from]. rewrite next_glued_lp.
  destruct (IH false (PM.category kind_LParen) ((false, PM.LRP) :: rest) prefix_lparen I) as (c' & Hc' & ->).
  cbn [PM.lex_from]. rewrite next_glued_rp.
  rewrite !lex_cons_lapp, !lapp_lapp. reflexivity.
Qed.

Lemma lex_opnd : forall e sp c rest, lex_stmt e -> prefix_cat c -> follow_ok rest ->
  exists c', operand_cat c' /\ PM.lex_from c (opnd_lex sp e ++ rest) = lapp (opnd_tok sp e) (PM.lex_from c' rest).
Proof.
  intros e sp c rest IH Hc Hr. unfold opnd_lex, opnd_tok. destruct (atomic e); [apply IH; auto|apply lex_paren; auto].
Qed.

(* [Hop]: the lexer step at the operator; [lex_infix] supplies it for the operators of [bop_sym] / [bop_bin] *)
Lemma lex_binary : forall (e1 e2 : expr) (sym : PM.opsym) (o : PM.binop) sp c rest,
  ofrag e2 = true ->
  lex_stmt e1 -> lex_stmt e2 -> prefix_cat c -> follow_ok rest ->
  (forall c1 r, operand_cat c1 ->
     PM.lex_from c1 ((true, PM.LOp sym) :: (opnd_lex true e2 ++ r))
     = PM.lex_cons (PM.TBin o) (PM.lex_from (PM.category (PM.binop_kind o)) (opnd_lex true e2 ++ r))) ->
  exists c', operand_cat c' /\
    PM.lex_from c ((opnd_lex sp e1 ++ (true, PM.LOp sym) :: opnd_lex true e2) ++ rest)
    = lapp (opnd_tok sp e1 ++ PM.TBin o :: opnd_tok true e2) (PM.lex_from c' rest).
Proof.
  intros e1 e2 sym o sp c rest _ IH1 IH2 Hc Hr Hop. rewrite <- app_assoc, <- app_comm_cons.
  destruct (lex_opnd e1 sp c ((true, PM.LOp sym) :: opnd_lex true e2 ++ rest) IH1 Hc I) as (c1 & Hc1 & ->).
  rewrite (Hop c1 rest Hc1).
  destruct (lex_opnd e2 true _ rest IH2 (prefix_binop o) Hr) as (c2 & Hc2 & ->).
  exists c2. split; [assumption|]. rewrite lex_cons_lapp, !lapp_lapp, <- app_assoc. reflexivity.
Qed.

Lemma lex_e_ok : forall e, ofrag e = true -> lex_stmt e.
Proof.
  apply ofrag_ind.
  - intros w l neg r ds Hn _ sp c rest Hc Hr. exists (PM.num_cat neg r ds). split; [apply operand_lit|].
    cbn [lex_e tok_e]. rewrite Hn. rewrite <- (lex_num c sp neg r ds rest Hc Hr). destruct neg; reflexivity.
  - intros w x sp c rest Hc Hr. exists (PM.category kind_Symbol). split; [apply operand_sym|].
    cbn [lex_e tok_e app PM.lex_from].
    rewrite (next_glued_follow (PM.LIdent x) rest Hr) by (intros l' ->; reflexivity).
    apply lex_cons_lapp.
  - intros w op a Ho _ IHa sp c rest Hc Hr.
    destruct (lex_paren a false _ rest IHa (prefix_preop (un_pre op)) Hr) as (c' & Hc' & Hl).
    exists c'. split; [assumption|].
    cbn [lex_e tok_e]. rewrite <- !app_comm_cons. rewrite (lex_prefix c sp op _ Hc Ho).
    rewrite app_comm_cons, Hl, lapp_lapp. reflexivity.
  - intros w k a b _ Hb IHa IHb sp c rest Hc Hr. rewrite lex_e_node, tok_e_node. apply lex_binary; auto.
    intros c1 r Hc1. rewrite lex_cons_lapp. apply lex_infix; [exact Hc1|].
    destruct (opnd_head b true Hb) as (l & r' & ->). reflexivity.
Qed.

Local Open Scope nat_scope.

Definition stop (rest : list PM.tok) : Prop :=
  match rest with [] => True | PM.TRP :: _ => True | _ => False end.
Definition nodot (rest : list PM.tok) : Prop :=
  match rest with PM.TDot _ :: _ => False | _ => True end.

Lemma stop_nodot : forall r, stop r -> nodot r.
Proof. intros [|[] r]; simpl; auto. Qed.

Lemma c_loop_stop : forall f m l ts, stop ts -> PS.c_loop (S f) m l ts = Some (l, ts).
Proof. intros f m l [|[] r] H; simpl in *; try contradiction; reflexivity. Qed.

Lemma c_expr_S : forall f m ts,
  PS.c_expr (S f) m ts = match PS.c_operand f ts with Some (l, r) => PS.c_loop f m l r | None => None end.
Proof. reflexivity. Qed.
Lemma c_loop_bin : forall f m l o r,
  PS.c_loop (S f) m l (PM.TBin o :: r)
  = if (m <=? PS.lvl o) then
      match PS.c_expr f (S (PS.lvl o)) r with Some (rhs, r') => PS.c_loop f m (PM.EBin o l rhs) r' | None => None end
    else Some (l, PM.TBin o :: r).
Proof. reflexivity. Qed.
Lemma c_operand_pre : forall f p r,
  PS.c_operand (S f) (PM.TPre p :: r)
  = match PS.c_expr f (S PS.pre_lvl) r with Some (e, r') => Some (PM.EUn p e, r') | None => None end.
Proof. reflexivity. Qed.
Lemma c_operand_lp : forall f a r,
  PS.c_operand (S f) (PM.TLP a :: r)
  = match PS.c_expr f 0 r with Some (e, PM.TRP :: r') => PS.c_postfix f e r' | _ => None end.
Proof. reflexivity. Qed.

(** the fuel [PS.climb_fuel] grants, two per token, is enough at every node *)
Definition climb_stmt (e : expr) : Prop :=
  forall sp f rest, 2 * List.length (tok_e sp e) + 1 <= f -> stop rest ->
    PS.c_expr f 0 (tok_e sp e ++ rest) = Some (ast e, rest).

Definition leaf (e : expr) : Prop :=
  forall sp, exists t, tok_e sp e = [t] /\
    forall f rest, nodot rest -> PS.c_operand (S (S f)) (t :: rest) = Some (ast e, rest).

Lemma leaf_lit : forall w l neg r ds, num_of l = Some (neg, r, ds) -> leaf (ELit w l).
Proof.
  intros w l neg r ds Hn sp. cbn [tok_e ast]. rewrite Hn. eexists. split; [reflexivity|].
  intros f rest Hr. unfold PM.num_tok. cbn [PS.c_operand]. apply PP.c_postfix_nodot; [lia|exact Hr].
Qed.
Lemma leaf_var : forall w x, leaf (EVar w x).
Proof.
  intros w x sp. eexists. split; [reflexivity|].
  intros f rest Hr. cbn [PS.c_operand]. apply PP.c_postfix_nodot; [lia|exact Hr].
Qed.

Lemma atomic_ofrag : forall e, ofrag e = true -> atomic e = true ->
  forall sp, exists t, tok_e sp e = [t] /\
    forall f rest, nodot rest -> PS.c_operand (S (S f)) (t :: rest) = Some (ast e, rest).
Proof.
  apply (ofrag_ind (fun e => atomic e = true -> leaf e)).
  - intros w l neg r ds Hn _ _. exact (leaf_lit w l neg r ds Hn).
  - intros w x _. apply leaf_var.
  - intros w op a Ho _ _ Ha. destruct op; try discriminate. contradiction.
  - intros w k a b _ _ _ _ Ha. destruct k; discriminate.
Qed.

Lemma climb_leaf : forall e, leaf e -> climb_stmt e.
Proof.
  intros e H sp f rest Hf Hr. destruct (H sp) as (t & Et & Ht). rewrite Et in *. simpl in Hf.
  destruct f as [|[|[|f]]]; try lia.
  cbn [app]. rewrite c_expr_S, Ht by exact (stop_nodot rest Hr). apply c_loop_stop. exact Hr.
Qed.

Lemma tok_len_pos : forall e sp, ofrag e = true -> 1 <= List.length (tok_e sp e).
Proof.
  intros e sp. revert e. apply ofrag_ind.
  - intros w l neg r ds Hn _. cbn [tok_e]. rewrite Hn. auto.
  - auto.
  - intros. simpl. lia.
  - intros. rewrite tok_e_node, app_length. simpl. lia.
Qed.

Lemma climb_paren : forall e adj f rest, climb_stmt e -> 2 * List.length (tok_e false e) + 2 <= f -> nodot rest ->
  PS.c_operand f (PM.TLP adj :: tok_e false e ++ PM.TRP :: rest) = Some (ast e, rest).
Proof.
  intros e adj f rest IH Hn Hr. destruct f as [|[|f]]; try lia.
  rewrite c_operand_lp, (IH false (S f) (PM.TRP :: rest)); [|lia|exact I].
  apply PP.c_postfix_nodot; [lia|exact Hr].
Qed.

Lemma climb_opnd : forall e sp f rest, ofrag e = true -> climb_stmt e ->
  2 * List.length (opnd_tok sp e) <= f -> nodot rest ->
  PS.c_operand f (opnd_tok sp e ++ rest) = Some (ast e, rest).
Proof.
  intros e sp f rest Hf IH Hn Hr. unfold opnd_tok in *. destruct (atomic e) eqn:Ha.
  - destruct (atomic_ofrag e Hf Ha sp) as (t & Et & Ht). rewrite Et in *. simpl in Hn.
    destruct f as [|[|f]]; try lia. apply Ht. exact Hr.
  - simpl in Hn. rewrite app_length in Hn. simpl in Hn.
    rewrite <- app_comm_cons, <- app_assoc. apply climb_paren; [exact IH|lia|exact Hr].
Qed.

Lemma climb_binary : forall e1 e2 o sp f rest,
  ofrag e1 = true -> ofrag e2 = true -> climb_stmt e1 -> climb_stmt e2 ->
  2 * List.length (opnd_tok sp e1 ++ PM.TBin o :: opnd_tok true e2) + 1 <= f -> stop rest ->
  PS.c_expr f 0 ((opnd_tok sp e1 ++ PM.TBin o :: opnd_tok true e2) ++ rest) = Some (PM.EBin o (ast e1) (ast e2), rest).
Proof.
  intros e1 e2 o sp f rest H1 H2 IH1 IH2 Hn Hr.
  rewrite app_length in Hn. simpl in Hn.
  assert (1 <= List.length (opnd_tok true e2)) as Hp.
  { unfold opnd_tok. destruct (atomic e2); [apply tok_len_pos; exact H2|simpl; lia]. }
  destruct f as [|[|[|[|f]]]]; try lia.
  rewrite <- app_assoc. simpl app. rewrite c_expr_S.
  rewrite (climb_opnd e1 sp _ (PM.TBin o :: opnd_tok true e2 ++ rest) H1 IH1); [|lia|exact I].
  rewrite c_loop_bin. simpl Nat.leb. cbv iota. rewrite c_expr_S.
  rewrite (climb_opnd e2 true _ rest H2 IH2); [|lia|apply stop_nodot; exact Hr].
  rewrite c_loop_stop by exact Hr. rewrite c_loop_stop by exact Hr. reflexivity.
Qed.

Lemma climb_e_ok : forall e, ofrag e = true -> climb_stmt e.
Proof.
  apply ofrag_ind.
  - intros w l neg r ds Hn _. exact (climb_leaf _ (leaf_lit w l neg r ds Hn)).
  - intros w x. exact (climb_leaf _ (leaf_var w x)).
  - intros w op a _ _ IHa sp f rest Hf Hr. cbn [tok_e ast] in *. simpl in Hf. rewrite app_length in Hf. simpl in Hf.
    destruct f as [|[|[|[|f]]]]; try lia.
    rewrite <- !app_comm_cons, <- app_assoc. simpl app.
    rewrite c_expr_S, c_operand_pre, c_expr_S.
    rewrite (climb_paren a true (S f) rest IHa); [|lia|exact (stop_nodot rest Hr)].
    rewrite c_loop_stop by exact Hr. rewrite c_loop_stop by exact Hr. reflexivity.
  - intros w k a b Ha Hb IHa IHb sp f rest. rewrite tok_e_node, ast_node. apply climb_binary; assumption.
Qed.

Lemma climb_print : forall e sp, ofrag e = true -> PS.climb (tok_e sp e) = Some (ast e).
Proof.
  intros e sp Hf. unfold PS.climb, PS.climb_fuel.
  pose proof (climb_e_ok e Hf sp (2 * List.length (tok_e sp e) + 2) []) as H.
  rewrite app_nil_r in H. rewrite H; [reflexivity|lia|exact I].
Qed.

Lemma parse_print : forall e sp, ofrag e = true -> PM.parse (tok_e sp e) = PM.Ok (ast e).
Proof. intros e sp Hf. apply PP.parse_rhs_climb. apply climb_print. exact Hf. Qed.

Lemma lex_print : forall e c, ofrag e = true -> prefix_cat c -> PM.lex c (lex_e false e) = PM.LexOk (tok_e false e).
Proof.
  intros e c Hf Hc. unfold PM.lex.
  destruct (lex_e_ok e Hf false c [] Hc I) as (c' & _ & H).
  rewrite app_nil_r in H. rewrite H. simpl. rewrite app_nil_r. reflexivity.
Qed.

Lemma parse_chunk_print : forall e sp, ofrag e = true -> PM.parse_chunk false (tok_e sp e) = PM.Ok (ast e).
Proof. intros e sp Hf. apply PP.parse_chunk_climb. apply climb_print. exact Hf. Qed.

(** right-hand side of a definition `v = <e>` (start category DefOp) and a bare expression (start of input) *)
Lemma print_expr_roundtrip_proof : forall e, ofrag e = true ->
  p_expr vname e = spell (lex_e false e)
  /\ PM.lex cat_DefOp (lex_e false e) = PM.LexOk (tok_e false e)
  /\ PM.lex cat_BOF (lex_e false e) = PM.LexOk (tok_e false e)
  /\ PM.parse (tok_e false e) = PM.Ok (ast e)
  /\ PM.parse_chunk false (tok_e false e) = PM.Ok (ast e).
Proof.
  intros e Hf. repeat split.
  - rewrite (print_is_spell_gen e Hf false). reflexivity.
  - apply lex_print; [exact Hf|exact prefix_defop].
  - apply lex_print; [exact Hf|exact prefix_bof].
  - apply parse_print. exact Hf.
  - apply parse_chunk_print. exact Hf.
Qed.

Lemma ofrag_starts : forall e, ofrag e = true -> atomic e = true -> starts_paren e = false.
Proof. intros e Hf Ha. destruct e; simpl in *; try discriminate; try reflexivity. Qed.

Definition need_op (need : expr -> nat) (e : expr) : nat := if atomic e then 2 else need e + 1.
