(** C07 — The checker and code generator never crash on a well-formed program.

    What a proof can carry for this property, and what it cannot:
      * PROVED (about definitions that the check executes on every input): the generated inputs are what the property
        quantifies over.  [wf_prog] is the fragment grammar; the printer [print_erg] is extracted and used to print
        every program that is sent to erg.  For the operator sub-fragment the printed text is shown to lex and parse
        to the intended tree against the C11 models of the lexer's operator handling and of the parser's operator
        stack ([print_expr_roundtrip]).  For the rest of the grammar syntactic validity is established per program by
        `erg --mode parse` (a tree program that the real parser rejects is reported as a broken tie).
      * PROVED (about a hand model of codegen.rs, NOT about erg): the stack accounting of the code generator reaches
        none of its abort sites on an HIR that satisfies the invariant [hcheck], the lowering of every fragment program
        satisfies it, so [compile] is total ([emit_total], [compile_total]).  The two places where reading the model
        against the code showed that erg's checker lets a program through that violates the invariant were real
        crashes, found this way and repaired ([legacy_while_cond_refuted], [legacy_lambda_kwdefaults_refuted]).
      * NOT PROVED, and not provable by this route: that erg's checker (lower.rs, context/*.rs - tens of thousands of
        lines) never panics and never reports an internal error.  That is decided by running erg on the generated
        programs; the judge [Spec.judge] is the property, [Spec.known_c07] names the known failing classes by
        internal-error site. *)
From Coq Require Import ZArith List Bool String.
From ErgV Require Import Common.Sx CoreErg.Syntax gen.Prec gen.BugSites.
From ErgV Require ExprParse.Model.
From ErgV Require Import NoCrash.Gen NoCrash.GenOps NoCrash.GenProofs NoCrash.Check NoCrash.CheckProofs NoCrash.RefCheck NoCrash.Spec.
Import ListNotations.

Definition cps := zs.

(** Input validity, operator sub-fragment: the text the printer produces for an expression of [ofrag] is the
    spelling of the lexeme list [lex_e]; the C11 lexer model turns those lexemes into the tokens [tok_e], both after
    `v =` (category DefOp) and at the start of a chunk; the C11 parser model (right-hand side of a definition, and
    bare expression statement) turns the tokens into the tree [ast e], which is [e] constructor by constructor.
    No bound on size or nesting depth. *)
Theorem print_expr_roundtrip : forall e, ofrag e = true ->
  p_expr vname e = spell (lex_e false e)
  /\ PM.lex cat_DefOp (lex_e false e) = PM.LexOk (tok_e false e)
  /\ PM.lex cat_BOF (lex_e false e) = PM.LexOk (tok_e false e)
  /\ PM.parse (tok_e false e) = PM.Ok (ast e)
  /\ PM.parse_chunk false (tok_e false e) = PM.Ok (ast e).
Proof. exact print_expr_roundtrip_proof. Qed.

(** non-vacuity: (v1 + (-5)) * -(v2) <= 2.5 and v3   is in the sub-fragment and prints as expected *)
Example print_expr_example :
  let e := ELogic WNone false
             (ECmp WNone CLe
                (EBin WNone OMul (EBin WNone OAdd (EVar WNone 1) (ELit WNone (LNeg (-5))))
                                 (EUn WNone UNeg (EVar WNone 2)))
                (ELit WNone (LFloat 4612811918334230528)))
             (EVar WNone 3) in
  ofrag e = true /\ p_expr vname e = zs "(((v1 + (-5)) * (-(v2))) <= 2.5) and v3"%string.
Proof. vm_compute. split; reflexivity. Qed.

(** The reference checker is total: every program of the fragment gets a verdict (there is no internal-error state). *)
Theorem check_total : forall cp, check cp = VOk \/ exists c, check cp = VErr c.
Proof. intros cp. destruct (check cp); eauto. Qed.

(** The modelled code generator reaches none of its abort sites (stack underflow, the debug assertions on the stack
    depth, Args::remove / unwrap on a missing argument, todo!/unreachable! arms, "invalid stack size") on an HIR that
    satisfies the invariant the front end owes it. *)
Theorem emit_total : forall p, hcheck p = true -> exists s, emit_module false p = COk s.
Proof. exact emit_module_total_proof. Qed.

(** Full statement asked for: a grammatical program that the reference checker accepts is compiled by the model
    without reaching an abort site.  (The two hypotheses are not even needed: the lowering of EVERY fragment tree,
    well-typed or not, satisfies the invariant - [compile_total_all].  They are needed for the real compiler, where
    rejected programs never reach the code generator.) *)
Theorem compile_total : forall cp, wf_prog cp -> check cp = VOk -> forall site, compile cp <> Crash site.
Proof. intros cp _ _ site H. destruct (compile_total_proof cp) as (s & E). congruence. Qed.

Theorem compile_total_all : forall cp, exists s, compile cp = COk s.
Proof. exact compile_total_proof. Qed.

(** non-vacuity: a program with every statement kind is grammatical, accepted by the reference checker, and compiled
    with the stack sizes (module 9, nested function 3) shown *)
Definition example_prog : cprog :=
  let lit := fun n => ELit WNat (LNat n) in
  mkCprog
    [SDef 1 None (EBin WNat OAdd (lit 1) (lit 2)); SPrint [EVar WNat 1];
     SMutDef 8 (lit 0);
     SWhile (ECmp WNone CLt (EVar WNone 8) (lit 3)) [SPrint [lit 1]; SInc 8];
     SFor 2 (EList WList [lit 1; lit 2]) [SPrint [EVar WNat 2]; SIf (ELit WBool (LBool true)) [SPrint []] true [SPrint []]];
     SFun 3 false [(4, TyNat, Some (lit 1))] TyNat
          [SDef 5 None (lit 1); SExpr (EIf WNat (ELit WBool (LBool true)) (lit 1) (EVar WNat 4))];
     SPat false [6; 7] (ETuple WNone [lit 1; lit 2]);
     SAssert (EUn WBool UNot (ELit WBool (LBool false)));
     SPrint [ECall WNat 3 [] [(4, lit 5)]]] [].
Example compile_example :
  wf_progb example_prog = true /\ check example_prog = VOk /\ hcheck (lower example_prog) = true
  /\ compile example_prog = COk (mkSt 1 9 0 [3%nat]).
Proof. vm_compute. repeat split. Qed.

(** The abort sites ARE reachable without the invariant (the hypothesis of [emit_total] is not vacuous): `if` with one
    argument runs into Args::remove (site 7), a definition in expression position into emit_expr's assertion (site 2),
    a for! block without parameter into emit_for_instr's assertion (site 8). *)
Theorem sites_reachable_without_check :
  emit_module false [HCallLocal false LIf [(None, HLit false)]] = Crash 7
  /\ emit_module false [HDefVar [HDefVar [HLit false]]] = Crash 2
  /\ emit_module false [HCallLocal false LFor [(None, HLit false); (None, HLambda false 0 false [] [HLit false])]] = Crash 8.
Proof. vm_compute. repeat split. Qed.

(** Findings made with this model (both repaired in /repo, known/C07.json; [emit true] = the code before the repairs).
    `while! g!(), do!: ...` (condition neither a block nor an identifier) is accepted by erg's checker and hit
    emit_while_instr's `_ => todo!()`. *)
Theorem legacy_while_cond_refuted :
  exists e, legacy_while_cond e = true /\ emit_module true [e] = Crash 9 /\ exists s, emit_module false [e] = COk s.
Proof.
  exists (HCallLocal false LWhile [(None, HCallLocal false LOther []); (None, HLambda false 0 false [] [HLit false])]).
  vm_compute. repeat split. eexists; reflexivity.
Qed.

(** A lambda with variable arguments and a default (parameters `*a, b := 1`, body `b`) is accepted by erg's checker; emit_lambda popped the
    defaults only when the Defaults bit was set, not for KwDefaults: its assertion on the stack depth failed. *)
Theorem legacy_lambda_kwdefaults_refuted :
  exists e, legacy_lambda_kwdefaults e = true /\ emit_module true [HDefVar [e]] = Crash 4
            /\ exists s, emit_module false [HDefVar [e]] = COk s.
Proof.
  exists (HLambda false 1 true [HLit false] [HLit false]).
  vm_compute. repeat split. eexists; reflexivity.
Qed.

(** The judge is the property, the classification is by site: a run in which every command ended with success or
    ordinary diagnostics satisfies the property and has verdict 0; a panic at an unlisted site and a hang are
    violations (-1).  (That each listed class still contains its witness is re-established by the check on every run.) *)
Theorem judge_spec :
  (forall os, judge os = true <-> forall o, In o os -> crashed o = false)
  /\ (forall os, judge os = true -> verdict os = 0%Z).
Proof.
  split.
  - intros os. unfold judge. rewrite forallb_forall. split; intros H o Ho; specialize (H o Ho).
    + apply negb_true_iff in H. exact H.
    + rewrite H. reflexivity.
  - intros os. apply verdict_zero_iff.
Qed.

Example verdict_examples :
  verdict [mkObs 0 [] []; mkObs 1 [] []] = 0%Z
  /\ verdict [mkObs 2 (cps "crates/erg_compiler/no_such_file.rs:no_such_fn"%string) (cps "called `Option::unwrap()` on a `None` value"%string)] = (-1)%Z
  /\ verdict [mkObs 1 [] []; mkObs 5 (cps "timeout"%string) []] = (-1)%Z.
Proof. vm_compute. repeat split. Qed.

(** the generated site table is not empty and its counters are consistent *)
Theorem bug_sites_table :
  Z.of_nat (List.length bug_sites) = n_bug_sites
  /\ Z.of_nat (List.length (filter (fun s => snd s) bug_sites)) = n_anchored_sites /\ (0 < n_anchored_sites)%Z.
Proof. vm_compute. repeat split. Qed.
