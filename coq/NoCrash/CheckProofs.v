(** No abort site of the stack-accounting model is reachable on an HIR that satisfies [hck], and the lowering of
    every fragment program satisfies [hck]: [compile] never crashes.  First the stack effect of each combinator of
    Check.v given the effects of its parts; then, by induction on the HIR, every form is [frame] around such a
    combinator ([value_eff], [emit_strong]).  Last, Spec.v's verdict is 0 exactly when its judge accepts. *)
From Coq Require Import ZArith List Bool Arith Lia.
From ErgV Require Import Common.Sx CoreErg.Syntax NoCrash.Gen NoCrash.Check NoCrash.Spec.
From ErgV Require Common.Lists.
Import ListNotations.
Local Open Scope nat_scope.

Definition kids (e : hexpr) : list hexpr :=
  match e with
  | HLit _ | HName _ | HDummy => []
  | HUnary _ _ a | HTypeAsc _ a => [a]
  | HBin _ _ l r => [l; r]
  | HCallLocal _ _ args => map snd args
  | HCallMethod _ o args | HCallExpr _ o args => o :: map snd args
  | HList _ es | HTuple _ es | HDefVar es => es
  | HLambda _ _ _ ds body | HDefSubr _ ds body => ds ++ body
  end.

Fixpoint hexpr_ind' (P : hexpr -> Prop) (H : forall e, Forall P (kids e) -> P e) (e : hexpr) : P e :=
  let go := Common.Lists.Forall_all (hexpr_ind' P H) in
  let fix goa (l : list (option Z * hexpr)) : Forall P (map snd l) :=
    match l with [] => Forall_nil _ | x :: r => Forall_cons _ (hexpr_ind' P H (snd x)) (goa r) end in
  H e (match e return Forall P (kids e) with
       | HLit _ | HName _ | HDummy => Forall_nil _
       | HUnary _ _ a | HTypeAsc _ a => Forall_cons _ (hexpr_ind' P H a) (Forall_nil _)
       | HBin _ _ l r => Forall_cons _ (hexpr_ind' P H l) (Forall_cons _ (hexpr_ind' P H r) (Forall_nil _))
       | HCallLocal _ _ args => goa args
       | HCallMethod _ o args | HCallExpr _ o args => Forall_cons _ (hexpr_ind' P H o) (goa args)
       | HList _ es | HTuple _ es | HDefVar es => go es
       | HLambda _ _ _ ds body | HDefSubr _ ds body => proj2 (Forall_app P ds body) (conj (go ds) (go body))
       end).

Definition P1 (f : st -> cres st) : Prop := forall s, exists s', f s = COk s' /\ len s' = S (len s).
Definition P01 (f : st -> cres st) : Prop :=
  forall s, exists s', f s = COk s' /\ (len s' = len s \/ len s' = S (len s)).
Definition Pn (n : nat) (f : st -> cres st) : Prop := forall s, exists s', f s = COk s' /\ len s' = n + len s.
Definition Peq (f : st -> cres st) : Prop := forall s, exists s', f s = COk s' /\ len s' = len s.

Lemma P1_P01 : forall f, P1 f -> P01 f.
Proof. intros f H s. destruct (H s) as (s' & E & L). eauto. Qed.
Lemma Peq_P01 : forall f, Peq f -> P01 f.
Proof. intros f H s. destruct (H s) as (s' & E & L). eauto. Qed.

Lemma len_instr : forall s, len (instr s) = len s. Proof. reflexivity. Qed.
Lemma len_inc : forall s, len (inc s) = S (len s). Proof. reflexivity. Qed.
Lemma len_push : forall s, len (push s) = S (len s). Proof. reflexivity. Qed.

Lemma dec_ok : forall s n, len s = S n -> exists s', dec s = COk s' /\ len s' = n.
Proof. intros s n H. unfold dec. rewrite H. eexists; split; reflexivity. Qed.
Lemma dec_n_ok : forall s n m, len s = n + m -> exists s', dec_n n s = COk s' /\ len s' = m.
Proof.
  intros s n m H. unfold dec_n. destruct (len s <? n) eqn:E; [apply Nat.ltb_lt in E; lia|].
  eexists; split; [reflexivity|]. simpl. lia.
Qed.
Lemma pop_top_ok : forall s n, len s = S n -> exists s', pop_top s = COk s' /\ len s' = n /\ pops s' = S (pops s).
Proof.
  intros s n H. unfold pop_top. destruct (dec_ok s n H) as (s' & E & L). rewrite E. simpl.
  eexists; split; [reflexivity|]. simpl. auto.
Qed.
Lemma cancel_len : forall s, len (cancel s) = len s \/ len (cancel s) = S (len s).
Proof. intros s. unfold cancel. destruct (pops s); simpl; auto. Qed.
Lemma check_len_ok : forall site i s, len s = S i -> check_len site i s = COk s.
Proof. intros site i s H. unfold check_len. rewrite H, Nat.eqb_refl. reflexivity. Qed.

(** Every effect statement below says that a result is [COk] of a state whose depth is a known term.  Written as a
    literal record of that depth, the straight-line part of each combinator of Check.v ([push], [instr], [dec],
    [check_len]) reduces by [cbn]; only [dec_n] on a variable count and the two outcomes behind [P01] go through
    their lemmas ([dec_n_ok], [finish_call_ok], [build_ok], [maybe_pop], [fixup_ok]). *)
Lemma at_depth : forall (r : cres st) n, (exists s', r = COk s' /\ len s' = n) ->
  exists m p c, r = COk (mkSt n m p c).
Proof. intros r n ([l m p c] & E & L). simpl in L. subst l. eauto. Qed.

Ltac sim := unfold check_len; cbn [cbind dec instr inc push set_len len maxl pops codes].
(** [exec H], [H : exists s', r = COk s' /\ len s' = n]: put the record for [r] and run on ([sim]); a state left
    open in [H] ([exec (Hl _)]) is the one at which the goal makes that call *)
Tactic Notation "exec" uconstr(H) :=
  let X := fresh in let m := fresh "m" in let p := fresh "p" in let c := fresh "c" in
  epose proof (at_depth _ _ H) as X; destruct X as (m & p & c & X); rewrite X; clear X; sim.

Lemma frame_P1 : forall w ex node, P1 node -> P1 (frame w ex node).
Proof.
  intros w ex node Hn s. unfold frame. destruct w; exec (Hn _); destruct ex; rewrite ?Nat.eqb_refl; eauto.
Qed.

Lemma frame_chunk : forall node s, frame false false node s = node s.
Proof. intros node s. unfold frame. destruct (node s); reflexivity. Qed.

Lemma frame_P01 : forall node, P01 node -> P01 (frame false false node).
Proof. intros node H s. rewrite frame_chunk. apply H. Qed.

Lemma n_load_P1 : P1 n_load.
Proof. intros s. unfold n_load. eexists; split; [reflexivity|apply len_push]. Qed.

Lemma n_unary_P1 : forall m ea, P1 ea -> P1 (n_unary m ea).
Proof. intros m ea H s. unfold n_unary. destruct m; exec (H _); rewrite Nat.eqb_refl; eauto. Qed.

Lemma n_bin_P1 : forall k el er, P1 el -> P1 er -> P1 (n_bin k el er).
Proof. intros k el er Hl Hr s. unfold n_bin. destruct k; exec (Hl _); exec (Hr _); rewrite ?Nat.eqb_refl; eauto. Qed.

Lemma n_assert_P1 : forall ec em, P1 ec -> (forall m, em = Some m -> P1 m) -> P1 (n_assert (Some ec) em).
Proof.
  intros ec em Hc Hm s. unfold n_assert. exec (Hc _).
  destruct em as [m'|]; [exec (Hm m' eq_refl _)|sim]; rewrite Nat.eqb_refl; eauto.
Qed.

Lemma n_not_P1 : forall ec, P1 ec -> P1 (n_not (Some ec)).
Proof. intros ec H s. unfold n_not. exec (H _). eauto. Qed.

Lemma discard_loop_Peq : forall f args, Forall (fun a : option Z * hexpr => P1 (f (snd a))) args -> Peq (discard_loop f args).
Proof.
  intros f args H. induction H as [|[k x] r Hx Hr IH]; intros s; simpl.
  - eauto.
  - simpl in Hx. destruct (Hx s) as (t & -> & L). destruct (pop_top_ok t (len s) L) as (t' & E' & L' & _). simpl. rewrite E'. cbn [cbind].
    destruct (IH t') as (u & Eu & Lu). rewrite Eu. eexists; split; [reflexivity|]. lia.
Qed.

Lemma n_discard_P1 : forall loop, Peq loop -> P1 (n_discard loop).
Proof. intros loop H s. unfold n_discard. exec (H _). eauto. Qed.

Lemma n_del_P1 : P1 (n_del true).
Proof. intros s. unfold n_del. eexists; split; [reflexivity|]. rewrite len_push, len_instr. reflexivity. Qed.

Lemma maybe_pop : forall init b, (len b = init \/ len b = S init) ->
  exists c, (if init <? len b then pop_top b else COk b) = COk c /\ len c = init.
Proof.
  intros init b [L|L].
  - replace (init <? len b) with false by (symmetry; apply Nat.ltb_ge; lia). eauto.
  - replace (init <? len b) with true by (symmetry; apply Nat.ltb_lt; lia).
    destruct (pop_top_ok b init L) as (c & Ec & Lc & _). eauto.
Qed.

Lemma chunk_loop_same : forall f l, Forall (fun x => P01 (f x)) l ->
  forall init s, len s = init -> exists s', chunk_loop f init l s = COk s' /\ len s' = init.
Proof.
  intros f l H. induction H as [|x r Hx Hr IH]; intros init s Hs; simpl.
  - eauto.
  - destruct (Hx s) as (t & E & L). rewrite E. cbn [cbind].
    destruct (maybe_pop init t) as (c & Ec & Lc); [lia|]. rewrite Ec. cbn [cbind]. apply IH. exact Lc.
Qed.

Lemma simple_block_P01 : forall f body, Forall (fun x => P01 (f x)) body ->
  P01 (simple_block (is_nil body) (fun init => chunk_loop f init body)).
Proof.
  intros f body H s. unfold simple_block. destruct body as [|x r]; simpl is_nil; cbv iota.
  - eauto.
  - destruct (chunk_loop_same f (x :: r) H (len s) s eq_refl) as (t & E & L). rewrite E. cbn [cbind].
    eexists; split; [reflexivity|]. destruct (cancel_len t); lia.
Qed.

Lemma store_params_ok : forall np s n, len s = np + n -> exists s', store_params np s = COk s' /\ len s' = n.
Proof.
  induction np as [|np IH]; intros s n H; simpl.
  - eauto.
  - destruct (dec_ok (instr s) (np + n) H) as (t & -> & L). apply IH, L.
Qed.

Lemma control_block_ok : forall np f body, Forall (fun x => P01 (f x)) body ->
  forall s n, len s = np + n ->
  exists s', control_block np (is_nil body) (fun init => chunk_loop f init body) s = COk s' /\ (len s' = n \/ len s' = S n).
Proof.
  intros np f body H s n Hs. unfold control_block. destruct (store_params_ok np s n Hs) as (t & -> & <-).
  exact (simple_block_P01 f body H t).
Qed.

Lemma control_block_1 : forall f body, Forall (fun x => P01 (f x)) body ->
  forall s n, len s = S n ->
  exists s', control_block 1 (is_nil body) (fun init => chunk_loop f init body) s = COk s' /\ (len s' = n \/ len s' = S n).
Proof. exact (control_block_ok 1). Qed.

Lemma control_block_0 : forall f body, Forall (fun x => P01 (f x)) body ->
  P01 (control_block 0 (is_nil body) (fun init => chunk_loop f init body)).
Proof. intros f body H s. exact (control_block_ok 0 f body H s (len s) eq_refl). Qed.

Lemma n_for_P1 : forall eit blk, P1 eit ->
  (forall s n, len s = S n -> exists s', blk s = COk s' /\ (len s' = n \/ len s' = S n)) -> P1 (n_for eit blk).
Proof.
  intros eit blk Hi Hb s. unfold n_for. exec (Hi _).
  destruct (Hb (inc (instr (instr (mkSt (S (len s)) m p c)))) (S (len s)) eq_refl) as (b & -> & Lb).
  sim. cbn [Nat.sub]. exec (maybe_pop _ b Lb). rewrite !Nat.eqb_refl. eauto.
Qed.

Lemma n_while_P1 : forall econd blk, P1 econd -> P01 blk -> P1 (n_while econd blk).
Proof.
  intros econd blk Hc Hb s. unfold n_while. exec (Hc _).
  edestruct Hb as (c0 & E & Lc). rewrite E.
  sim. cbn [len] in Lc. exec (maybe_pop _ c0 Lc). exec (Hc _). rewrite Nat.eqb_refl. eauto.
Qed.

Lemma fixup_ok : forall i s, S i <= len s -> exists s', fixup i s = COk s' /\ len s' = S i.
Proof.
  intros i s H. unfold fixup. replace (len s <? S i) with false by (symmetry; apply Nat.ltb_ge; lia).
  eexists; split; reflexivity.
Qed.

Lemma n_if_P1 : forall ec eth eel, P1 ec -> P01 eth -> (forall el, eel = Some el -> P01 el) -> P1 (n_if ec eth eel).
Proof.
  intros ec eth eel Hc Ht He s. unfold n_if. exec (Hc _).
  edestruct Ht as (b & E & Lb). rewrite E. sim. simpl in Lb.
  destruct eel as [el|].
  - destruct (He el eq_refl (instr b)) as (c0 & -> & Lc). simpl in Lc. apply fixup_ok. lia.
  - apply fixup_ok. simpl. lia.
Qed.

Lemma seq_emit_Pn : forall f es, Forall (fun x => P1 (f x)) es -> Pn (List.length es) (seq_emit f es).
Proof.
  intros f es H. induction H as [|x r Hx Hr IH]; intros s; simpl.
  - eauto.
  - destruct (Hx s) as (t & -> & L). cbn [cbind]. destruct (IH t) as (u & -> & Lu). eexists; split; [reflexivity|]. lia.
Qed.

Lemma seq_args_emit : forall f args s, seq_args f args s = seq_emit f (map snd args) s.
Proof.
  intros f args. induction args as [|[k x] r IH]; intros s; simpl; [reflexivity|].
  destruct (f x s); simpl; [apply IH|reflexivity].
Qed.
Lemma seq_args_Pn : forall f args, Forall (fun a : option Z * hexpr => P1 (f (snd a))) args ->
  Pn (List.length args) (seq_args f args).
Proof.
  intros f args H s. rewrite seq_args_emit, <- (map_length snd args). apply seq_emit_Pn, Forall_map. exact H.
Qed.

Lemma finish_call_ok : forall argc s n, len s = S (argc + n) -> exists s', finish_call argc s = COk s' /\ len s' = n.
Proof.
  intros argc s n H. unfold finish_call. destruct (dec_ok (instr s) (argc + n) H) as (t & -> & L).
  exact (dec_n_ok t argc n L).
Qed.

Lemma call_other_P1 : forall eargs argc, Pn argc eargs -> P1 (call_other eargs argc).
Proof. intros eargs argc H s. unfold call_other. exec (H _). apply finish_call_ok. simpl. lia. Qed.
Lemma n_method_P1 : forall eobj eargs argc, P1 eobj -> Pn argc eargs -> P1 (n_method eobj eargs argc).
Proof. intros eobj eargs argc Ho Ha s. unfold n_method. exec (Ho _). exec (Ha _). apply finish_call_ok. simpl. lia. Qed.
Lemma n_callexpr_P1 : forall ec eargs argc, P1 ec -> Pn argc eargs -> P1 (n_callexpr ec eargs argc).
Proof. intros ec eargs argc Ho Ha s. unfold n_callexpr. exec (Ho _). exec (Ha _). apply finish_call_ok. simpl. lia. Qed.

(** emit_call and the operator emitters close with debug_assert_eq!(stack_len, init + 1) *)
Lemma checked_P1 : forall site (f : st -> cres st), P1 f -> P1 (fun s1 => cbind (f s1) (check_len site (len s1))).
Proof. intros site f H s. exec (H _). rewrite Nat.eqb_refl. eauto. Qed.

Lemma checked3 : forall (f : st -> cres st), P1 f -> P1 (fun s1 => cbind (f s1) (check_len 3 (len s1))).
Proof. apply checked_P1. Qed.

(** BUILD_LIST / BUILD_TUPLE over n elements: stack_inc for none, stack_dec_n (n - 1) otherwise *)
Lemma build_ok : forall n a m, len a = n + m ->
  exists b, match n with O => COk (inc (instr a)) | S k => dec_n k (instr a) end = COk b /\ len b = S m.
Proof.
  intros [|k] a m H.
  - eexists; split; [reflexivity|]. rewrite len_inc, len_instr, H. reflexivity.
  - apply dec_n_ok. rewrite len_instr. lia.
Qed.

Lemma n_list_P1 : forall eelems n, Pn n eelems -> P1 (n_list eelems n).
Proof.
  intros eelems n H s. unfold n_list. exec (H _).
  exec (build_ok n (mkSt (n + S (S (len s))) m p c) _ eq_refl).
  rewrite Nat.eqb_refl. eauto.
Qed.
Lemma n_tuple_P1 : forall eelems n, Pn n eelems -> P1 (n_tuple eelems n).
Proof.
  intros eelems n H s. unfold n_tuple. exec (H _).
  exec (build_ok n (mkSt (n + len s) m p c) _ eq_refl).
  rewrite Nat.eqb_refl. eauto.
Qed.

Lemma params_ok : forall varp n edefs, Pn n edefs ->
  forall s, exists s', params varp n edefs s = COk s' /\ len s' = (if n =? 0 then 0 else 1) + len s.
Proof.
  intros varp n edefs H s. unfold params. destruct n as [|k]; [eauto|]. exec (H _).
  destruct varp; sim; apply dec_n_ok; simpl; lia.
Qed.

(** emit_block and emit close a unit alike: cancel a trailing POP_TOP or load None, so that one value is returned *)
Lemma close_unit : forall site u, len u = 0 ->
  exists v, (if len (cancel u) =? 0 then COk (push (cancel u)) else if 1 <? len (cancel u) then Crash site else COk (cancel u)) = COk v
            /\ len v = 1.
Proof.
  intros site u Lu. destruct (cancel_len u) as [Lc|Lc]; rewrite Lu in Lc; rewrite Lc; simpl.
  - eexists; split; [reflexivity|]. rewrite len_push, Lc. reflexivity.
  - eauto.
Qed.

Lemma code_block_Peq : forall f body, Forall (fun x => P01 (f x)) body -> Peq (code_block (fun init => chunk_loop f init body)).
Proof.
  intros f body H s. unfold code_block.
  destruct (chunk_loop_same f body H 0 (mkSt 0 0 0 (codes s)) eq_refl) as (u & Eu & Lu). rewrite Eu. cbn [cbind].
  destruct (close_unit 10 u Lu) as (v & Ev & _). rewrite Ev. eexists; split; reflexivity.
Qed.

Lemma make_function_ok : forall hd b, exists s', make_function hd false b = COk s' /\ len s' + (if hd then 1 else 0) = S (len b).
Proof. intros [] b; eexists; (split; [reflexivity|simpl; lia]). Qed.

(** emit_store_instr after the value of a definition *)
Lemma stored_Peq : forall ev, P1 ev -> Peq (fun s1 => cbind (ev s1) (fun a => dec (instr a))).
Proof. intros ev H s. exec (H _). eauto. Qed.

(** [emit_expr] pushes one value, [emit_chunk] none or one *)
Definition eff (ex : bool) : (st -> cres st) -> Prop := if ex then P1 else P01.
Definition good (e : hexpr) : Prop :=
  (hck e true = true -> P1 (emit false e true)) /\ (hck e false = true -> P01 (emit false e false)).

(** [good] with the flag a variable: the form in which the cases of the induction are proved *)
Definition has_eff (e : hexpr) : Prop := forall ex, hck e ex = true -> eff ex (emit false e ex).

Lemma good_eff : forall e, good e <-> has_eff e.
Proof. intros e. split; [intros [] []; assumption|intros H; exact (conj (H true) (H false))]. Qed.

Lemma good_all : forall A (g : A -> hexpr) ex l, Forall (fun a => good (g a)) l ->
  forallb (fun a => hck (g a) ex) l = true -> Forall (fun a => eff ex (emit false (g a) ex)) l.
Proof.
  intros A g ex l H. induction H as [|x r Hx Hr IH]; intros Hc; [constructor|].
  simpl in Hc. apply andb_true_iff in Hc. destruct Hc as [H1 H2]. constructor; [apply good_eff, H1; exact Hx|apply IH; exact H2].
Qed.

Lemma good_exprs : forall es, Forall good es -> forallb (fun y => hck y true) es = true ->
  Forall (fun x => P1 (emit false x true)) es.
Proof. exact (good_all _ (fun y => y) true). Qed.
Lemma good_chunks : forall es, Forall good es -> forallb (fun y => hck y false) es = true ->
  Forall (fun x => P01 (emit false x false)) es.
Proof. exact (good_all _ (fun y => y) false). Qed.
Lemma good_args : forall (args : list (option Z * hexpr)), Forall (fun a => good (snd a)) args ->
  forallb (fun a : option Z * hexpr => hck (snd a) true) args = true ->
  Forall (fun a : option Z * hexpr => P1 (emit false (snd a) true)) args.
Proof. exact (good_all _ snd true). Qed.

Lemma value_frame : forall fl ex node, P1 node -> P1 (frame (ex && fl) ex node).
Proof. intros fl ex. apply frame_P1. Qed.

(** [emit false e ex] is [frame (ex && wrap_flag e) ex node], [node] the combinator of the form of [e]; [cbn [emit]]
    shows it (the unifier finds the unfolding too, but slowly) *)
Lemma value_eff : forall fl ex node, P1 node -> eff ex (frame (ex && fl) ex node).
Proof.
  intros fl ex node Hn. pose proof (value_frame fl ex node Hn) as H.
  destruct ex; [exact H|apply P1_P01, H].
Qed.

Lemma value_good : forall e fl node,
  (forall ex s, emit false e ex s = frame (ex && fl) ex node s) ->
  (forall ex, hck e ex = true -> P1 node) -> good e.
Proof.
  intros e fl node Heq Hn. apply good_eff. intros ex Hc. pose proof (value_eff fl ex node (Hn ex Hc)) as H.
  destruct ex; intros s; rewrite Heq; apply H.
Qed.

(** a definition or a dummy stands only as a chunk and leaves nothing *)
Lemma chunk_eff : forall node, Peq node -> eff false (frame false false node).
Proof. intros node Hn. apply frame_P01, Peq_P01, Hn. Qed.

(** an inlined block argument ([emit]'s and [hck]'s local [arm]) *)
Definition arm (x : hexpr) : st -> cres st :=
  match x with
  | HLambda _ _ _ _ body => simple_block (is_nil body) (fun init => chunk_loop (fun y => emit false y false) init body)
  | _ => emit false x true
  end.
Definition hck_arm (x : hexpr) : bool :=
  match x with HLambda _ _ _ _ body => forallb (fun y => hck y false) body | _ => hck x true end.

(** for!, while! and if inline the body of a lambda argument: the induction carries the chunks of a lambda's body too *)
Definition body_good (e : hexpr) : Prop :=
  match e with HLambda _ _ _ _ body => Forall good body | _ => True end.
Definition strong (e : hexpr) : Prop := good e /\ body_good e.

Lemma strong_good_list : forall es, Forall strong es -> Forall good es.
Proof. intros es H. eapply Forall_impl; [|exact H]. intros a Ha. apply Ha. Qed.
Lemma strong_good_args : forall (args : list (option Z * hexpr)),
  Forall (fun a => strong (snd a)) args -> Forall (fun a => good (snd a)) args.
Proof. intros args H. apply Forall_map, strong_good_list, Forall_map, H. Qed.

Lemma arm_P01 : forall x, strong x ->
  match x with HLambda _ _ _ _ body => forallb (fun y => hck y false) body | _ => hck x true end = true ->
  P01 (match x with
       | HLambda _ _ _ _ body => simple_block (is_nil body) (fun init => chunk_loop (fun y => emit false y false) init body)
       | _ => emit false x true
       end).
Proof.
  intros x [Hg Hb] Hc. destruct x; try (apply P1_P01, (proj1 Hg Hc)).
  apply simple_block_P01. exact (good_chunks body Hb Hc).
Qed.

Lemma good_other : forall w args, Forall (fun a => good (snd a)) args -> has_eff (HCallLocal w LOther args).
Proof.
  intros w args G ex Hc. cbn [emit]. apply value_eff, checked_P1, call_other_P1, seq_args_Pn. exact (good_args args G Hc).
Qed.

(** for! / while! whose arguments are not of the inlined shapes are ordinary calls (deopt_instr) *)
Lemma deopt_P1 : forall k1 a k2 b, good a -> good b -> hck a true && hck b true = true ->
  P1 (call_other (seq_args (fun x => emit false x true) [(k1, a); (k2, b)]) 2).
Proof.
  intros k1 a k2 b Ga Gb Hc. apply andb_true_iff in Hc. destruct Hc as [H1 H2].
  apply call_other_P1, (seq_args_Pn _ [(k1, a); (k2, b)]). repeat constructor; [apply (proj1 Ga H1)|apply (proj1 Gb H2)].
Qed.

Lemma good_assert : forall w args, Forall (fun a => good (snd a)) args -> has_eff (HCallLocal w LAssert args).
Proof.
  intros w args G ex Hc. destruct args as [|[k1 c] [|[k2 m] [|]]]; try discriminate Hc;
    apply Forall_cons_iff in G; destruct G as [Gc G].
  - cbn [emit]. apply value_eff, checked_P1, n_assert_P1; [apply (proj1 Gc Hc)|discriminate].
  - simpl in Hc. apply andb_true_iff in Hc. destruct Hc as [H1 H2]. apply Forall_cons_iff in G.
    cbn [emit]. apply value_eff, checked_P1, n_assert_P1; [apply (proj1 Gc H1)|intros ? [= <-]; apply (proj1 (proj1 G) H2)].
Qed.

Lemma good_not : forall w args, Forall (fun a => good (snd a)) args -> has_eff (HCallLocal w LNot args).
Proof.
  intros w args G ex Hc. destruct args as [|[[k|] c] [|]]; try discriminate Hc;
    apply Forall_cons_iff in G; destruct G as [G _]; simpl in Hc.
  - apply andb_true_iff in Hc. destruct Hc as [Hk Hc]. apply Z.eqb_eq in Hk. subst k.
    cbn [emit]. apply value_eff, checked_P1, n_not_P1, (proj1 G Hc).
  - cbn [emit]. apply value_eff, checked_P1, n_not_P1, (proj1 G Hc).
Qed.

Lemma good_discard : forall w args, Forall (fun a => good (snd a)) args -> has_eff (HCallLocal w LDiscard args).
Proof.
  intros w args G ex Hc. cbn [emit]. apply value_eff, checked_P1, n_discard_P1, discard_loop_Peq. exact (good_args args G Hc).
Qed.

Lemma good_del : forall w args, has_eff (HCallLocal w LDel args).
Proof.
  intros w args ex Hc. destruct args as [|[[k|] c] rest]; try discriminate Hc. simpl in Hc.
  destruct c; try discriminate Hc. destruct rest; [|discriminate Hc].
  cbn [emit]. apply value_eff, checked_P1, n_del_P1.
Qed.

Lemma good_for : forall w args, Forall (fun a => strong (snd a)) args -> has_eff (HCallLocal w LFor args).
Proof.
  intros w args S ex Hc. destruct args as [|[k1 it] [|[k2 b] rest]]; try discriminate Hc.
  apply Forall_cons_iff in S. destruct S as [[Git _] S]. apply Forall_cons_iff in S. destruct S as [[Gb Bb] _].
  simpl in Hc. destruct rest; [|destruct b; discriminate Hc].
  destruct b; try (cbn [emit]; apply value_eff, checked_P1; exact (deopt_P1 k1 it k2 _ Git Gb Hc)).
  rewrite !andb_true_iff in Hc. destruct Hc as [[H1 H2] H3]. apply Nat.eqb_eq in H2. subst nparams.
  cbn [emit]. apply value_eff, checked_P1, n_for_P1; [apply (proj1 Git H1)|].
  apply control_block_1. exact (good_chunks body Bb H3).
Qed.

Lemma good_while : forall w args, Forall (fun a => strong (snd a)) args -> has_eff (HCallLocal w LWhile args).
Proof.
  intros w args S ex Hc. destruct args as [|[k1 cb] [|[k2 b] rest]]; try discriminate Hc.
  apply Forall_cons_iff in S. destruct S as [[Gc Bc] S]. apply Forall_cons_iff in S. destruct S as [[Gb Bb] _].
  simpl in Hc. destruct rest; [|destruct b; discriminate Hc].
  destruct b; try (cbn [emit]; apply value_eff, checked_P1; exact (deopt_P1 k1 cb k2 _ Gc Gb Hc)).
  destruct cb as [| | | | | | | | |w1 np1 vp1 ds1 [|c r1]| | | |];
    try (cbn [emit]; apply value_eff, checked_P1; exact (deopt_P1 k1 _ k2 _ Gc Gb Hc)).
  - apply andb_true_iff in Hc. destruct Hc as [H2 H3]. apply Nat.eqb_eq in H2. subst nparams.
    cbn [emit]. apply value_eff, checked_P1, n_while_P1; [apply n_load_P1|].
    apply control_block_0. exact (good_chunks body Bb H3).
  - discriminate Hc.
  - (* the first chunk of a block condition is emitted as an expression *)
    rewrite !andb_true_iff in Hc. destruct Hc as [[H2 H3] H4]. apply Nat.eqb_eq in H2. subst nparams.
    apply Forall_cons_iff in Bc.
    cbn [emit]. apply value_eff, checked_P1, n_while_P1; [apply (proj1 (proj1 Bc) H4)|].
    apply control_block_0. exact (good_chunks body Bb H3).
Qed.

Lemma good_if : forall w args, Forall (fun a => strong (snd a)) args -> has_eff (HCallLocal w LIf args).
Proof.
  intros w args S ex Hc. destruct args as [|[k1 c] [|[k2 th] [|[k3 el] [|x rest]]]]; try discriminate Hc;
    apply Forall_cons_iff in S; destruct S as [[Gc _] S]; apply Forall_cons_iff in S; destruct S as [Sth S].
  - change (hck c true && hck_arm th = true) in Hc. apply andb_true_iff in Hc. destruct Hc as [H1 H2].
    cbn [emit]. apply value_eff, checked_P1, (n_if_P1 _ (arm th) None); [apply (proj1 Gc H1)|apply arm_P01; assumption|discriminate].
  - change (hck c true && hck_arm th && hck_arm el = true) in Hc. rewrite !andb_true_iff in Hc. destruct Hc as [[H1 H2] H3].
    apply Forall_cons_iff in S.
    cbn [emit]. apply value_eff, checked_P1, (n_if_P1 _ (arm th) (Some (arm el)));
      [apply (proj1 Gc H1)|apply arm_P01; assumption|intros ? [= <-]; apply arm_P01; [apply S|assumption]].
Qed.

(** parameters with defaults, the body as a new code object, MAKE_FUNCTION: one value, whatever comes next *)
Lemma function_steps : forall vp ds body (k : st -> cres st) (Q : st -> Prop) s,
  Forall good (ds ++ body) ->
  forallb (fun y => hck y true) ds && forallb (fun y => hck y false) body = true ->
  (forall c, len c = S (len s) -> exists s', k c = COk s' /\ Q s') ->
  exists s',
    cbind (params vp (List.length ds) (seq_emit (fun x => emit false x true) ds) s) (fun a =>
    cbind (code_block (fun init => chunk_loop (fun x => emit false x false) init body) a) (fun b =>
    cbind (make_function (negb (is_nil ds)) false b) k)) = COk s' /\ Q s'.
Proof.
  intros vp ds body k Q s G Hc Hk.
  apply Forall_app in G. destruct G as [Gds Gbody]. apply andb_true_iff in Hc. destruct Hc as [H1 H2].
  destruct (params_ok vp (List.length ds) _ (seq_emit_Pn (fun x => emit false x true) ds (good_exprs ds Gds H1)) s)
    as (a & Ea & La).
  rewrite Ea. cbn [cbind].
  destruct (code_block_Peq (fun x => emit false x false) body (good_chunks body Gbody H2) a) as (b & Eb & Lb). rewrite Eb. cbn [cbind].
  destruct (make_function_ok (negb (is_nil ds)) b) as (c & Ec & Lc). rewrite Ec. cbn [cbind].
  apply Hk. destruct ds; simpl in *; lia.
Qed.

Lemma callee_args : forall o args, Forall good (o :: map snd args) ->
  hck o true && forallb (fun a => hck (snd a) true) args = true ->
  P1 (emit false o true) /\ Pn (List.length args) (seq_args (fun x => emit false x true) args).
Proof.
  intros o args G Hc. apply andb_true_iff in Hc. destruct Hc as [H1 H2]. apply Forall_cons_iff in G. destruct G as [Go Ga].
  rewrite Forall_map in Ga. split; [apply (proj1 Go H1)|]. apply seq_args_Pn. exact (good_args args Ga H2).
Qed.

Lemma Forall_inv2 : forall A (P : A -> Prop) a l, Forall P (a :: l) -> P a /\ Forall P l.
Proof. intros A P a l. apply Forall_cons_iff. Qed.

Lemma emit_strong : forall e, strong e.
Proof.
  apply hexpr_ind'. intros e IH. pose proof (strong_good_list _ IH) as G.
  destruct e as [w|w|w m a|w k l r|w f args|w o args|w o args|w es|w es|w np vp ds body|body|vp ds body|w a|];
    cbn [kids] in IH, G; (split; [apply good_eff; intros ex Hc|try exact I]).
  1-2: cbn [emit]; apply value_eff, n_load_P1.
  - cbn [emit]. apply value_eff, n_unary_P1, (proj1 (Forall_inv G) Hc).
  - simpl in Hc. apply andb_true_iff in Hc. destruct Hc as [H1 H2].
    cbn [emit]. apply value_eff, n_bin_P1; [apply (proj1 (Forall_inv G) H1)|apply (proj1 (Forall_inv (Forall_inv_tail G)) H2)].
  - rewrite Forall_map in IH, G.
    destruct f; [apply good_assert|apply good_not|apply good_discard|apply good_del|apply good_for|apply good_while
                |apply good_if|apply good_other]; assumption.
  - destruct (callee_args o args G Hc) as [Po Pa]. cbn [emit]. apply value_eff, checked_P1, n_method_P1; assumption.
  - destruct (callee_args o args G Hc) as [Po Pa]. cbn [emit]. apply value_eff, checked_P1, n_callexpr_P1; assumption.
  - cbn [emit]. apply value_eff, n_list_P1, seq_emit_Pn. exact (good_exprs es G Hc).
  - cbn [emit]. apply value_eff, n_tuple_P1, seq_emit_Pn. exact (good_exprs es G Hc).
  - cbn [emit]. apply value_eff. intros s. eapply function_steps; [exact G|exact Hc|].
    intros c Lc. rewrite check_len_ok by exact Lc. eauto.
  - apply Forall_app in G. exact (proj2 G).
  - destruct ex; [discriminate Hc|]. destruct body as [|x [|y r]]; try discriminate Hc.
    cbn [emit]. apply chunk_eff, stored_Peq, (proj1 (Forall_inv G) Hc).
  - destruct ex; [discriminate Hc|].
    cbn [emit]. apply chunk_eff. intros s. eapply function_steps; [exact G|exact Hc|].
    intros c Lc. exact (dec_ok (instr c) (len s) Lc).
  - destruct ex; cbn [emit]; [exact (value_eff w true _ (proj1 (Forall_inv G) Hc))|]. apply chunk_eff. intros s. eauto.
  - destruct ex; [discriminate Hc|]. cbn [emit]. apply chunk_eff. intros s. eauto.
Qed.

Lemma all_good : forall es, Forall good es.
Proof. intros es. apply Forall_forall. intros e _. apply emit_strong. Qed.

Lemma module_loop_ok : forall l, Forall (fun x => P01 (emit false x false)) l ->
  forall s, len s = 0 -> exists s', module_loop false l s = COk s' /\ len s' = 0.
Proof.
  intros l H. induction H as [|x r Hx Hr IH]; intros s Hs; simpl.
  - eauto.
  - destruct (Hx s) as (t & E & L). rewrite E. cbn [cbind]. rewrite Hs in L.
    replace (len t =? 1) with (0 <? len t) by (destruct L as [L|L]; rewrite L; reflexivity).
    destruct (maybe_pop 0 t L) as (c & Ec & Lc). rewrite Ec. cbn [cbind]. apply IH. exact Lc.
Qed.

Lemma emit_module_ok : forall p, hcheck p = true -> exists s, emit_module false p = COk s /\ len s = 1.
Proof.
  intros p H. unfold emit_module.
  destruct (module_loop_ok p (good_chunks p (all_good p) H) (mkSt 0 0 0 []) eq_refl) as (u & Eu & Lu).
  rewrite Eu. cbn [cbind]. apply close_unit. exact Lu.
Qed.

Lemma emit_module_total_proof : forall p, hcheck p = true -> exists s, emit_module false p = COk s.
Proof. intros p H. destruct (emit_module_ok p H) as (s & E & _). eauto. Qed.

Lemma forallb_map : forall A B (f : A -> B) (p : B -> bool) l, forallb p (map f l) = forallb (fun x => p (f x)) l.
Proof. intros A B f p l. apply Common.Lists.forallb_map. Qed.
Lemma forallb_true_Forall : forall A (p : A -> bool) l, Forall (fun x => p x = true) l -> forallb p l = true.
Proof. intros A p l H. apply forallb_forall, Forall_forall, H. Qed.
Lemma forallb_flat_map : forall A B (f : A -> list B) (p : B -> bool) l,
  Forall (fun x => forallb p (f x) = true) l -> forallb p (flat_map f l) = true.
Proof. intros A B f p l H. rewrite Common.Lists.forallb_flat_map. apply forallb_true_Forall, H. Qed.

Lemma lower_e_hck : forall e ex, hck (lower_e e) ex = true.
Proof.
  induction e as [w l|w x|w op e IHe|w op e1 e2 IHe1 IHe2|w op e1 e2 IHe1 IHe2|w is_or e1 e2 IHe1 IHe2|w es IH|w a i IHa IHi
                  |w c a b IHc IHa IHb|w f args kw IHargs IHkw|w a IHa|w a IHa|w a b IHa IHb|w es IH] using expr_ind';
    intros ex; simpl; try reflexivity.
  - destruct op; simpl; rewrite ?IHe; reflexivity.
  - rewrite IHe1, IHe2. reflexivity.
  - rewrite IHe1, IHe2. reflexivity.
  - rewrite IHe1, IHe2. reflexivity.
  - rewrite forallb_map. apply forallb_true_Forall. eapply Forall_impl; [|exact IH]. intros a H. apply H.
  - rewrite IHa, IHi. reflexivity.
  - rewrite IHc, IHa, IHb. reflexivity.
  - rewrite forallb_app, !forallb_map. rewrite andb_true_iff. split; apply forallb_true_Forall.
    + eapply Forall_impl; [|exact IHargs]. intros a H. apply H.
    + eapply Forall_impl; [|exact IHkw]. intros a H. simpl. apply H.
  - rewrite IHa. reflexivity.
  - rewrite IHa. reflexivity.
  - rewrite IHa, IHb. reflexivity.
  - rewrite forallb_map. apply forallb_true_Forall. eapply Forall_impl; [|exact IH]. intros a H. apply H.
Qed.

Definition substmts (s : stmt) : list stmt :=
  match s with SIf _ th _ el => th ++ el | SFor _ _ b | SWhile _ b | SFun _ _ _ _ b => b | _ => [] end.

Fixpoint stmt_ind' (P : stmt -> Prop) (H : forall s, Forall P (substmts s) -> P s) (s : stmt) : P s :=
  let go := Common.Lists.Forall_all (stmt_ind' P H) in
  H s (match s return Forall P (substmts s) with
       | SIf _ th _ el => proj2 (Forall_app P th el) (conj (go th) (go el))
       | SFor _ _ b | SWhile _ b | SFun _ _ _ _ b => go b
       | _ => Forall_nil _
       end).

Lemma lower_s_hck : forall s, forallb (fun y => hck y false) (lower_s s) = true.
Proof.
  apply stmt_ind'. intros s H. destruct s; simpl in *; rewrite ?andb_true_r, ?lower_e_hck; try reflexivity.
  - rewrite forallb_map. apply forallb_forall. intros x _. apply lower_e_hck.
  - apply Forall_app in H. destruct H as [Hth Hel].
    destruct has_else; simpl; rewrite ?lower_e_hck, ?(forallb_flat_map _ _ lower_s _ th Hth), ?(forallb_flat_map _ _ lower_s _ el Hel); reflexivity.
  - rewrite (forallb_flat_map _ _ lower_s _ body H). reflexivity.
  - rewrite (forallb_flat_map _ _ lower_s _ body H). reflexivity.
  - rewrite (forallb_flat_map _ _ lower_s _ body H), andb_true_r.
    apply forallb_flat_map, Forall_forall. intros [[pid t] [d|]] _; simpl; rewrite ?lower_e_hck; reflexivity.
  - rewrite forallb_map. apply forallb_forall. intros x _. reflexivity.
  - rewrite forallb_map. apply forallb_forall. intros x _. apply lower_e_hck.
  - rewrite forallb_map. apply forallb_forall. intros x _. reflexivity.
Qed.

Lemma lower_hcheck : forall cp, hcheck (lower cp) = true.
Proof.
  intros cp. unfold hcheck, lower. apply forallb_flat_map. apply Forall_forall. intros s _. apply lower_s_hck.
Qed.

Lemma compile_total_proof : forall cp, exists s, compile cp = COk s.
Proof. intros cp. apply emit_module_total_proof. apply lower_hcheck. Qed.

Lemma judge_filter : forall os, judge os = true <-> filter crashed os = [].
Proof.
  induction os as [|o r IH]; simpl; [tauto|]. destruct (crashed o); simpl; [split; discriminate|exact IH].
Qed.

(** with a failing command the verdict is the class of the first one, which is not 0, or -1 *)
Lemma verdict_zero_iff : forall os, verdict os = 0%Z <-> judge os = true.
Proof.
  intros os. rewrite judge_filter. unfold verdict. destruct (filter crashed os) as [|o r]; [tauto|].
  split; [|discriminate]. cbn [forallb]. destruct (known_c07 o =? 0)%Z eqn:E; simpl; [discriminate|].
  destruct (forallb _ r); [|discriminate]. intros H. rewrite H in E. discriminate E.
Qed.
