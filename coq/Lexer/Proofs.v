(** Reference positions of a consumed prefix, weakest preconditions for the state monad, the invariant [Inv] of
    the lexer state, and the calls of the iterator as a relation ([emits]). Throughout fx_esc = fx_pos = true:
    the lexer with both switches of Model.v on. *)
From Coq Require Import ZArith List Bool Arith Lia.
From ErgV Require Import Lexer.Model Lexer.Spec.
Import ListNotations.
Open Scope Z_scope.

Fixpoint since_nl (p : list Z) : Z :=
  match p with
  | [] => 0
  | c :: r => if c =? 10 then 0 else 1 + since_nl r
  end.

Lemma zlen_nonneg l : 0 <= zlen l.
Proof. unfold zlen; lia. Qed.
Lemma zlen_cons c (l : list Z) : zlen (c :: l) = zlen l + 1.
Proof. unfold zlen; cbn [length]; lia. Qed.
Lemma zlen_app (a b : list Z) : zlen (a ++ b) = zlen a + zlen b.
Proof. unfold zlen; rewrite app_length; lia. Qed.
Lemma zlen_nil : zlen (@nil Z) = 0.
Proof. reflexivity. Qed.
Lemma zlen_rev (a : list Z) : zlen (rev a) = zlen a.
Proof. unfold zlen; now rewrite rev_length. Qed.

Lemma since_nl_bounds p : 0 <= since_nl p <= zlen p.
Proof.
  induction p as [|c r IH]; cbn [since_nl].
  - rewrite zlen_nil; lia.
  - rewrite zlen_cons. destruct (c =? 10); lia.
Qed.

Lemma count_nl_nonneg p : 0 <= count_nl p.
Proof. induction p as [|c r IH]; cbn [count_nl]; [lia|]. destruct (c =? 10); lia. Qed.

Lemma pos_scan_0 l ln cl : pos_scan l 0 ln cl = (ln, cl).
Proof. destruct l; reflexivity. Qed.

Lemma pos_scan_split a : forall l k ln cl,
  pos_scan (a ++ l) (length a + k) ln cl =
  pos_scan l k (fst (pos_scan (a ++ l) (length a) ln cl)) (snd (pos_scan (a ++ l) (length a) ln cl)).
Proof.
  induction a as [|c r IH]; intros l k ln cl.
  - cbn [app length plus]. destruct l; destruct k; reflexivity.
  - cbn [app length plus pos_scan]. destruct (c =? 10); apply IH.
Qed.

Lemma pos_scan_pre p : forall post,
  pos_scan (rev p ++ post) (length p) 1 0 = (1 + count_nl p, since_nl p).
Proof.
  induction p as [|c r IH]; intros post; [destruct post; reflexivity|].
  cbn [rev length]. rewrite <- app_assoc.
  replace (S (length r)) with (length (rev r) + 1)%nat by (rewrite rev_length; lia).
  rewrite pos_scan_split. rewrite rev_length, IH. cbn [fst snd app pos_scan count_nl since_nl].
  destruct (c =? 10); rewrite pos_scan_0; f_equal; lia.
Qed.

Lemma pos_of_pre p post : pos_of (rev p ++ post) (zlen p) = (1 + count_nl p, since_nl p).
Proof. unfold pos_of, zlen. rewrite Nat2Z.id. apply pos_scan_pre. Qed.

Definition wp {A} (m : M A) (Q : A -> lstate -> Prop) (st : lstate) : Prop :=
  match m st with Ok (a, st') => Q a st' | Panic => False | Fuel => False end.

Lemma wp_bind {A B} (m : M A) (f : A -> M B) (Q : B -> lstate -> Prop) st :
  wp m (fun a st' => wp (f a) Q st') st -> wp (bind m f) Q st.
Proof. unfold wp, bind. destruct (m st) as [[a st']| |]; auto. Qed.
Lemma wp_ret {A} (a : A) (Q : A -> lstate -> Prop) st : Q a st -> wp (ret a) Q st.
Proof. exact (fun H => H). Qed.
Lemma wp_gets {A} (f : lstate -> A) (Q : A -> lstate -> Prop) st : Q (f st) st -> wp (gets f) Q st.
Proof. exact (fun H => H). Qed.
Lemma wp_modify f (Q : unit -> lstate -> Prop) st : Q tt (f st) -> wp (modify f) Q st.
Proof. exact (fun H => H). Qed.
Lemma wp_mono {A} (m : M A) (Q Q' : A -> lstate -> Prop) st :
  wp m Q st -> (forall a st', Q a st' -> Q' a st') -> wp m Q' st.
Proof. unfold wp. destruct (m st) as [[a st']| |]; auto. Qed.
Lemma wp_ite {A} (b : bool) (m1 m2 : M A) Q st : wp m1 Q st -> wp m2 Q st -> wp (if b then m1 else m2) Q st.
Proof. destruct b; auto. Qed.
Lemma wp_elim {A} (m : M A) (Q : A -> lstate -> Prop) st : wp m Q st -> exists a st', m st = Ok (a, st') /\ Q a st'.
Proof. unfold wp. destruct (m st) as [[a st']| |]; intros H; try contradiction. eauto. Qed.
Lemma wp_run {A} (m : M A) x (P : lstate -> Prop) s :
  wp m (fun a s' => a = x /\ P s') s -> exists s', m s = Ok (x, s') /\ P s'.
Proof. intros H. destruct (wp_elim _ _ _ H) as (a & s' & E & -> & HP). eauto. Qed.

(* the state after `consume` of [c], with [r] left *)
Definition adv (st : lstate) (c : Z) (r : list Z) : lstate :=
  let st1 := set_zip st (c :: pre st) r (cursor st + 1) in
  if c =? 10 then set_curline st1 (cur_line st1 + 1) (cursor st1) else st1.
Definition adv_eof (st : lstate) : lstate := set_zip st (pre st) [] (cursor st + 1).

Lemma wp_consume st (Q : option Z -> lstate -> Prop) :
  match post st with c :: r => Q (Some c) (adv st c r) | [] => Q None (adv_eof st) end ->
  wp (consume true) Q st.
Proof. unfold wp, consume, adv, adv_eof. destruct (post st); cbn [andb]; auto. Qed.

Lemma pre_adv st c r : pre (adv st c r) = c :: pre st.
Proof. unfold adv. destruct (c =? 10); reflexivity. Qed.
Lemma post_adv st c r : post (adv st c r) = r.
Proof. unfold adv. destruct (c =? 10); reflexivity. Qed.
Lemma cursor_adv st c r : cursor (adv st c r) = cursor st + 1.
Proof. unfold adv. destruct (c =? 10); reflexivity. Qed.
Lemma len_adv st c r : len (adv st c r) = len st.
Proof. unfold adv. destruct (c =? 10); reflexivity. Qed.
Lemma indent_adv st c r : indent_stack (adv st c r) = indent_stack st.
Proof. unfold adv. destruct (c =? 10); reflexivity. Qed.
Lemma encl_adv st c r : encl (adv st c r) = encl st.
Proof. unfold adv. destruct (c =? 10); reflexivity. Qed.
Lemma prev_adv st c r : prev_kind (adv st c r) = prev_kind st.
Proof. unfold adv. destruct (c =? 10); reflexivity. Qed.
Lemma lineno_adv st c r : lineno (adv st c r) = lineno st.
Proof. unfold adv. destruct (c =? 10); reflexivity. Qed.
Lemma col_adv st c r : col (adv st c r) = col st.
Proof. unfold adv. destruct (c =? 10); reflexivity. Qed.
Lemma interpol_adv st c r : interpol (adv st c r) = interpol st.
Proof. unfold adv. destruct (c =? 10); reflexivity. Qed.
#[export] Hint Rewrite pre_adv post_adv cursor_adv len_adv indent_adv encl_adv prev_adv lineno_adv col_adv interpol_adv : st.

Lemma pre_adv_eof st : pre (adv_eof st) = pre st. Proof. reflexivity. Qed.
Lemma post_adv_eof st : post (adv_eof st) = []. Proof. reflexivity. Qed.
Lemma cursor_adv_eof st : cursor (adv_eof st) = cursor st + 1. Proof. reflexivity. Qed.
Lemma len_adv_eof st : len (adv_eof st) = len st. Proof. reflexivity. Qed.
Lemma indent_adv_eof st : indent_stack (adv_eof st) = indent_stack st. Proof. reflexivity. Qed.
Lemma encl_adv_eof st : encl (adv_eof st) = encl st. Proof. reflexivity. Qed.
Lemma prev_adv_eof st : prev_kind (adv_eof st) = prev_kind st. Proof. reflexivity. Qed.
Lemma lineno_adv_eof st : lineno (adv_eof st) = lineno st. Proof. reflexivity. Qed.
Lemma col_adv_eof st : col (adv_eof st) = col st. Proof. reflexivity. Qed.
Lemma interpol_adv_eof st : interpol (adv_eof st) = interpol st. Proof. reflexivity. Qed.
#[export] Hint Rewrite pre_adv_eof post_adv_eof cursor_adv_eof len_adv_eof indent_adv_eof encl_adv_eof prev_adv_eof
  lineno_adv_eof col_adv_eof interpol_adv_eof : st.

Section WithSrc.
Variable src : list Z.

Record Inv (st : lstate) : Prop := {
  inv_zip : rev (pre st) ++ post st = src;
  inv_len : len st = zlen src;
  inv_cur : zlen (pre st) <= cursor st;
  inv_over : zlen (pre st) < cursor st -> post st = [];
  inv_line : cur_line st = count_nl (pre st);
  inv_head : line_head st = zlen (pre st) - since_nl (pre st);
  inv_interpol : exists l, interpol st = l ++ [INot];
  inv_indent : Forall (fun x => 0 <= x) (indent_stack st)
}.

Lemma Inv_init : forall s, s = src -> Inv (init s).
Proof.
  intros s ->. constructor; cbn; try reflexivity; try lia.
  - exists []; reflexivity.
  - constructor.
Qed.

Lemma Inv_pre_le st : Inv st -> zlen (pre st) + zlen (post st) = zlen src.
Proof. intros I. rewrite <- (inv_zip _ I), zlen_app, zlen_rev. reflexivity. Qed.

Lemma Inv_cursor st : Inv st -> post st <> [] -> cursor st = zlen (pre st).
Proof.
  intros I E. pose proof (inv_cur _ I).
  destruct (Z.eq_dec (cursor st) (zlen (pre st))); [assumption|].
  destruct E. apply (inv_over _ I). lia.
Qed.

Lemma Inv_adv st c r : Inv st -> post st = c :: r -> Inv (adv st c r).
Proof.
  intros I E.
  assert (Hc : cursor st = zlen (pre st)) by (apply Inv_cursor; [assumption | rewrite E; discriminate]).
  constructor; autorewrite with st.
  - cbn [rev]. rewrite <- app_assoc. cbn [app]. rewrite <- E. apply (inv_zip _ I).
  - apply (inv_len _ I).
  - rewrite zlen_cons. lia.
  - rewrite zlen_cons. lia.
  - pose proof (inv_line _ I) as HL. unfold adv. cbn [count_nl].
    destruct (c =? 10); cbn [cur_line set_curline set_zip]; lia.
  - pose proof (inv_head _ I) as HH. unfold adv. cbn [since_nl]. rewrite zlen_cons.
    destruct (c =? 10); cbn [line_head cursor set_curline set_zip]; lia.
  - apply (inv_interpol _ I).
  - apply (inv_indent _ I).
Qed.

Lemma Inv_adv_eof st : Inv st -> post st = [] -> Inv (adv_eof st).
Proof.
  intros I E. constructor; cbn; try apply I.
  - rewrite <- E. apply I.
  - pose proof (inv_cur _ I). lia.
  - reflexivity.
Qed.

(** all fields but [encl], [prev_kind], [lineno] and [col], of which [Inv] says nothing *)
Definition same_core (a b : lstate) : Prop :=
  pre a = pre b /\ post a = post b /\ cursor a = cursor b /\ len a = len b /\
  cur_line a = cur_line b /\ line_head a = line_head b /\ interpol a = interpol b /\
  indent_stack a = indent_stack b.
Lemma Inv_core a b : same_core a b -> Inv a -> Inv b.
Proof.
  intros (H1 & H2 & H3 & H4 & H5 & H6 & H7 & H8) I.
  constructor; rewrite <- ?H1, <- ?H2, <- ?H3, <- ?H4, <- ?H5, <- ?H6, <- ?H7, <- ?H8; apply I.
Qed.

(** [st] comes after [st0] in the same call of [next], with no token emitted in between *)
Definition quiet (st0 st : lstate) : Prop :=
  Inv st /\ zlen (post st) <= zlen (post st0) /\ indent_stack st = indent_stack st0 /\
  prev_kind st = prev_kind st0.

(** [st0]: the state in which the token started, just after sync *)
Definition Good (st0 st : lstate) : Prop := quiet st0 st /\ lineno st = lineno st0 /\ col st = col st0.

Lemma quiet_refl st : Inv st -> quiet st st.
Proof. intros I. split; [assumption|]. split; [lia|]. split; reflexivity. Qed.
Lemma Good_refl st : Inv st -> Good st st.
Proof. intros I. split; [apply quiet_refl; assumption|]. split; reflexivity. Qed.

Lemma Good_quiet st0 st : Good st0 st -> quiet st0 st.
Proof. intros G. apply G. Qed.

Lemma quiet_adv st0 st c r : quiet st0 st -> post st = c :: r -> quiet st0 (adv st c r).
Proof.
  intros (I & P & D & K) E. split; [apply Inv_adv; assumption|]. autorewrite with st.
  rewrite E, zlen_cons in P. split; [lia|]. split; assumption.
Qed.
Lemma quiet_adv_eof st0 st : quiet st0 st -> post st = [] -> quiet st0 (adv_eof st).
Proof.
  intros (I & P & D & K) E. split; [apply Inv_adv_eof; assumption|]. autorewrite with st.
  split; [apply zlen_nonneg|]. split; assumption.
Qed.
Lemma Inv_line st l c : Inv st -> Inv (set_col (set_lineno st l) c).
Proof. apply Inv_core. repeat split. Qed.
Lemma quiet_line st0 st l c : quiet st0 st -> quiet st0 (set_col (set_lineno st l) c).
Proof. intros (I & F). split; [apply Inv_line; exact I | exact F]. Qed.

(** stated so that the state after the step is a variable again *)
Lemma wp_consume_good st0 st (Q : option Z -> lstate -> Prop) :
  Good st0 st ->
  match post st with
  | c :: r => forall st', Good st0 st' -> post st' = r -> Q (Some c) st'
  | [] => forall st', Good st0 st' -> post st' = [] -> Q None st'
  end ->
  wp (consume true) Q st.
Proof.
  intros (G & LC) H. apply wp_consume. destruct (post st) as [|c r] eqn:E; apply H.
  - split; [apply quiet_adv_eof; assumption | exact LC].
  - reflexivity.
  - split; [apply quiet_adv; assumption | autorewrite with st; exact LC].
  - apply post_adv.
Qed.

End WithSrc.

Section Run.
Variable xs xc : Z -> bool.
Notation next := (next xs xc true true).

(** [emits st l]: the iterator, called again and again from [st], yields the items [l] and then None. The calls of
    [next] themselves, without the fuel and the accumulator of [lex_loop]. *)
Inductive emits : lstate -> list item -> Prop :=
| emits_stop st st' : next st = Ok (SNone, st') -> emits st []
| emits_item st it st' l : next st = Ok (SItem it, st') -> emits st' l -> emits st (it :: l)
| emits_again st st' l : next st = Ok (SAgain, st') -> emits st' l -> emits st l.

Lemma lex_loop_emits : forall n st acc r,
  lex_loop xs xc true true n st acc = Ok r -> exists l, r = rev acc ++ l /\ emits st l.
Proof.
  induction n as [|n IH]; intros st acc r E; [discriminate|].
  cbn [lex_loop] in E. destruct (next st) as [[[|it|] st']| |] eqn:N; try discriminate.
  - injection E as <-. exists []. split; [symmetry; apply app_nil_r|exact (emits_stop _ _ N)].
  - destruct (IH _ _ _ E) as (l & -> & S). exists (it :: l).
    split; [cbn [rev]; rewrite <- app_assoc; reflexivity|exact (emits_item _ _ _ _ N S)].
  - destruct (IH _ _ _ E) as (l & -> & S). exists l. split; [reflexivity|exact (emits_again _ _ _ N S)].
Qed.

Lemma emits_item_inv st it st' r :
  next st = Ok (SItem it, st') -> emits st r -> exists r', r = it :: r' /\ emits st' r'.
Proof. intros N S. inversion S; subst; rewrite N in *; try discriminate. injection H as <- <-. eauto. Qed.

Lemma emits_again_inv st st' r : next st = Ok (SAgain, st') -> emits st r -> emits st' r.
Proof. intros N S. inversion S; subst; rewrite N in *; try discriminate. injection H as <-. assumption. Qed.
End Run.
