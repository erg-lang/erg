(** The sub-lexers called from the `match self.consume()` of Iterator::next meet [sub_post]; the match itself
    ([dispatch_spec]) meets [step_post].  [ws], [wcase], [leaf]: symbolic execution with the rules of Proofs.v. *)
From Coq Require Import ZArith List Bool Arith Lia.
From ErgV Require Import Lexer.Model Lexer.Spec Lexer.Proofs.
Import ListNotations.
Open Scope Z_scope.

Section A.
Variable src : list Z.

(* the kinds of the tokens that the sub-lexers emit: the stream goes on and the indent stack stays *)
Definition plain_kind (k : tkind) : Prop := k <> EOF /\ k <> Indent /\ k <> Dedent.

Lemma plain_if (b : bool) k1 k2 : plain_kind k1 -> plain_kind k2 -> plain_kind (if b then k1 else k2).
Proof. destruct b; auto. Qed.

Lemma plain_symbol_kind c : plain_kind (symbol_kind c).
Proof. unfold symbol_kind. repeat apply plain_if; repeat split; discriminate. Qed.

Lemma plain_int_or_nat num : plain_kind (int_or_nat num).
Proof. unfold int_or_nat. apply plain_if; repeat split; discriminate. Qed.

Lemma plain_quote_kind q : plain_kind (quote_kind q).
Proof. destruct q; repeat split; discriminate. Qed.

Definition emitted (st0 : lstate) (g : Z) (t : token) (st' : lstate) : Prop :=
  Inv src st' /\ zlen (post st') <= zlen (post st0) /\ indent_stack st' = indent_stack st0 /\
  prev_kind st' = tk_kind t /\ tk_line t = lineno st0 + 1 /\ tk_col t = col st0 /\ tk_start t = g.

Definition sub_post (st0 : lstate) (g : Z) (it : item) (st' : lstate) : Prop :=
  emitted st0 g (item_token it) st' /\
  match it with ITok t => plain_kind (tk_kind t) | IErr _ t => tk_kind t <> EOF end.

Lemma wp_emit_multi st0 st k cont g (Q : token -> lstate -> Prop) :
  Good src st0 st -> (forall t st', tk_kind t = k -> emitted st0 g t st' -> Q t st') ->
  wp (emit_multiline_token true k (col st0) cont g) Q st.
Proof.
  intros ((I & P & D & K) & L & C) H. apply H; [reflexivity|].
  split; [eapply Inv_core; [|exact I]; repeat split|]. cbn. repeat split; congruence.
Qed.

(* with [fx_pos] a single-line token is a multi-line token that begins at [col] *)
Lemma wp_emit st0 st k cont g (Q : token -> lstate -> Prop) :
  Good src st0 st -> (forall t st', tk_kind t = k -> emitted st0 g t st' -> Q t st') ->
  wp (emit_singleline_token k cont g) Q st.
Proof.
  intros G H. change (wp (emit_multiline_token true k (col st) cont g) Q st).
  replace (col st) with (col st0) by (symmetry; apply G). apply wp_emit_multi; assumption.
Qed.

Lemma emitted_line st0 g t st' l c :
  emitted st0 g t st' -> emitted st0 g t (set_col (set_lineno st' l) c).
Proof. intros (I & F). split; [apply Inv_line; exact I | exact F]. Qed.

Lemma Good_set_encl st0 st v : Good src st0 st -> Good src st0 (set_encl st v).
Proof. intros ((I & F) & L). split; [split; [eapply Inv_core; [|exact I]; repeat split | exact F] | exact L]. Qed.

Lemma Good_push st0 st i : Good src st0 st -> Good src st0 (set_interpol st (i :: interpol st)).
Proof.
  intros ((I & F) & L). split; [split; [|exact F] | exact L].
  destruct (inv_interpol _ _ I) as [l Hl].
  constructor; cbn; try apply I. exists (i :: l). rewrite Hl. reflexivity.
Qed.

Lemma Good_pop st0 st i rest :
  Good src st0 st -> interpol st = i :: rest -> i <> INot -> Good src st0 (set_interpol st (tl (interpol st))).
Proof.
  intros ((I & F) & L) E Hi. split; [split; [|exact F] | exact L].
  destruct (inv_interpol _ _ I) as [l Hl].
  constructor; cbn; try apply I. rewrite E in *. cbn [tl].
  destruct l as [|j l]; cbn in Hl; inversion Hl; subst; [congruence|]. eauto.
Qed.

Lemma wp_last_interpol st (Q : interp -> lstate -> Prop) :
  Inv src st -> (forall i rest, interpol st = i :: rest -> Q i st) -> wp last_interpol Q st.
Proof.
  intros I H. unfold last_interpol. apply wp_bind, wp_gets.
  destruct (inv_interpol _ _ I) as [l Hl].
  destruct (interpol st) as [|i rest] eqn:E; [destruct l; discriminate|].
  apply wp_ret. eapply H. reflexivity.
Qed.

Lemma Good_inv st0 st : Good src st0 st -> Inv src st.
Proof. intros G. apply G. Qed.

Lemma peek_is st c : opt_is (peek_cur_ch st) c = true -> peek_cur_ch st = Some c.
Proof. destruct (peek_cur_ch st); cbn; [|discriminate]. intros H. apply Z.eqb_eq in H. congruence. Qed.
Lemma opt_is_false o c : o <> Some c -> opt_is o c = false.
Proof. destruct o as [x|]; [|reflexivity]. intros H. apply Z.eqb_neq. congruence. Qed.

Lemma hex_val_range c : is_ascii_hexdigit c = true -> 0 <= hex_val c <= 15.
Proof.
  unfold is_ascii_hexdigit, hex_val, is_ascii_digit. intros H.
  destruct ((48 <=? c) && (c <=? 57)) eqn:E1.
  - apply andb_prop in E1 as [A B]. lia.
  - destruct ((65 <=? c) && (c <=? 70)) eqn:E2.
    + apply andb_prop in E2 as [A B]. lia.
    + cbn in H. apply andb_prop in H as [A B]. lia.
Qed.

Definition step_post (st0 : lstate) (g : Z) (s : step) (st' : lstate) : Prop :=
  match s with
  | SNone => False
  | SItem it => sub_post st0 g it st'
  | SAgain => quiet src st0 st'
  end.

Lemma wp_lift st0 st g (m : M item) :
  wp m (sub_post st0 g) st -> wp (lift m) (step_post st0 g) st.
Proof. intros H. unfold lift. apply wp_bind. eapply wp_mono; [exact H|]. intros a st' Ha. exact Ha. Qed.
End A.

Create HintDb plain.
#[export] Hint Resolve plain_int_or_nat plain_symbol_kind plain_quote_kind : plain.
#[export] Hint Extern 1 (plain_kind _) => repeat split; discriminate : plain.

Ltac rw_post := repeat match goal with H : post ?s = _ |- context [post ?s] => rewrite H end.

(* [Good] is in the context, up to the enclosure level and the interpolation stack *)
Ltac good :=
  repeat first
    [ assumption | apply Good_set_encl | apply Good_push | eapply Good_pop; [ | eassumption | discriminate ] ].

(* symbolic execution of a sub-lexer: [ws1] applies the wp rule of the primitive that is bound next, [ws] repeats it and
   reads the projections of the state; [wcase] splits on the test or match that is met *)
Ltac ws1 :=
  lazymatch goal with
  | |- wp (bind (emit_singleline_token _ _ _) _) _ _ =>
    match goal with G : Good ?sr ?s0 _ |- _ => apply wp_bind, (wp_emit sr s0); [good | intros ? ? ? ?] end
  | |- wp (bind (emit_multiline_token _ _ _ _ _) _) _ _ =>
    match goal with G : Good ?sr ?s0 _ |- _ => apply wp_bind, (wp_emit_multi sr s0); [good | intros ? ? ? ?] end
  | |- wp (bind _ _) _ _ => apply wp_bind
  | |- wp (ret _) _ _ => apply wp_ret
  | |- wp (ok_tok _) _ _ => apply wp_ret
  | |- wp (err_tok _ _) _ _ => apply wp_ret
  | |- wp (accept _ _ _) _ _ => unfold accept
  | |- wp (reject _ _ _ _) _ _ => unfold reject
  | |- wp (invalid_unicode_character _ _) _ _ => unfold invalid_unicode_character
  | |- wp (gets _) _ _ => apply wp_gets
  | |- wp peek_cur _ _ => unfold peek_cur; apply wp_gets
  | |- wp peek_next _ _ => unfold peek_next; apply wp_gets
  | |- wp (modify _) _ _ => apply wp_modify
  | |- wp (push_interpol _) _ _ => unfold push_interpol; apply wp_modify
  | |- wp pop_interpol _ _ => unfold pop_interpol; apply wp_modify
  | |- wp (consume true) _ _ =>
    first [ match goal with G : Good ?sr ?s0 _ |- _ => apply (wp_consume_good sr s0); [good|] end | apply wp_consume ]
  | |- forall st' : lstate, Good _ _ st' -> _ =>
    let s := fresh "s" in let Gs := fresh "Gs" in let Es := fresh "Es" in intros s Gs Es
  | |- wp (unwrap (Some _)) _ _ => apply wp_ret
  | |- wp op_fix _ _ => unfold op_fix; apply wp_gets
  | |- wp (bump_line_nofix true) _ _ => unfold bump_line_nofix; apply wp_ret
  | |- wp last_interpol _ _ =>
    match goal with G : Good ?sr ?s0 _ |- _ =>
      apply (wp_last_interpol sr); [apply (Good_inv sr s0); good | let H := fresh "HI" in intros ? ? H; cbn [interpol set_encl] in H] end
  end; cbv beta.

Ltac ws :=
  repeat first
    [ ws1
    | progress (unfold peek_cur_ch, peek_next_ch)
    | progress rw_post
    | progress (cbn [hd_error nth_error opt_is fuel_of
                     pre post cursor len indent_stack encl prev_kind lineno col cur_line line_head interpol
                     set_interpol set_encl set_col set_lineno set_prev set_indent]) ].

(* the fuel of a loop exceeds the input that is left *)
Ltac fuel := unfold fuel_of; autorewrite with st; rw_post;
  cbn [length] in *; lia.

Ltac wcase0 :=
  lazymatch goal with
  | |- match ?x with _ => _ end => destruct x eqn:?
  | |- wp (if ?b then _ else _) _ _ => destruct b eqn:?
  | |- wp (match ?x with _ => _ end) _ _ => destruct x eqn:?
  end; try discriminate.

Ltac wcase :=
  first [ match goal with
          | |- context [hd_error ?l] => is_var l; destruct l; cbn [hd_error nth_error]
          end | wcase0 ].

(* after the token's emission: its kind is admissible *)
Ltac leaf :=
  cbn [step_post]; split; [first [eassumption | apply emitted_line; eassumption]|];
  match goal with K : tk_kind ?t = _ |- context [tk_kind ?t] => rewrite K end;
  first [discriminate | auto with plain].

Section B.
Variable src : list Z.
Variable xs xc : Z -> bool.

Lemma take_while_spec p st0 : forall n acc st (Q : list Z -> lstate -> Prop),
  (length (post st) < n)%nat -> Good src st0 st ->
  (forall x st', Good src st0 st' -> Q (acc ++ x) st') ->
  wp (take_while true n p acc) Q st.
Proof.
  induction n as [|n IH]; intros acc st Q Hn G HQ; [lia|].
  cbn [take_while]. ws.
  destruct (post st) as [|c r] eqn:E; ws.
  - rewrite <- (app_nil_r acc). auto.
  - destruct (p c); ws; [|rewrite <- (app_nil_r acc); auto].
    apply IH; [fuel | good |]. intros x st' G'. rewrite <- app_assoc. auto.
Qed.

Lemma lex_exponent_spec st0 st m g :
  Good src st0 st -> peek_cur_ch st = Some 101 ->
  wp (lex_exponent true m g) (sub_post src st0 g) st.
Proof.
  intros G P. unfold lex_exponent. ws. unfold peek_cur_ch in P.
  destruct (post st) as [|c r] eqn:E; [discriminate|]. cbn in P. injection P as ->.
  ws. cbn [Z.eqb Pos.eqb]. ws.
  destruct r as [|d r']; ws; [leaf|].
  apply take_while_spec with (st0 := st0); [fuel | good |].
  intros acc' st' G'. ws. leaf.
Qed.

Lemma lex_ratio_spec st0 st m g :
  Good src st0 st -> wp (lex_ratio true m g) (sub_post src st0 g) st.
Proof.
  intros G. unfold lex_ratio. ws.
  apply take_while_spec with (st0 := st0); [fuel | good |].
  intros acc' st' G'. ws. wcase; ws; [|leaf].
  apply lex_exponent_spec; [assumption | apply peek_is; exact Heqb].
Qed.

Lemma lex_radix_spec st0 st k p m g :
  Good src st0 st -> plain_kind k -> wp (lex_radix true k p m g) (sub_post src st0 g) st.
Proof.
  intros G K. unfold lex_radix. ws.
  apply take_while_spec with (st0 := st0); [fuel | good |].
  intros acc' st' G'. ws. leaf.
Qed.

Lemma lex_num_dot_spec st0 st m g :
  Good src st0 st -> peek_cur_ch st = Some 46 ->
  wp (lex_num_dot xc true m g) (sub_post src st0 g) st.
Proof.
  intros G P. unfold lex_num_dot. ws. unfold peek_cur_ch in P.
  destruct (post st) as [|c r] eqn:E; [discriminate|]. cbn in P. injection P as ->.
  destruct r as [|d r']; ws; [apply lex_ratio_spec; good|].
  repeat (wcase; ws); try (apply lex_ratio_spec; good); leaf.
Qed.

Lemma lex_num_loop_spec st0 g : forall n m st,
  (length (post st) < n)%nat -> Good src st0 st ->
  wp (lex_num_loop xc true n m g) (sub_post src st0 g) st.
Proof.
  induction n as [|n IH]; intros m st Hn G; [lia|].
  cbn [lex_num_loop]. ws.
  destruct (post st) as [|c r] eqn:E; ws; [leaf|].
  repeat (wcase; ws); try leaf; try (apply lex_radix_spec; [good | auto with plain]).
  - apply lex_num_dot_spec; [good|]. apply Z.eqb_eq in Heqb. subst. unfold peek_cur_ch. rewrite E. reflexivity.
  - apply IH; [fuel | good].
  - apply lex_exponent_spec; [good|]. apply andb_prop in Heqb5 as [H _]. apply Z.eqb_eq in H. subst.
    unfold peek_cur_ch. rewrite E. reflexivity.
Qed.

Lemma lex_num_spec st0 st c g :
  Good src st0 st -> wp (lex_num xc true c g) (sub_post src st0 g) st.
Proof. intros G. unfold lex_num. ws. apply lex_num_loop_spec; [fuel | good]. Qed.

Lemma lex_symbol_spec st0 st c g :
  Good src st0 st -> wp (lex_symbol xc true c g) (sub_post src st0 g) st.
Proof.
  intros G. unfold lex_symbol. ws.
  apply take_while_spec with (st0 := st0); [fuel | good |].
  intros x st' G'. cbn [app]. ws.
  destruct (post st') as [|d r] eqn:E; ws; [leaf|].
  wcase; ws; leaf.
Qed.

Lemma lex_single_str_loop_spec st0 g : forall n s st,
  (length (post st) < n)%nat -> Good src st0 st ->
  wp (lex_single_str_loop true true n s g) (sub_post src st0 g) st.
Proof.
  induction n as [|n IH]; intros s st Hn G; [lia|].
  cbn [lex_single_str_loop]. ws.
  destruct (post st) as [|c r] eqn:E; ws; [leaf|].
  repeat (wcase; ws); try leaf; try (apply IH; [fuel | good]).
  (* char::from_u32 of two hexadecimal digits cannot fail *)
  exfalso.
  repeat match goal with H : negb (is_ascii_hexdigit ?a) = false |- _ =>
    apply negb_false_iff, hex_val_range in H end.
  match goal with H : (_ || _) = true |- _ => apply orb_prop in H as [H|H]; [apply andb_prop in H as [? ?]|]; lia end.
Qed.

Lemma lex_multi_line_str_loop_spec st0 g q : forall n s st,
  (length (post st) < n)%nat -> Good src st0 st ->
  wp (lex_multi_line_str_loop true true n q (col st0) s g) (sub_post src st0 g) st.
Proof.
  induction n as [|n IH]; intros s st Hn G; [lia|].
  cbn [lex_multi_line_str_loop]. ws.
  destruct (post st) as [|c r] eqn:E; ws; [repeat (wcase; ws); leaf|].
  repeat (wcase; ws); try leaf; try (apply IH; [fuel | good]).
Qed.

Lemma lex_interpolation_mid_loop_spec st0 g : forall n s st,
  (length (post st) < n)%nat -> Good src st0 st ->
  wp (lex_interpolation_mid_loop true true n s g) (sub_post src st0 g) st.
Proof.
  induction n as [|n IH]; intros s st Hn G; [lia|].
  cbn [lex_interpolation_mid_loop]. ws.
  destruct (post st) as [|c r] eqn:E; ws; [leaf|].
  repeat (wcase; ws); try leaf; try (apply IH; [fuel | good]).
Qed.

Lemma lex_raw_ident_loop_spec st0 g : forall n s st,
  (length (post st) < n)%nat -> Good src st0 st ->
  wp (lex_raw_ident_loop true n s g) (sub_post src st0 g) st.
Proof.
  induction n as [|n IH]; intros s st Hn G; [lia|].
  cbn [lex_raw_ident_loop]. ws.
  destruct (post st) as [|c r] eqn:E; ws; [leaf|].
  repeat (wcase; ws); try leaf; try (apply IH; [fuel | good]).
Qed.

Lemma lex_backquote_loop_spec st0 g : forall n op st,
  (length (post st) < n)%nat -> Good src st0 st ->
  wp (lex_backquote_loop true n op g) (step_post src st0 g) st.
Proof.
  induction n as [|n IH]; intros op st Hn G; [lia|].
  cbn [lex_backquote_loop]. ws.
  destruct (post st) as [|c r] eqn:E; ws; [leaf|].
  repeat (wcase; ws); try leaf.
  apply IH; [fuel | good].
Qed.

Lemma lex_single_str_spec st0 st g :
  Good src st0 st -> wp (lex_single_str true true g) (sub_post src st0 g) st.
Proof. intros G. unfold lex_single_str. ws. apply lex_single_str_loop_spec; [fuel | good]. Qed.

Lemma lex_multi_line_str_spec st0 st q g :
  Good src st0 st -> wp (lex_multi_line_str true true q g) (sub_post src st0 g) st.
Proof.
  intros G. unfold lex_multi_line_str. ws.
  replace (col st) with (col st0) by (symmetry; apply G).
  apply lex_multi_line_str_loop_spec; [fuel | good].
Qed.

Lemma lex_interpolation_mid_spec st0 st g :
  Good src st0 st -> wp (lex_interpolation_mid true true g) (sub_post src st0 g) st.
Proof. intros G. unfold lex_interpolation_mid. ws. apply lex_interpolation_mid_loop_spec; [fuel | good]. Qed.

Lemma lex_raw_ident_spec st0 st g :
  Good src st0 st -> wp (lex_raw_ident true g) (sub_post src st0 g) st.
Proof. intros G. unfold lex_raw_ident. ws. apply lex_raw_ident_loop_spec; [fuel | good]. Qed.

Lemma by_fix_spec st0 st ki kp cont ill g :
  Good src st0 st -> plain_kind ki -> plain_kind kp ->
  wp (by_fix ki kp cont ill g) (step_post src st0 g) st.
Proof. intros G Ki Kp. unfold by_fix, op_fix. ws. repeat (wcase; ws); leaf. Qed.
End B.

Create HintDb sublex.
#[export] Hint Resolve Good_set_encl lex_num_spec lex_symbol_spec lex_ratio_spec lex_single_str_spec
  lex_multi_line_str_spec lex_raw_ident_spec lex_interpolation_mid_spec : sublex.

(* the programs at the ends of the branches of [dispatch] *)
Ltac dleaf :=
  lazymatch goal with
  | |- step_post _ _ _ SAgain _ => apply quiet_line, Good_quiet; good
  | |- step_post _ _ _ (SItem _) _ => leaf
  | |- wp (lift _) _ _ => apply wp_lift; auto with sublex
  | |- wp (by_fix _ _ _ _ _) _ _ => apply by_fix_spec; [good | auto with plain..]
  | |- wp (lex_backquote_loop _ _ _ _) _ _ => apply lex_backquote_loop_spec; [fuel | good]
  end.

Section C.
Variable src : list Z.
Variable xs xc : Z -> bool.

(* no branch depends on which character [c] is: split the chain of comparisons before running any *)
Lemma dispatch_spec st0 st c g :
  Good src st0 st -> wp (dispatch xs xc true true c g) (step_post src st0 g) st.
Proof.
  intros G. unfold dispatch. apply wp_bind, wp_gets, wp_bind, wp_gets.
  repeat apply wp_ite.
  all: ws; repeat (wcase; ws); dleaf.
Qed.
End C.
