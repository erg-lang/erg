(** Iterator::next (indentation, comments, the dispatch) and Lexer::lex: termination measure, EOF-or-error,
    faithful positions. *)
From Coq Require Import ZArith List Bool Arith Lia.
From ErgV Require Import Common.Lists Lexer.Model Lexer.Spec Lexer.Proofs Lexer.ProofsSub.
Import ListNotations.
Open Scope Z_scope.

Ltac simp_proj :=
  cbn [pre post cursor len indent_stack encl prev_kind lineno col cur_line line_head interpol
       set_interpol set_encl set_col set_lineno set_prev set_indent set_zip set_curline
       item_token tk_kind tk_content tk_line tk_col tk_col_end tk_start mk_token fst snd].
(* straight-line code without [consume]: the program is run on the state as it stands *)
Ltac run_wp := unfold wp, bind, modify, gets, emit_singleline_token, ret, peek_cur, peek_next; cbv beta iota zeta; simp_proj.

Section N.
Variable src : list Z.
Variable xs xc : Z -> bool.

Lemma kind_eqb_refl k : kind_eqb k k = true.
Proof. destruct k; reflexivity. Qed.

(* 87 evaluations over the table; a case split on both arguments of [kind_eqb] has 87 * 87 cases *)
Lemma kind_filter b : filter (fun x => kind_eqb x b) all_kinds = [b].
Proof. destruct b; reflexivity. Qed.

Lemma kind_eqb_eq a b : kind_eqb a b = true -> a = b.
Proof.
  intros H.
  assert (Ia : In a (filter (fun x => kind_eqb x a) all_kinds)) by (rewrite kind_filter; left; reflexivity).
  apply filter_In in Ia as [Ia _].
  assert (Ib : In a (filter (fun x => kind_eqb x b) all_kinds)) by (apply filter_In; split; assumption).
  rewrite kind_filter in Ib. destruct Ib as [E|[]]. symmetry. exact E.
Qed.

Lemma eof_dec (k : tkind) : {k = EOF} + {k <> EOF}.
Proof. destruct k; first [left; reflexivity | right; discriminate]. Qed.

Definition flag (st : lstate) : Z := if kind_eqb (prev_kind st) EOF then 0 else 1.

(** the measure of Lexer::lex: the Dedent that follows a rewind of the cursor pays with the level it pops, the
    final EOF with [flag] *)
Definition Phi (st : lstate) : Z := 2 * zlen (post st) + zlen (indent_stack st) + flag st.

Definition tok_ok (st st' : lstate) (t : token) : Prop :=
  zlen (pre st) <= tk_start t <= zlen (pre st') /\ (tk_line t, tk_col t) = pos_of src (tk_start t).

Definition indent_rel (k : tkind) (st st' : lstate) : Prop :=
  match k with
  | Indent => exists x, indent_stack st' = x :: indent_stack st
  | Dedent => exists x, indent_stack st = x :: indent_stack st'
  | EOF => indent_stack st = [] /\ indent_stack st' = []
  | _ => indent_stack st' = indent_stack st
  end.

Definition item_post (st : lstate) (it : item) (st' : lstate) : Prop :=
  Inv src st' /\ Phi st' < Phi st /\ prev_kind st' = tk_kind (item_token it) /\
  zlen (pre st) <= zlen (pre st') /\
  match it with
  | ITok t => tok_ok st st' t /\ indent_rel (tk_kind t) st st'
  | IErr _ t => tk_kind t <> EOF
  end.

Lemma flag_1 st : prev_kind st <> EOF -> flag st = 1.
Proof. unfold flag. destruct (kind_eqb (prev_kind st) EOF) eqn:E; [apply kind_eqb_eq in E; congruence|reflexivity]. Qed.

Lemma flag_le st : 0 <= flag st <= 1.
Proof. unfold flag. destruct (kind_eqb _ _); lia. Qed.

Lemma ghost_eq st : Inv src st -> Z.min (cursor st) (len st) = zlen (pre st).
Proof.
  intros I. pose proof (inv_cur _ _ I) as H1. pose proof (Inv_pre_le _ _ I) as H2.
  rewrite (inv_len _ _ I). pose proof (zlen_nonneg (post st)).
  destruct (post st) eqn:E; [rewrite zlen_nil in H2; lia|].
  rewrite (Inv_cursor _ _ I) by (rewrite E; discriminate). lia.
Qed.

Definition synced (st : lstate) : Prop :=
  lineno st = count_nl (pre st) /\ col st = since_nl (pre st).

Lemma wp_sync st (Q : unit -> lstate -> Prop) :
  Inv src st ->
  (forall l c, synced (set_col (set_lineno st l) c) -> Q tt (set_col (set_lineno st l) c)) ->
  wp (sync_token_starts true) Q st.
Proof.
  intros I H. unfold wp, sync_token_starts.
  rewrite (ghost_eq _ I), (inv_head _ _ I). pose proof (since_nl_bounds (pre st)).
  replace (zlen (pre st) <? zlen (pre st) - since_nl (pre st)) with false by (symmetry; apply Z.ltb_ge; lia).
  apply H. split; cbn; [apply (inv_line _ _ I) | lia].
Qed.

Lemma synced_pos st : Inv src st -> synced st -> (lineno st + 1, col st) = pos_of src (zlen (pre st)).
Proof.
  intros I [H1 H2]. rewrite <- (inv_zip _ _ I), pos_of_pre, H1, H2. f_equal. lia.
Qed.

Lemma count_nl_spaces k p : count_nl (repeat 32 k ++ p) = count_nl p.
Proof. induction k as [|k IH]; [reflexivity|]. cbn [repeat app count_nl]. rewrite IH. reflexivity. Qed.
Lemma since_nl_spaces k p : since_nl (repeat 32 k ++ p) = Z.of_nat k + since_nl p.
Proof. induction k as [|k IH]; [reflexivity|]. cbn [repeat app since_nl]. rewrite IH. cbn [Z.eqb Pos.eqb]. lia. Qed.
Lemma zlen_repeat k : zlen (repeat 32 k) = Z.of_nat k.
Proof. unfold zlen. rewrite repeat_length. reflexivity. Qed.
Lemma repeat_shift k (r : list Z) : repeat 32 k ++ 32 :: r = repeat 32 (S k) ++ r.
Proof. cbn [repeat]. rewrite repeat_cons, <- app_assoc. reflexivity. Qed.

(** [st'] is [st] with [k] blanks moved across the cursor *)
Definition spaces_from (st st' : lstate) (k : nat) : Prop :=
  exists r, post st = repeat 32 k ++ r /\ st' = set_zip st (repeat 32 k ++ pre st) r (cursor st + Z.of_nat k).

Lemma spaces_from_refl st : spaces_from st st 0.
Proof. exists (post st). split; [reflexivity|]. destruct st. cbn. rewrite Z.add_0_r. reflexivity. Qed.

Lemma spaces_from_adv st st' k r :
  spaces_from st st' k -> post st' = 32 :: r -> spaces_from st (adv st' 32 r) (S k).
Proof.
  intros (r0 & H2 & ->) E. cbn in E. subst r0. exists r. split; [rewrite H2; apply repeat_shift|].
  unfold adv, set_zip. cbn [Z.eqb Pos.eqb]. simp_proj. f_equal. lia.
Qed.

Lemma spaces_from_len st st' k :
  spaces_from st st' k ->
  zlen (post st) = Z.of_nat k + zlen (post st') /\ zlen (pre st') = Z.of_nat k + zlen (pre st).
Proof. intros (r & H2 & ->). cbn. rewrite H2, !zlen_app, zlen_repeat. split; reflexivity. Qed.

Lemma consume_spaces_spec st : forall n k st1 (Q : list Z -> lstate -> Prop),
  (length (post st1) < n)%nat -> Inv src st1 -> spaces_from st st1 k ->
  (forall k' st', Inv src st' -> spaces_from st st' k' -> Q (repeat 32 k') st') ->
  wp (consume_spaces true n (repeat 32 k)) Q st1.
Proof.
  induction n as [|n IH]; intros k st1 Q Hn I SP HQ; [lia|].
  cbn [consume_spaces]. ws.
  destruct (post st1) as [|c r] eqn:E; ws; [apply HQ; assumption|].
  destruct (c =? 32) eqn:Ec; ws; [|apply HQ; assumption].
  apply Z.eqb_eq in Ec. subst c.
  replace (repeat 32 k ++ [32]) with (repeat 32 (S k)) by (cbn [repeat]; apply repeat_cons).
  apply IH; [fuel | apply Inv_adv; assumption | apply spaces_from_adv; assumption | assumption].
Qed.

(** the rewind of a dedent undoes the run of blanks; of the two states it needs only that the ghost position is the
    length of [pre] *)
Lemma rewind_spaces_gen st st' k :
  Z.min (cursor st) (len st) = zlen (pre st) -> Z.min (cursor st') (len st') = zlen (pre st') ->
  zlen (pre st) <= cursor st ->
  spaces_from st st' k -> rewind (Z.of_nat k) st' = Ok (tt, st).
Proof.
  intros G G' Hc (r & H2 & ->). unfold rewind. cbn [set_zip pre post cursor len] in *. pose proof (zlen_nonneg (pre st)) as Hp.
  replace (cursor st + Z.of_nat k <? Z.of_nat k) with false by (symmetry; apply Z.ltb_ge; lia).
  replace (cursor st + Z.of_nat k - Z.of_nat k) with (cursor st) by lia.
  rewrite G', G, zlen_app, zlen_repeat.
  replace (Z.of_nat k + zlen (pre st) - zlen (pre st)) with (Z.of_nat k) by lia. rewrite Nat2Z.id.
  rewrite skipn_app_exact, firstn_app_exact by apply repeat_length.
  rewrite rev_repeat, <- H2. destruct st. reflexivity.
Qed.

Lemma rewind_spaces st st' k :
  Inv src st -> Inv src st' -> spaces_from st st' k -> rewind (Z.of_nat k) st' = Ok (tt, st).
Proof. intros I I'. apply rewind_spaces_gen; [exact (ghost_eq _ I)|exact (ghost_eq _ I')|exact (inv_cur _ _ I)]. Qed.

Definition zsum (l : list Z) : Z := fold_right Z.add 0 l.
Lemma fold_indent_sum l : forall s v k, fst (fold_indent l s v k) = s + zsum l.
Proof. induction l as [|x l IH]; intros s v k; cbn [fold_indent fst]; [unfold zsum; cbn; lia|]. rewrite IH. unfold zsum. cbn [fold_right]. lia. Qed.
Lemma zsum_app a b : zsum (a ++ b) = zsum a + zsum b.
Proof. induction a as [|x a IH]; unfold zsum in *; cbn [app fold_right] in *; lia. Qed.
Lemma zsum_rev l : zsum (rev l) = zsum l.
Proof. induction l as [|x l IH]; [reflexivity|]. cbn [rev]. rewrite zsum_app, IH. unfold zsum; cbn [fold_right]. lia. Qed.
Lemma zsum_nonneg l : Forall (fun x => 0 <= x) l -> 0 <= zsum l.
Proof. induction 1; unfold zsum in *; cbn [fold_right] in *; lia. Qed.

Lemma pos_after_spaces st2 k p j :
  Inv src st2 -> pre st2 = repeat 32 k ++ p -> (j <= k)%nat ->
  pos_of src (zlen p + Z.of_nat j) = (1 + count_nl p, Z.of_nat j + since_nl p).
Proof.
  intros I E Hj.
  replace k with ((k - j) + j)%nat in E by lia. rewrite repeat_app, <- app_assoc in E.
  rewrite <- (inv_zip _ _ I), E, rev_app_distr, <- app_assoc.
  replace (zlen p + Z.of_nat j) with (zlen (repeat 32 j ++ p)) by (rewrite zlen_app, zlen_repeat; lia).
  rewrite pos_of_pre, count_nl_spaces, since_nl_spaces. reflexivity.
Qed.

Lemma Phi_lt st st' :
  prev_kind st <> EOF ->
  2 * zlen (post st') + zlen (indent_stack st') + 1 <= 2 * zlen (post st) + zlen (indent_stack st) ->
  Phi st' < Phi st.
Proof. intros H1 H2. unfold Phi. rewrite (flag_1 _ H1). pose proof (flag_le st'). lia. Qed.

Lemma Inv_pop_indent st x rest : Inv src st -> indent_stack st = x :: rest -> Inv src (set_indent st rest).
Proof.
  intros I ES. constructor; simp_proj; try apply I.
  pose proof (inv_indent _ _ I) as HI. rewrite ES in HI. inversion HI; assumption.
Qed.

Lemma Inv_push_indent st x : Inv src st -> 0 <= x -> Inv src (set_indent st (x :: indent_stack st)).
Proof. intros I Hx. constructor; simp_proj; try apply I. constructor; [exact Hx|apply I]. Qed.

Lemma item_post_intro st X it st' :
  prev_kind st <> EOF -> Inv src X -> same_core X st' -> prev_kind st' = tk_kind (item_token it) ->
  2 * zlen (post X) + zlen (indent_stack X) + 1 <= 2 * zlen (post st) + zlen (indent_stack st) ->
  zlen (pre st) <= zlen (pre X) ->
  match it with
  | ITok t => tok_ok st X t /\ indent_rel (tk_kind t) st X
  | IErr _ t => tk_kind t <> EOF
  end ->
  item_post st it st'.
Proof.
  intros PE I C K M P T. pose proof C as (C1 & C2 & _ & _ & _ & _ & _ & C8).
  split; [exact (Inv_core _ _ _ C I)|]. split; [apply Phi_lt; [assumption|]; rewrite <- C2, <- C8; exact M|].
  split; [exact K|]. split; [rewrite <- C1; exact P|].
  destruct it as [t|e t]; [|exact T]. unfold tok_ok in *. rewrite <- C1.
  destruct T as [T1 T2]. split; [exact T1|]. unfold indent_rel in *. rewrite <- C8. exact T2.
Qed.

(** what [next] yields without entering the big match [dispatch]: the tokens of the indentation logic and of the end
    of the input, and errors *)
Definition early (it : item) : Prop :=
  match it with
  | ITok t => tk_kind t = Indent \/ tk_kind t = Dedent \/ tk_kind t = Newline \/ tk_kind t = EOF
  | IErr _ _ => True
  end.

(** of the phases of [next] that come before the dispatch (blanks with the indentation logic, then comments): an
    [early] item, or nothing emitted *)
Definition sid_post (st : lstate) (r : option item) (st' : lstate) : Prop :=
  match r with
  | None => quiet src st st'
  | Some it => item_post st it st' /\ early it
  end.

Lemma lex_indent_dedent_spec st st2 k :
  Inv src st -> synced st -> prev_kind st <> EOF -> Inv src st2 -> spaces_from st st2 k ->
  wp (lex_indent_dedent (repeat 32 k)) (sid_post st) st2.
Proof.
  intros I SY PE I2 SP.
  destruct (spaces_from_len _ _ _ SP) as [HP HR].
  pose proof (rewind_spaces _ _ _ I I2 SP) as RW.
  pose proof (zlen_nonneg (post st2)) as Hnn.
  unfold lex_indent_dedent. rewrite zlen_repeat. unfold ghost_pos. ws.
  rewrite (ghost_eq _ I2), HR.
  destruct SP as (r & H2 & ->). cbn [post set_zip] in HP, Hnn. simp_proj.
  destruct (100 <? Z.of_nat k) eqn:E100.
  - apply Z.ltb_lt in E100.
    run_wp. cbn [sid_post]. split; [|cbn; auto].
    apply (item_post_intro _ _ _ _ PE I2); [repeat split | reflexivity | simp_proj; lia | simp_proj; rewrite zlen_app, zlen_repeat; lia | discriminate].
  - ws. simp_proj.
    destruct (fold_indent (rev (indent_stack st)) 0 false (Z.of_nat k)) as [sum valid] eqn:EF.
    assert (Hs : sum = zsum (indent_stack st)).
    { pose proof (fold_indent_sum (rev (indent_stack st)) 0 false (Z.of_nat k)) as Hf.
      rewrite EF, zsum_rev in Hf. cbn in Hf. lia. }
    pose proof (zsum_nonneg _ (inv_indent _ _ I)) as Hs0.
    destruct (sum <? Z.of_nat k) eqn:EL; [|destruct (Z.of_nat k <? sum) eqn:EG].
    + apply Z.ltb_lt in EL.
      run_wp. cbn [sid_post]. split; [|cbn; auto].
      pose proof (Inv_push_indent _ (Z.of_nat k - sum) I2 ltac:(lia)) as IP.
      apply (item_post_intro _ _ _ _ PE IP); [repeat split | reflexivity | simp_proj; rewrite zlen_cons; lia | simp_proj; rewrite zlen_app, zlen_repeat; lia |].
      split.
      * unfold tok_ok. simp_proj. rewrite zlen_app, zlen_repeat. split; [lia|].
        replace (Z.of_nat k + zlen (pre st) - (Z.of_nat k - sum)) with (zlen (pre st) + Z.of_nat (Z.to_nat sum)) by lia.
        rewrite (pos_after_spaces _ k (pre st) (Z.to_nat sum) I2 eq_refl) by lia.
        destruct SY as [S1 S2]. rewrite S1, S2. f_equal; lia.
      * simp_proj. eexists. reflexivity.
    + apply Z.ltb_lt in EG.
      unfold wp, bind. rewrite RW.
      destruct (indent_stack st) as [|x rest] eqn:ES; [cbn in Hs; lia|].
      pose proof (Inv_pop_indent _ _ _ I ES) as IT.
      run_wp. rewrite ES. cbn [tl]. run_wp.
      rewrite (ghost_eq _ I).
      destruct valid; cbn [sid_post]; (split; [|cbn; auto]);
        (apply (item_post_intro _ _ _ _ PE IT); [repeat split | reflexivity | simp_proj; rewrite ES, zlen_cons; lia | simp_proj; lia |]).
      * simp_proj. split; [|cbn [indent_rel]; simp_proj; rewrite ES; eexists; reflexivity].
        unfold tok_ok. simp_proj. split; [lia|]. apply (synced_pos _ I SY).
      * discriminate.
    + ws. cbn [sid_post]. split; [eapply Inv_core; [|exact I2]; repeat split|].
      simp_proj. repeat split. lia.
Qed.

Lemma lex_space_indent_dedent_spec st :
  Inv src st -> prev_kind st <> EOF ->
  wp (lex_space_indent_dedent true) (sid_post st) st.
Proof.
  intros I0 PE0. unfold lex_space_indent_dedent. apply wp_bind, wp_sync; [assumption|].
  intros ln cl SY. pose proof (Inv_line _ _ ln cl I0) as I.
  (* [sid_post] reads no field of its first argument that sync has set *)
  change (sid_post st) with (sid_post (set_col (set_lineno st ln) cl)).
  set (s := set_col (set_lineno st ln) cl) in *.
  assert (PE : prev_kind s <> EOF) by exact PE0.
  clearbody s. clear I0 PE0 st ln cl.
  unfold ghost_pos. ws. rewrite (ghost_eq _ I).
  match goal with |- wp (if ?c then _ else _) _ _ => destruct c eqn:C1 end.
  - destruct (indent_stack s) as [|x rest] eqn:ES.
    { cbn [negb] in C1. rewrite andb_false_r in C1. cbn in C1. discriminate. }
    pose proof (Inv_pop_indent _ _ _ I ES) as IT.
    run_wp. cbn [sid_post]. rewrite ES. cbn [tl]. split; [|cbn; auto].
    apply (item_post_intro _ _ _ _ PE IT); [repeat split | reflexivity | simp_proj; rewrite ES, zlen_cons; lia | simp_proj; lia |].
    simp_proj. split; [|cbn [indent_rel]; simp_proj; rewrite ES; eexists; reflexivity].
    unfold tok_ok. simp_proj. split; [lia|]. apply (synced_pos _ I SY).
  - match goal with |- wp (if ?c then _ else _) _ _ => destruct c eqn:C2 end.
    + apply andb_prop in C2 as [C2 _].
      destruct (post s) as [|c r] eqn:E; [discriminate|]. cbn in C2. apply Z.eqb_eq in C2. subst c.
      ws. pose proof (Inv_adv _ _ _ _ I E) as IA.
      run_wp. cbn [sid_post]. split; [|cbn; auto].
      apply (item_post_intro _ _ _ _ PE IA); autorewrite with st;
        [repeat split | reflexivity | rewrite E, zlen_cons; lia | rewrite zlen_cons; lia |].
      simp_proj. split; [|cbn [indent_rel]; autorewrite with st; reflexivity].
      unfold tok_ok. simp_proj. autorewrite with st. rewrite zlen_cons. split; [lia|]. apply (synced_pos _ I SY).
    + ws. change (@nil Z) with (repeat 32 0).
      apply consume_spaces_spec with (st := s); [fuel | assumption | apply spaces_from_refl |].
      intros k st' I' SP. ws.
      destruct (spaces_from_len _ _ _ SP) as [HP HR].
      match goal with |- wp (if ?c then _ else _) _ _ => destruct c eqn:C3 end.
      * destruct k as [|k]; [cbn in C3; discriminate|].
        destruct SP as (r0 & _ & ->). cbn [pre post set_zip] in HP, HR.
        run_wp. cbn [sid_post]. split; [|cbn; auto].
        apply (item_post_intro _ _ _ _ PE I'); [repeat split | reflexivity | simp_proj; lia | simp_proj; lia | discriminate].
      * match goal with |- wp (if ?c then _ else _) _ _ => destruct c eqn:C4 end.
        -- apply lex_indent_dedent_spec; assumption.
        -- destruct SP as (r0 & _ & ->). cbn [pre post set_zip] in HP, HR.
           ws. cbn [sid_post]. split; [eapply Inv_core; [|exact I']; repeat split|].
           simp_proj. repeat split. lia.
Qed.

(** inside a comment of the call of [next] made at [st0]: the # has been consumed *)
Definition in_comment (st0 st : lstate) : Prop :=
  Inv src st0 /\ prev_kind st0 <> EOF /\ quiet src st0 st /\ zlen (post st) < zlen (post st0).

Lemma in_comment_adv st0 st c r : in_comment st0 st -> post st = c :: r -> in_comment st0 (adv st c r).
Proof.
  intros (I0 & PE & G & L) E. split; [exact I0|]. split; [exact PE|]. split; [apply quiet_adv; assumption|].
  rewrite post_adv. rewrite E, zlen_cons in L. lia.
Qed.

Lemma pre_mono st st' : Inv src st -> Inv src st' -> zlen (post st') <= zlen (post st) -> zlen (pre st) <= zlen (pre st').
Proof. intros I I' H. pose proof (Inv_pre_le _ _ I). pose proof (Inv_pre_le _ _ I'). lia. Qed.

Lemma cm_emit_err st0 st s g e :
  in_comment st0 st ->
  wp (t <- emit_singleline_token Illegal s g;; ret (Some (IErr e t))) (sid_post st0) st.
Proof.
  intros (I0 & PE & (I & A & B & C) & L). run_wp. cbn [sid_post]. split; [|exact Logic.I].
  apply (item_post_intro _ st); [exact PE | exact I | repeat split | reflexivity | rewrite B; lia | apply pre_mono; assumption | discriminate].
Qed.

Lemma lex_comment_loop_spec st0 g : forall n s st,
  (length (post st) < n)%nat -> in_comment st0 st ->
  wp (lex_comment_loop true n s g) (sid_post st0) st.
Proof.
  induction n as [|n IH]; intros s st Hn G; [lia|].
  cbn [lex_comment_loop]. ws. assert (GN : sid_post st0 None st) by apply G.
  destruct (post st) as [|c r] eqn:E; ws.
  - exact GN.
  - destruct (c =? 10); ws; [exact GN|].
    destruct (is_bidi c); [apply cm_emit_err; assumption|].
    ws. apply IH; [fuel | apply in_comment_adv; assumption].
Qed.

Lemma in_comment_line st0 st l c : in_comment st0 st -> in_comment st0 (set_col (set_lineno st l) c).
Proof. intros (I0 & PE & G & L). split; [exact I0|]. split; [exact PE|]. split; [apply quiet_line; exact G|exact L]. Qed.

Lemma lex_multi_line_comment_loop_spec st0 g : forall n s nest st,
  (length (post st) < n)%nat -> in_comment st0 st ->
  wp (lex_multi_line_comment_loop true n s nest g) (sid_post st0) st.
Proof.
  induction n as [|n IH]; intros s nest st Hn G; [lia|].
  cbn [lex_multi_line_comment_loop]. ws.
  destruct (post st) as [|c r] eqn:E; ws; [apply cm_emit_err; assumption|].
  repeat (first [rewrite post_adv | wcase]; ws); try (apply cm_emit_err; assumption).
  all: try (apply IH; [fuel | apply in_comment_adv; [try apply in_comment_line; assumption | simp_proj; assumption]]).
  (* the closing ]# *)
  apply (in_comment_adv st0); [apply in_comment_adv; assumption | apply post_adv].
Qed.

Lemma is_bidi_35 : is_bidi 35 = false.
Proof. reflexivity. Qed.

(** the comment that follows the blanks of a call made at [st0] *)
Lemma comments_spec st0 st :
  Inv src st0 -> prev_kind st0 <> EOF -> quiet src st0 st ->
  wp (if opt_is (peek_cur_ch st) 35
      then if opt_is (peek_next_ch st) 91 then lex_multi_line_comment true else lex_comment true
      else ret None)
     (sid_post st0) st.
Proof.
  intros I0 PE G.
  destruct (opt_is (peek_cur_ch st) 35) eqn:E1; [|ws; exact G].
  unfold peek_cur_ch in E1. destruct (post st) as [|c r] eqn:E; [discriminate|].
  cbn in E1. apply Z.eqb_eq in E1. subst c.
  assert (GA : in_comment st0 (adv st 35 r)).
  { split; [exact I0|]. split; [exact PE|]. split; [apply quiet_adv; assumption|].
    destruct G as (_ & P & _). rewrite post_adv. rewrite E, zlen_cons in P. lia. }
  destruct (opt_is (peek_next_ch st) 91) eqn:E2.
  - unfold peek_next_ch in E2. rewrite E in E2. destruct r as [|d r']; [discriminate|].
    cbn in E2. apply Z.eqb_eq in E2. subst d.
    unfold lex_multi_line_comment, ghost_pos. ws. unfold fuel_of. rewrite E.
    set (m := length (35 :: 91 :: r')).
    cbn [lex_multi_line_comment_loop]. ws. cbn [Z.eqb Pos.eqb andb]. rewrite is_bidi_35. ws.
    apply lex_multi_line_comment_loop_spec; [subst m; fuel | exact GA].
  - unfold lex_comment, ghost_pos. ws. unfold fuel_of. rewrite E.
    set (m := length (35 :: r)).
    cbn [lex_comment_loop]. ws. cbn [Z.eqb Pos.eqb]. rewrite is_bidi_35. ws.
    apply lex_comment_loop_spec; [subst m; fuel | exact GA].
Qed.

Definition next_post (st : lstate) (s : step) (st' : lstate) : Prop :=
  match s with
  | SNone => prev_kind st = EOF
  | SAgain => prev_kind st <> EOF /\ Inv src st' /\ Phi st' < Phi st /\ prev_kind st' <> EOF /\
              indent_stack st' = indent_stack st /\ zlen (pre st) <= zlen (pre st')
  | SItem it => prev_kind st <> EOF /\ item_post st it st'
  end.

Lemma indent_rel_plain k st st' :
  k <> Indent -> k <> Dedent -> k <> EOF -> indent_stack st' = indent_stack st -> indent_rel k st st'.
Proof. intros A B C H. destruct k; try exact H; congruence. Qed.

Lemma step_to_next st s3 c r s st' :
  Inv src st -> prev_kind st <> EOF -> quiet src st s3 -> synced s3 -> post s3 = c :: r ->
  step_post src (adv s3 c r) (zlen (pre s3)) s st' -> next_post st s st'.
Proof.
  intros I PE (I3 & P3 & D3 & K3) SY E H.
  pose proof (Inv_adv _ _ _ _ I3 E) as I4. pose proof (pre_mono _ _ I I3 P3) as M3.
  rewrite E, zlen_cons in P3.
  destruct s as [|it|]; cbn [step_post next_post] in *; [contradiction| |]; (split; [assumption|]).
  - destruct H as ((I' & P' & D' & K' & T3 & T4 & T5) & NE).
    pose proof (pre_mono _ _ I4 I' P') as M4. autorewrite with st in *. rewrite zlen_cons in M4.
    split; [assumption|]. split; [apply Phi_lt; [assumption|]; rewrite D', D3; lia|].
    split; [assumption|]. split; [lia|].
    destruct it as [t|e t]; [|exact NE]. cbn [item_token] in *. destruct NE as (N1 & N2 & N3).
    split.
    + unfold tok_ok. rewrite T5, T3, T4. split; [lia | apply synced_pos; assumption].
    + apply indent_rel_plain; [assumption..|]. congruence.
  - destruct H as (I' & P' & D' & K').
    pose proof (pre_mono _ _ I4 I' P') as M4. autorewrite with st in *. rewrite zlen_cons in M4.
    split; [assumption|]. split; [apply Phi_lt; [assumption|]; rewrite D', D3; lia|].
    split; [congruence|]. split; [congruence|]. lia.
Qed.

(** One call of [next], for any postcondition: an [early] item, or the big match entered at a synced state with the
    character [c] consumed. A fact about a call made before EOF is an instance of this rule, as [next_spec] is. *)
Lemma next_phases st (Q : step -> lstate -> Prop) :
  Inv src st -> prev_kind st <> EOF ->
  (forall it st', item_post st it st' -> early it -> Q (SItem it) st') ->
  (forall s3 c r, quiet src st s3 -> synced s3 -> post s3 = c :: r ->
     wp (dispatch xs xc true true c (zlen (pre s3))) Q (adv s3 c r)) ->
  wp (next xs xc true true) Q st.
Proof.
  intros I PE HE HD. unfold next. ws.
  destruct (kind_eqb (prev_kind st) EOF) eqn:EK; [apply kind_eqb_eq in EK; contradiction|].
  apply wp_bind. eapply wp_mono; [apply lex_space_indent_dedent_spec; assumption|].
  intros r st1 H1. destruct r as [it|]; cbn [sid_post] in H1; [ws; apply HE; apply H1|].
  apply wp_bind. unfold peek_cur. apply wp_gets.
  apply wp_bind. unfold peek_next. apply wp_gets.
  apply wp_bind. eapply wp_mono; [apply (comments_spec st); assumption|].
  intros cm st2 QT. clear H1 st1.
  destruct cm as [it|]; [ws; apply HE; apply QT|]. cbn [sid_post] in QT.
  apply wp_bind, wp_sync; [apply QT|]. intros ln cl SY. apply (quiet_line _ _ _ ln cl) in QT.
  set (s3 := set_col (set_lineno st2 ln) cl) in *. clearbody s3. clear st2 ln cl.
  pose proof QT as (I3 & P3 & D3 & K3). pose proof (pre_mono _ _ I I3 P3) as M3.
  unfold ghost_pos. apply wp_bind, wp_gets. rewrite (ghost_eq _ I3).
  pose proof (synced_pos _ I3 SY) as HPOS.
  apply wp_bind, wp_consume.
  destruct (post s3) as [|c r] eqn:E; [|apply HD; assumption].
  pose proof (Inv_adv_eof _ _ I3 E) as IE. ws. autorewrite with st. rewrite D3.
  destruct (indent_stack st) as [|x rest] eqn:ES.
  - unfold accept. run_wp. apply HE; [|cbn; auto]. unfold item_post. simp_proj. autorewrite with st.
    split; [eapply Inv_core; [|exact IE]; repeat split|].
    split.
    { unfold Phi. rewrite (flag_1 _ PE). unfold flag. simp_proj. autorewrite with st. rewrite D3, ES.
      cbn [kind_eqb]. rewrite zlen_nil. pose proof (zlen_nonneg (post st)). lia. }
    split; [reflexivity|]. split; [lia|].
    split; [|cbn [indent_rel]; simp_proj; autorewrite with st; split; assumption].
    unfold tok_ok. simp_proj. autorewrite with st. split; [lia|]. exact HPOS.
  - ws.
    pose proof (Inv_pop_indent (adv_eof s3) x rest IE D3) as IT.
    run_wp. apply HE; [|cbn; auto].
    apply (item_post_intro _ _ _ _ PE IT); simp_proj; autorewrite with st;
      [repeat split | reflexivity | rewrite ES, zlen_nil, zlen_cons; pose proof (zlen_nonneg (post st)); lia | lia |].
    split; [|cbn [indent_rel]; simp_proj; rewrite ES; eexists; reflexivity].
    unfold tok_ok. simp_proj. autorewrite with st. split; [lia|]. exact HPOS.
Qed.

Lemma next_spec st : Inv src st -> wp (next xs xc true true) (next_post st) st.
Proof.
  intros I. destruct (eof_dec (prev_kind st)) as [E|PE].
  { unfold next. ws. rewrite E. cbn [kind_eqb]. ws. exact E. }
  apply next_phases; [exact I|exact PE|intros it st' H _; split; assumption|].
  intros s3 c r QT SY E.
  eapply wp_mono; [apply (dispatch_spec src) with (st0 := adv s3 c r); apply Good_refl, Inv_adv; [apply QT|exact E]|].
  intros stp st'. apply step_to_next; assumption.
Qed.

Lemma count_kind_cons k t ts :
  count_kind k (t :: ts) = (if kind_eqb (tk_kind t) k then 1 else 0) + count_kind k ts.
Proof. unfold count_kind. cbn [filter]. destruct (kind_eqb (tk_kind t) k); cbn [map]; rewrite ?zlen_cons; lia. Qed.

Lemma indent_rel_len k st st' :
  indent_rel k st st' ->
  zlen (indent_stack st') =
  zlen (indent_stack st) + (if kind_eqb k Indent then 1 else 0) - (if kind_eqb k Dedent then 1 else 0).
Proof.
  destruct k; cbn [indent_rel kind_eqb]; intros H; try (rewrite H; lia).
  - destruct H as [x ->]. rewrite zlen_cons. lia.
  - destruct H as [x ->]. rewrite zlen_cons. lia.
  - destruct H as [-> ->]. lia.
Qed.

Lemma Phi_nonneg st : 0 <= Phi st.
Proof. unfold Phi. pose proof (zlen_nonneg (post st)). pose proof (zlen_nonneg (indent_stack st)). pose proof (flag_le st). lia. Qed.

(** the run from a state of the invariant; its induction principle hands out [next_post] for every call *)
Definition yields (st : lstate) (l : list item) : Prop := Inv src st /\ emits xs xc st l.

Lemma yields_ind (P : lstate -> list item -> Prop) :
  (forall st, prev_kind st = EOF -> P st []) ->
  (forall st it st' more, next_post st (SItem it) st' -> yields st' more -> P st' more -> P st (it :: more)) ->
  (forall st st' more, next_post st SAgain st' -> yields st' more -> P st' more -> P st more) ->
  forall st more, yields st more -> P st more.
Proof.
  intros H0 H1 H2 st more [I S]. induction S as [st st' N|st it st' l N S IH|st st' l N S IH];
    pose proof (next_spec st I) as W; unfold wp in W; rewrite N in W.
  - apply H0. exact W.
  - assert (I' : Inv src st') by apply W. exact (H1 _ _ _ _ W (conj I' S) (IH I')).
  - assert (I' : Inv src st') by apply W. exact (H2 _ _ _ W (conj I' S) (IH I')).
Qed.

Lemma yields_Forall (P : item -> Prop) :
  (forall st it st', Inv src st -> next xs xc true true st = Ok (SItem it, st') -> P it) ->
  forall st l, yields st l -> Forall P l.
Proof.
  intros HP st l [I S]. induction S as [st st' N|st it st' l N S IH|st st' l N S IH]; [constructor|..];
    pose proof (next_spec st I) as W; unfold wp in W; rewrite N in W; destruct W as (_ & I' & _).
  - constructor; [exact (HP _ _ _ I N)|exact (IH I')].
  - exact (IH I').
Qed.

Lemma lex_loop_yields : forall n st acc,
  Inv src st -> Phi st < Z.of_nat n ->
  exists more, lex_loop xs xc true true n st acc = Ok (rev acc ++ more) /\ emits xs xc st more.
Proof.
  induction n as [|n IH]; intros st acc I HPhi; [pose proof (Phi_nonneg st); lia|].
  destruct (wp_elim _ _ _ (next_spec st I)) as (a & st' & EN & NP).
  cbn [lex_loop]. rewrite EN.
  destruct a as [|it|].
  - exists []. split; [rewrite app_nil_r; reflexivity | exact (emits_stop _ _ _ _ EN)].
  - pose proof NP as (_ & I' & PH & _).
    destruct (IH st' (it :: acc) I') as (more & EL & R); [lia|].
    exists (it :: more). split; [|exact (emits_item _ _ _ _ _ _ EN R)].
    rewrite EL. cbn [rev]. rewrite <- app_assoc. reflexivity.
  - pose proof NP as (_ & I' & PH & _).
    destruct (IH st' acc I') as (more & EL & R); [lia|].
    exists more. split; [exact EL | exact (emits_again _ _ _ _ _ EN R)].
Qed.

Lemma yields_at_eof st more : yields st more -> prev_kind st = EOF -> more = [].
Proof. induction 1 as [st0 _ | st0 it st' more' [PE _] _ _ | st0 st' more' [PE _] _ _] using yields_ind; intros E; [reflexivity | contradiction..]. Qed.

Lemma item_post_eof st it st' :
  item_post st it st' -> prev_kind st' = EOF -> exists t, it = ITok t /\ tk_kind t = EOF /\ indent_stack st = [].
Proof.
  intros (_ & _ & K & _ & T) E. rewrite K in E.
  destruct it as [t|e t]; [|contradiction]. cbn [item_token] in E. rewrite E in T.
  exists t. split; [reflexivity|]. split; [exact E | apply T].
Qed.

Lemma yields_ends_eof st more :
  yields st more -> prev_kind st <> EOF -> exists front t, more = front ++ [ITok t] /\ tk_kind t = EOF.
Proof.
  induction 1 as [st E | st it st' more [_ P] R IH | st st' more (_ & _ & _ & PE' & _) R IH] using yields_ind; intros PE.
  - contradiction.
  - destruct (eof_dec (prev_kind st')) as [E|NE].
    + destruct (item_post_eof _ _ _ P E) as (t & -> & KT & _). rewrite (yields_at_eof _ _ R E).
      exists [], t. split; [reflexivity | exact KT].
    + destruct (IH NE) as (front & t & -> & KT). exists (it :: front), t. split; [reflexivity | exact KT].
  - exact (IH PE').
Qed.

Lemma yields_balanced st more :
  yields st more -> errors_of more = [] -> prev_kind st <> EOF ->
  count_kind Indent (tokens_of more) + zlen (indent_stack st) = count_kind Dedent (tokens_of more).
Proof.
  induction 1 as [st E | st it st' more [_ P] R IH | st st' more (_ & _ & _ & PE' & D & _) R IH] using yields_ind; intros HE PE.
  - contradiction.
  - destruct it as [t|e t]; [|discriminate HE].
    change (tokens_of (ITok t :: more)) with (t :: tokens_of more). rewrite !count_kind_cons.
    destruct (eof_dec (prev_kind st')) as [E|NE].
    + destruct (item_post_eof _ _ _ P E) as (t' & [= <-] & KT & ES).
      rewrite (yields_at_eof _ _ R E), KT, ES. reflexivity.
    + destruct P as (_ & _ & _ & _ & _ & T). pose proof (indent_rel_len _ _ _ T). specialize (IH HE NE). lia.
  - rewrite <- D. exact (IH HE PE').
Qed.

Lemma tokens_of_app a b : tokens_of (a ++ b) = tokens_of a ++ tokens_of b.
Proof. unfold tokens_of. apply flat_map_app. Qed.

Lemma yields_eof_or_error st items :
  yields st items -> prev_kind st <> EOF -> indent_stack st = [] -> eof_or_error items.
Proof.
  intros R PE ES. destruct (yields_ends_eof _ _ R PE) as (front & t & -> & KT).
  unfold eof_or_error.
  destruct (errors_of (front ++ [ITok t])) eqn:EE; [left|right; discriminate].
  pose proof (yields_balanced _ _ R EE PE) as B. rewrite ES, zlen_nil in B.
  unfold ends_with_eof_balanced. rewrite tokens_of_app in *. cbn [tokens_of flat_map app] in *.
  rewrite rev_app_distr. cbn [rev app]. rewrite KT. cbn [kind_eqb andb].
  apply Z.eqb_eq. lia.
Qed.

Definition placed (lo : Z) (t : token) : Prop :=
  lo <= tk_start t <= zlen src /\ (tk_line t, tk_col t) = pos_of src (tk_start t).

Lemma placed_le lo lo' t : lo <= lo' -> placed lo' t -> placed lo t.
Proof. intros H [A B]. split; [lia | exact B]. Qed.

Lemma sorted_cons lo t ts :
  tk_start t <= lo -> Forall (placed lo) ts -> sorted_starts ts -> sorted_starts (t :: ts).
Proof. intros H F S. cbn [sorted_starts]. split; [|exact S]. destruct F as [|u r [[A _] _] _]; [exact I | lia]. Qed.

Lemma yields_positions st more :
  yields st more -> Forall (placed (zlen (pre st))) (tokens_of more) /\ sorted_starts (tokens_of more).
Proof.
  induction 1 as [st E | st it st' more [_ P] R [IH1 IH2] | st st' more (_ & _ & _ & _ & _ & M) R [IH1 IH2]] using yields_ind.
  - split; [constructor | exact I].
  - destruct P as (I' & _ & _ & M & T).
    assert (F : Forall (placed (zlen (pre st))) (tokens_of more)).
    { eapply Forall_impl; [|exact IH1]. intros u. apply placed_le. exact M. }
    destruct it as [t|e t]; [|split; assumption].
    change (tokens_of (ITok t :: more)) with (t :: tokens_of more).
    destruct T as [[T1 T2] _]. pose proof (Inv_pre_le _ _ I'). pose proof (zlen_nonneg (post st')).
    split; [constructor; [split; [lia | exact T2] | exact F] | apply (sorted_cons (zlen (pre st'))); [lia | assumption..]].
  - split; [|exact IH2]. eapply Forall_impl; [|exact IH1]. intros u. apply placed_le. exact M.
Qed.
End N.

Section Final.
Variable xs xc : Z -> bool.

Lemma lex_ok (src : list Z) :
  exists items, lex xs xc true true src = Ok items /\
                yields (normalize_newline src) xs xc (init (normalize_newline src)) items.
Proof.
  unfold lex. set (s := normalize_newline src). pose proof (Inv_init s s eq_refl) as I.
  destruct (lex_loop_yields s xs xc (lex_fuel s) (init s) [] I) as (items & E & R); [|exists items; split; [exact E|split; [exact I|exact R]]].
  unfold Phi, flag, lex_fuel, init. cbn [post indent_stack prev_kind kind_eqb]. unfold zlen. cbn [length]. lia.
Qed.

Lemma lex_pos_faithful_lemma (src : list Z) items :
  lex xs xc true true src = Ok items -> pos_faithful (normalize_newline src) items.
Proof.
  intros E. destruct (lex_ok src) as (items' & E' & R). rewrite E in E'. injection E' as <-.
  destruct (yields_positions _ _ _ _ _ R) as [F S]. split; [|exact S].
  exact (proj1 (Forall_forall _ _) F).
Qed.
End Final.
