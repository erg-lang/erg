(** * The bytes of C13: the opcodes the code generator model writes for a target exist in that target
    ([compile_v_emits]); the checks over the finite tables gen/Opcodes.v and gen/CPython.v: [num_agree] and [static_agree] are
    evaluated here ([numbers_agree_all], [static_agree_all], read entry by entry with [table_entry]), [decode_agree] and
    [src_listed] are defined here and evaluated in Props_C13.v. *)
From Coq Require Import ZArith NArith List Bool String.
From ErgV Require Import Common.Sx CoreErg.Syntax CoreErg.Codegen.
From ErgV Require Import gen.Opcodes gen.CPython Versions.Model Versions.Spec.
Import ListNotations.
Close Scope string_scope.
Close Scope N_scope.
Open Scope list_scope.
Open Scope Z_scope.

Section Emits.
  Variable v : pyver.
  Definition ok_unit (u : vunit) : Prop := emits v (fst u) = true.
  Definition ok_code (c : list vunit) : Prop := Forall ok_unit c.

  (* what an emitter returns, if it returns, is made of opcodes of [emits v]; [code] selects the code of the result *)
  Definition ok_emit {A} (code : A -> list vunit) (r : cres A) : Prop :=
    match r with COk a => ok_code (code a) | CPanic _ => True end.

  Lemma ok_bind : forall A B (ca : A -> list vunit) (cb : B -> list vunit) (r : cres A) (f : A -> cres B),
    ok_emit ca r -> (forall a, ok_code (ca a) -> ok_emit cb (f a)) -> ok_emit cb (cbind r f).
  Proof. intros A B ca cb [a|site] f Hr Hf; [exact (Hf a Hr)|exact I]. Qed.

  Lemma ok_app : forall a b, ok_code a -> ok_code b -> ok_code (a ++ b).
  Proof. intros. apply Forall_app; split; assumption. Qed.

  Lemma write_op_v_ok : forall op arg, emits v op = true -> ok_emit id (write_op_v op arg).
  Proof.
    intros op arg He. unfold write_op_v.
    destruct (arg <? 256); [repeat constructor; exact He|].
    destruct (arg <? 65536); [repeat constructor; exact He|].
    destruct (arg <? 4294967296); [|exact I].
    repeat constructor; exact He.
  Qed.

  Lemma write_arg_ok : forall op i (q : pools), emits v op = true ->
    ok_emit fst (cbind (write_op_v op i) (fun co => COk (co, q))).
  Proof. intros op i q He. eapply ok_bind; [exact (write_op_v_ok op i He)|]. intros co Hco. exact Hco. Qed.

  Lemma load_const_ok : forall p c, ok_emit fst (emit_load_const_v p c).
  Proof.
    intros p c. unfold emit_load_const_v. destruct (register_const const_same p c) as [i q].
    exact (write_arg_ok X_LOAD_CONST i q eq_refl).
  Qed.
  Lemma load_name_ok : forall p n, ok_emit fst (emit_load_name_v p n).
  Proof.
    intros p n. unfold emit_load_name_v. destruct (register_name p n) as [i q].
    exact (write_arg_ok X_LOAD_NAME i q eq_refl).
  Qed.
  Lemma store_name_ok : forall p n, ok_emit fst (emit_store_name_v p n).
  Proof.
    intros p n. unfold emit_store_name_v. destruct (register_name p n) as [i q].
    exact (write_arg_ok X_STORE_NAME i q eq_refl).
  Qed.
  Lemma push_null_ok : ok_code (emit_push_null_v v).
  Proof. unfold emit_push_null_v. destruct (is311 v) eqn:E; repeat constructor. exact E. Qed.

  Lemma call_ok : forall argc, ok_emit id (emit_call_v v argc).
  Proof.
    intros argc. unfold emit_call_v. destruct (is311 v) eqn:E.
    - eapply ok_bind; [exact (write_op_v_ok X_PRECALL argc E)|]. intros c1 H1.
      eapply ok_bind; [exact (write_op_v_ok X_CALL argc E)|]. intros c2 H2.
      apply ok_app; [exact H1|]. constructor; [exact E|].
      apply ok_app; [exact H2|]. repeat constructor; exact E.
    - apply write_op_v_ok. cbn. rewrite E. reflexivity.
  Qed.

  Lemma arith_ok : forall op, ok_emit id (emit_arith_v v op).
  Proof.
    intros op. unfold emit_arith_v. destruct (is311 v) eqn:E.
    - eapply ok_bind; [exact (write_op_v_ok X_BINARY_OP _ E)|]. intros co Hco.
      apply ok_app; [exact Hco|]. repeat constructor. exact E.
    - repeat constructor. unfold ok_unit. cbn [fst]. destruct op; cbn; rewrite E; reflexivity.
  Qed.

  Lemma cmp_ok : forall op, ok_emit id (emit_cmp_v v op).
  Proof.
    intros op. unfold emit_cmp_v. eapply ok_bind; [exact (write_op_v_ok X_COMPARE_OP _ eq_refl)|]. intros co Hco.
    apply ok_app; [exact Hco|]. destruct (is311 v) eqn:E; repeat constructor; exact E.
  Qed.

  Lemma wrapped_ok : forall w base p body,
    (forall b0 p0, ok_emit fst (body b0 p0)) -> ok_emit fst (emit_wrapped_v v w base p body).
  Proof.
    intros w base p body Hb. unfold emit_wrapped_v. destruct (is_wrapped w); [|apply Hb].
    eapply ok_bind; [apply load_name_ok|]. intros cl Hl.
    eapply ok_bind; [apply Hb|]. intros cb Hcb.
    eapply ok_bind; [apply call_ok|]. intros cc Hcc.
    apply ok_app; [apply ok_app; [apply push_null_ok|exact Hl]|]. apply ok_app; [exact Hcb|exact Hcc].
  Qed.

  Lemma expr_ok : forall e base p, ok_emit fst (emit_expr_v v base p e).
  Proof.
    induction e using expr_ind'; intros base p; cbn [emit_expr_v]; apply wrapped_ok; intros b0 p0; try exact I.
    - apply load_const_ok.
    - apply load_name_ok.
    - eapply ok_bind; [apply IHe|]. intros ca Ha.
      apply ok_app; [exact Ha|]. repeat constructor. unfold ok_unit. destruct o; reflexivity.
    - eapply ok_bind; [apply IHe1|]. intros ca Ha. eapply ok_bind; [apply IHe2|]. intros cb Hb.
      eapply ok_bind; [apply arith_ok|]. intros co Ho.
      apply ok_app; [exact Ha|]. apply ok_app; [exact Hb|exact Ho].
    - eapply ok_bind; [apply IHe1|]. intros ca Ha. eapply ok_bind; [apply IHe2|]. intros cb Hb.
      eapply ok_bind; [apply cmp_ok|]. intros co Ho.
      apply ok_app; [exact Ha|]. apply ok_app; [exact Hb|exact Ho].
    - eapply ok_bind; [apply IHe1|]. intros ca Ha. eapply ok_bind; [apply IHe2|]. intros cb Hb.
      destruct (_ <? 65536); [|exact I].
      apply ok_app; [exact Ha|]. constructor; [reflexivity|].
      constructor; [unfold ok_unit; destruct k; reflexivity|exact Hb].
  Qed.

  Lemma args_ok : forall es base p, ok_emit fst (emit_args_v v base p es).
  Proof.
    induction es as [|e es IH]; intros base p; cbn [emit_args_v]; [constructor|].
    eapply ok_bind; [apply expr_ok|]. intros ce He. eapply ok_bind; [apply IH|]. intros cr Hr.
    apply ok_app; [exact He|exact Hr].
  Qed.

  Lemma chunk_ok : forall s base p, ok_emit fst (emit_chunk_v v base p s).
  Proof.
    intros s base p. destruct s; cbn [emit_chunk_v]; try exact I.
    - eapply ok_bind; [apply load_name_ok|]. intros cl Hl.
      eapply ok_bind; [apply args_ok|]. intros ca Ha.
      eapply ok_bind; [apply call_ok|]. intros cc Hcc.
      apply ok_app; [apply ok_app; [apply push_null_ok|exact Hl]|]. apply ok_app; [exact Ha|exact Hcc].
    - eapply ok_bind; [apply expr_ok|]. intros ce He. eapply ok_bind; [apply store_name_ok|]. intros cs Hs.
      apply ok_app; [exact He|exact Hs].
  Qed.

  Lemma stmts_ok : forall ss base p, ok_emit fst (emit_stmts_v v base p ss).
  Proof.
    induction ss as [|s ss IH]; intros base p; cbn [emit_stmts_v]; [constructor|].
    eapply ok_bind; [apply chunk_ok|]. intros cs Hs. eapply ok_bind; [apply IH|]. intros cr Hr.
    apply ok_app; [|exact Hr]. apply ok_app; [exact Hs|]. destruct (leaves_value s); repeat constructor.
  Qed.

  Lemma ok_removelast : forall c, ok_code c -> ok_code (removelast c).
  Proof.
    induction c as [|u c IH]; intros H; [constructor|]. inversion H; subst. cbn [removelast].
    destruct c; [constructor|]. constructor; [assumption|apply IH; assumption].
  Qed.

  Lemma compile_v_ok : forall pre_len pre prog, ok_emit fst (compile_v v pre_len pre prog).
  Proof.
    intros pre_len pre prog. unfold compile_v. eapply ok_bind; [apply stmts_ok|]. intros [c0 p0] H0. cbn [fst] in H0.
    destruct (ends_with_pop_v c0).
    - apply ok_app; [apply ok_removelast; exact H0|]. repeat constructor.
    - eapply ok_bind; [apply load_const_ok|]. intros cn Hn.
      apply ok_app; [exact H0|]. apply ok_app; [exact Hn|]. repeat constructor.
  Qed.

  Lemma compile_v_emits : forall pre_len pre prog code P,
    compile_v v pre_len pre prog = COk (code, P) -> Forall (fun u => emits v (fst u) = true) code.
  Proof. intros pre_len pre prog code P H. pose proof (compile_v_ok pre_len pre prog) as Hok. rewrite H in Hok. exact Hok. Qed.
End Emits.

(** ** the tables: every opcode in [emits v] has, in the erg table codegen.rs takes it from, the number CPython v gives it *)
Definition num_agree (v : pyver) (o : vop) : bool :=
  negb (emits v o) ||
  match erg_num v o, cpy_num v o with
  | Some a, Some b => a =? b
  | _, _ => false
  end.

Lemma numbers_agree_all : forallb (fun v => forallb (num_agree v) all_vops) all_versions = true.
Proof. vm_compute. reflexivity. Qed.

Lemma all_vops_complete : forall o, In o all_vops.
Proof. destruct o; cbn; tauto. Qed.
Lemma all_versions_complete : forall v, In v all_versions.
Proof. destruct v; cbn; tauto. Qed.

Lemma table_entry : forall f : pyver -> vop -> bool,
  forallb (fun v => forallb (f v) all_vops) all_versions = true -> forall v o, f v o = true.
Proof.
  intros f H v o. rewrite forallb_forall in H. specialize (H v (all_versions_complete v)).
  rewrite forallb_forall in H. exact (H o (all_vops_complete o)).
Qed.

Definition static_agree (v : pyver) (o : vop) : bool :=
  negb (emits v o) || match erg_num v o with Some n => n =? op_byte_static v o | None => false end.

Lemma static_agree_all : forallb (fun v => forallb (static_agree v) all_vops) all_versions = true.
Proof. vm_compute. reflexivity. Qed.

(** the names are distinct per version, so the number determines the instruction: CPython v decodes the byte erg wrote
    as the instruction the model means *)
Definition decode_cpy (v : pyver) (n : Z) : option vop :=
  find (fun o => match cpy_num v o with Some m => m =? n | None => false end) all_vops.

Definition decode_agree (v : pyver) (o : vop) : bool :=
  negb (emits v o) ||
  match erg_num v o with
  | Some n => match decode_cpy v n with Some o' => String.eqb (op_name o') (op_name o) | None => false end
  | None => false
  end.

(** the transcription of "which table" is the one codegen.rs uses: every (version, table, name) is a mention that the
    translator of C16 found reachable for that version in codegen.rs *)
Definition src_listed (v : pyver) (o : vop) : bool :=
  negb (emits v o) ||
  match op_src v o with
  | TRawZero => existsb (fun r => N.eqb (fst r) (Z.to_N (minor v)) && N.eqb (snd r) 0%N) erg_emitted_raw
  | t => existsb (fun r => N.eqb (fst (fst r)) (Z.to_N (minor v)) && N.eqb (snd (fst r)) (table_id t) && String.eqb (snd r) (op_name o))
                 erg_emitted
  end.
