(** * Property C13 — every supported Python target runs the program identically.

    Full statement (for the real compiler and interpreters): for every program p erg accepts and every supported target
    v in {3.7, 3.8, 3.9, 3.10, 3.11}, the bytecode `erg --py-command <python v> compile p` produces loads under
    interpreter v and prints the same lines / ends with the same status as the bytecode for the default target does
    under the default interpreter; and `erg --py-command P run p` executes the bytecode with P.

    What is proved here (level: proof, PARTIAL).
    (1) For the *model* of the version branches of codegen.rs ([compile_v], Versions/Model.v) executed by the model of
        the matching CPython evaluation loop ([exec_v]): for ALL FIVE targets, for the expression/statement fragment of
        CoreErg/Codegen.v (literals of every kind and value, variables, unary and binary arithmetic, comparisons,
        short-circuit and/or, not, definitions, print!; any expression depth, any program length), the bytecode for v
        run by machine v yields exactly the program's meaning [Sem.run] — hence the same for every pair of targets
        ([all_targets_agree_partial], [every_target_like_default_partial]).  Covered version differences: argument-less
        BINARY_x vs BINARY_OP + cache, COMPARE_OP with/without cache entries, CALL_FUNCTION vs PUSH_NULL/PRECALL/CALL,
        jump arguments absolute-in-bytes (<= 3.9) / absolute-in-instructions (3.10) / relative (3.11), EXTENDED_ARG.
        MISSING (tied to the real compiler only by the differential run of checks/c13.py over all targets): control
        flow (if/for!/while!), functions, procedures, lambdas, lists, patterns, classes, imports, with!, the prelude
        (its length and pools are inputs), marshalling (C15), the line table and stack size (C14).
        Hypotheses: the code generator model does not stop ([COk]; excludes the known class [known_far_jump]);
        [prog_wraps_ok]: values passed to the runtime classes fit them (decidable: [wraps_checked] of C01);
        enough fuel for the evaluator (irrelevant in the fragment).
    (2) The bytes: every opcode the model writes for target v exists in v ([compile_v_emits_target_instructions]) and
        the number erg's table gives it is the number CPython v's dis.opmap gives it, so interpreter v decodes it as the
        instruction the model means ([emitted_numbers_are_cpythons], [emitted_bytes_decode]); the table erg takes each
        number from is the one the translator found in codegen.rs ([table_sources_match_codegen]).  Finite tables
        (gen/Opcodes.v, gen/CPython.v: regenerated from opcode*.rs / codegen.rs / the installed interpreters).
        [default_target_is_c01_model]: at 3.11 the version-indexed model is, unit by unit, the model of property C01.
    (3) Interpreter selection: [run_uses_selected_interpreter]; the code before the repair is refuted
        ([run_uses_selected_interpreter_nofix_refuted]): with --py-command python3.8 it compiles for 3.8 and runs
        the default interpreter. *)
From Coq Require Import ZArith NArith List Bool.
From ErgV Require Import Common.Sx CoreErg.Syntax CoreErg.Sem CoreErg.Codegen CoreErg.VM CoreErg.Spec_C01 CoreErg.Proofs_C01.
From ErgV Require Import gen.Opcodes gen.CPython Versions.Model Versions.Spec Versions.Proofs Versions.ProofsTab Versions.ProofsC01.
Import ListNotations.
Close Scope string_scope.
Close Scope N_scope.
Open Scope list_scope.
Open Scope Z_scope.

(** expressions of any depth, any literal values, every target: the code emitted at position [base] pushes the value
    of the expression, or halts with the exception it raises *)
Theorem compile_v_expr_correct : forall v e, in_frag e = true ->
  forall base p code p', emit_expr_v v base p e = COk (code, p') ->
  forall P, extends p' P -> forall st, vext st = 0 -> wraps_ok (venv st) e ->
    match eval0 (venv st) e with
    | Ok x => run_v v (p_consts P) (p_names P) code base 0 st = Reached 0 (with_stack st (SV x :: stack st))
    | Raise ex => run_v v (p_consts P) (p_names P) code base 0 st = Halted (rev (vout st), Some (Uncaught ex))
    | OutOfFuel => True
    end.
Proof.
  intros v e Hf base p code p' H P HP st Hx Hw.
  destruct (emitted_ok _ _ _ (emit_expr_v_correct v e base p) _ _ H) as [_ Hc].
  exact (does_at_state v P code base st _ Hx (Hc P (venv st) HP Hw)).
Qed.

(** per version: the module compiled for target v, run by interpreter v, prints what the program means and ends the
    same way *)
Theorem compile_v_correct : forall v pre_len pre prog code P fuel,
  forallb stmt_in_frag prog = true ->
  compile_v v pre_len pre prog = COk (code, P) ->
  prog_wraps_ok [] prog ->
  snd (run fuel prog) <> FuelOut ->
  exec_v v (p_consts P) (p_names P) pre_len code = (fst (run fuel prog), Some (snd (run fuel prog))).
Proof. exact compile_v_module_correct. Qed.

(** FULL statement wanted: forall v w p (any accepted program), behaviour_v p = behaviour_w p.
    PARTIAL: programs of the modelled fragment (see the header for what is missing). *)
Theorem all_targets_agree_partial : forall v w prog fuel lv prev codev Pv lw prew codew Pw,
  forallb stmt_in_frag prog = true ->
  compile_v v lv prev prog = COk (codev, Pv) ->
  compile_v w lw prew prog = COk (codew, Pw) ->
  prog_wraps_ok [] prog ->
  snd (run fuel prog) <> FuelOut ->
  exec_v v (p_consts Pv) (p_names Pv) lv codev = exec_v w (p_consts Pw) (p_names Pw) lw codew.
Proof.
  intros v w prog fuel lv prev codev Pv lw prew codew Pw Hf Hv Hw Hwr Hfu.
  rewrite (compile_v_module_correct v lv prev prog codev Pv fuel Hf Hv Hwr Hfu).
  rewrite (compile_v_module_correct w lw prew prog codew Pw fuel Hf Hw Hwr Hfu). reflexivity.
Qed.

(** the property's wording: every target behaves exactly as the default target (3.11) *)
Theorem every_target_like_default_partial : forall v prog fuel lv prev codev Pv ld pred coded Pd,
  forallb stmt_in_frag prog = true ->
  compile_v v lv prev prog = COk (codev, Pv) ->
  compile_v default_target ld pred prog = COk (coded, Pd) ->
  prog_wraps_ok [] prog ->
  snd (run fuel prog) <> FuelOut ->
  exec_v v (p_consts Pv) (p_names Pv) lv codev = exec_v default_target (p_consts Pd) (p_names Pd) ld coded.
Proof. intros v. exact (all_targets_agree_partial v default_target). Qed.

(** "the default target" is the object of property C01: at 3.11 the version-indexed model of the code generator is, unit by
    unit, the model CoreErg/Codegen.v that C01's theorems and C01's bytecode tie are about ([inj] renames the opcodes) *)
Theorem default_target_is_c01_model : forall pre_len pre prog,
  compile_v default_target pre_len pre prog = injr (compile pre prog).
Proof. exact compile_311_is_c01. Qed.

(** the model writes only instructions the target has *)
Theorem compile_v_emits_target_instructions : forall v pre_len pre prog code P,
  compile_v v pre_len pre prog = COk (code, P) -> Forall (fun u => emits v (fst u) = true /\ has_op v (fst u) = true) code.
Proof.
  intros v pre_len pre prog code P H. pose proof (compile_v_emits v pre_len pre prog code P H) as Hc.
  eapply Forall_impl; [|exact Hc]. intros [o a] He. cbn [fst] in *. split; [exact He|].
  unfold emits in He. destruct o; try exact He; discriminate.
Qed.

(** ... and erg's number for each of them is CPython's number for that name in that version
    (bound: 5 versions x 28 opcodes, by computation over the regenerated tables) *)
Theorem emitted_numbers_are_cpythons : forall v o, emits v o = true ->
  exists n, erg_num v o = Some n /\ cpy_num v o = Some n.
Proof.
  intros v o He. pose proof (table_entry num_agree numbers_agree_all v o) as H.
  unfold num_agree in H. rewrite He in H. cbn [negb orb] in H.
  destruct (erg_num v o) as [a|]; [|discriminate]. destruct (cpy_num v o) as [b|]; [|discriminate].
  apply Z.eqb_eq in H. subst. exists b. split; reflexivity.
Qed.

(** the static copy of the numbers used by the extracted model (Spec.op_byte_static) is erg's table *)
Theorem static_bytes_are_ergs : forall v o, emits v o = true -> erg_num v o = Some (op_byte_static v o).
Proof.
  intros v o He. pose proof (table_entry static_agree static_agree_all v o) as H.
  unfold static_agree in H. rewrite He in H. cbn [negb orb] in H.
  destruct (erg_num v o) as [a|]; [|discriminate]. apply Z.eqb_eq in H. subst. reflexivity.
Qed.

(** ... so interpreter v decodes the byte as the instruction the model means *)
Theorem emitted_bytes_decode :
  forallb (fun v => forallb (decode_agree v) all_vops) all_versions = true.
Proof. vm_compute. reflexivity. Qed.

(** the transcription of which erg table each number is taken from ([op_src]) agrees with codegen.rs as read by the
    translator (gen/Opcodes.v erg_emitted / erg_emitted_raw) *)
Theorem table_sources_match_codegen :
  forallb (fun v => forallb (src_listed v) all_vops) all_versions = true.
Proof. vm_compute. reflexivity. Qed.

(** interpreter selection: the command that executes the bytecode is the configured one (or the default interpreter
    when none is configured), hence it is of the version the bytecode was generated for *)
Theorem run_uses_selected_interpreter : forall which_python version_of cfg,
  run_command which_python cfg = selected which_python cfg /\
  version_of (run_command which_python cfg) = compile_target which_python version_of cfg.
Proof. intros which_python version_of [c]. split; reflexivity. Qed.

(** before the repair (exec_pyc_code called exec_pyc(.., None, ..)): `erg --py-command python3.8 run f.er` generates
    code for 3.8 and executes it with the default interpreter (3.11) *)
Definition cmd_python3 : command := [112; 121; 116; 104; 111; 110; 51].                    (* "python3" *)
Definition cmd_python38 : command := [112; 121; 116; 104; 111; 110; 51; 46; 56].           (* "python3.8" *)
Definition example_version_of (c : command) : option pyver :=
  if zs_eqb c cmd_python3 then Some V311 else if zs_eqb c cmd_python38 then Some V308 else None.

Theorem run_uses_selected_interpreter_nofix_refuted : exists which_python version_of cfg,
  run_command_nofix which_python cfg <> selected which_python cfg /\
  version_of (run_command_nofix which_python cfg) <> compile_target which_python version_of cfg.
Proof.
  exists cmd_python3, example_version_of, (mkCfg (Some cmd_python38)).
  split; vm_compute; discriminate.
Qed.

Example selection_example :
  run_command cmd_python3 (mkCfg (Some cmd_python38)) = cmd_python38 /\
  compile_target cmd_python3 example_version_of (mkCfg (Some cmd_python38)) = Some V308 /\
  run_command cmd_python3 (mkCfg None) = cmd_python3.
Proof. repeat split. Qed.

(** ** non-vacuity: a program with a natural >= 2^63, signed zeros, nested short-circuit operators (whose jump targets are
    absolute for 3.7-3.10), a comparison chain and a run-time error, compiled after a prelude of realistic length for all
    five targets: every hypothesis holds, the code for 3.9, 3.10 and 3.11 differs, the five behaviours are the program's meaning *)
Definition example_program : program :=
  [ SDef 1 None (ELit WNat (LNat 9223372036854775808));
    SDef 2 None (EBin WInt OSub (EVar WNat 1) (ELit WNat (LNat 18446744073709551615)));
    SPrint [EVar WNat 1; EVar WInt 2; ELit WInt (LNeg (-1)); ELit WFloat (LFloat 0); ELit WFloat (LFloat sign_bit)];
    SPrint [ELogic WBool true (ECmp WNone CLt (EVar WInt 2) (ELit WNat (LNat 0)))
                              (ELogic WBool false (ELit WBool (LBool true)) (ELit WBool (LBool false)));
            ELogic WBool false (ELogic WBool true (ELit WBool (LBool false)) (ECmp WNone CGe (EVar WNat 1) (ELit WNat (LNat 3))))
                               (EUn WBool UNot (ELit WBool (LBool false)));
            EBin WFloat ODiv (ELit WNat (LNat 7)) (ELit WNat (LNat 2)); ELit WStr (LStr [34; 233; 128512])];
    SPrint [EBin WNat OFloorDiv (EVar WNat 1) (ELit WNat (LNat 0))];
    SPrint [ELit WNat (LNat 1)] ].

Definition example_pre : pools := mkPools [CInt 0; COpaque 1] [NPre 0; NPre 1; NPre 2].
Definition example_pre_len (v : pyver) : Z := if is311 v then 70 else 62.

Definition behaves_as_meant (v : pyver) : bool :=
  match exec_target v (example_pre_len v) example_pre example_program with
  | Some (out, Some st) =>
    zss_eqb out (fst (run 1 example_program)) &&
    match st, snd (run 1 example_program) with
    | Uncaught a, Uncaught b => exn_code a =? exn_code b
    | Exit0, Exit0 => true
    | _, _ => false
    end
  | _ => false
  end.

Definition code_of (v : pyver) : list (Z * Z) :=
  match compile_v v (example_pre_len v) example_pre example_program with
  | COk (code, _) => map (fun u => (match erg_num v (fst u) with Some n => n | None => -1 end, snd u)) code
  | CPanic _ => []
  end.

Fixpoint zz_eqb (a b : list (Z * Z)) : bool :=
  match a, b with
  | [], [] => true
  | (x, y) :: r, (x', y') :: s => (x =? x') && (y =? y') && zz_eqb r s
  | _, _ => false
  end.

Example example_meets_hypotheses :
  forallb stmt_in_frag example_program = true /\
  prog_wraps_okb [] example_program = true /\
  snd (run 1 example_program) = Uncaught ZeroDivisionError /\
  List.length (fst (run 1 example_program)) = 2%nat /\
  forallb behaves_as_meant all_versions = true /\
  (* 3.7 = 3.8 = 3.9 as bytes; 3.9 / 3.10 / 3.11 pairwise different *)
  zz_eqb (code_of V307) (code_of V308) = true /\ zz_eqb (code_of V308) (code_of V309) = true /\
  zz_eqb (code_of V309) (code_of V310) = false /\ zz_eqb (code_of V310) (code_of V311) = false.
(* [repeat split] would close each equation by [eq_refl], i.e. by the kernel's default conversion *)
Proof.
  (* what the program means is worked out once, for all versions, and not inside each [behaves_as_meant v] *)
  unfold behaves_as_meant. set (r := run 1 example_program). repeat apply conj; vm_compute; reflexivity.
Qed.

(** the machines really differ: the code for 3.10 (jump targets in instructions) run by the 3.9 machine (jump targets in
    bytes) does not behave as the program means — the version dimension of the theorems is not vacuous *)
Example machines_differ :
  match compile_v V310 62 example_pre example_program with
  | COk (code, P) => exec_v V309 (p_consts P) (p_names P) 62 code <> (fst (run 1 example_program), Some (snd (run 1 example_program)))
  | CPanic _ => False
  end.
Proof. vm_compute. discriminate. Qed.

(** ** the known class: fill_jump's 16-bit argument.  An `and` whose code starts 32768 code units (65536 bytes) into the
    code object — [base] counts the units already written: the prelude and the statements before it.  The model of the
    code generator for 3.11 (relative jump) and for 3.10 (target counted in instructions) succeeds, for 3.7-3.9 (target
    counted in bytes) it hits u16::try_from(arg).unwrap() in fill_jump.  So "what compiles for the default target
    compiles for every target" is false.  Replayed on the real compiler with a module of 4000 `print! i + j` statements
    followed by `print! a and b`: `erg --py-command python3.9 compile` panics at codegen.rs fill_jump, the 3.10 and 3.11
    targets compile and run.  Recorded as known finding far-jump; [compile_v_correct] excludes it by its hypothesis COk. *)
Definition far_jump_program : program :=
  [SPrint [ELogic WBool false (ELit WBool (LBool true)) (ELit WBool (LBool false))]].
Definition far_base : Z := 32768.

Theorem far_jump_refuted :
  (exists code P, compile_v V311 far_base example_pre far_jump_program = COk (code, P)) /\
  (exists code P, compile_v V310 far_base example_pre far_jump_program = COk (code, P)) /\
  compile_v V309 far_base example_pre far_jump_program = CPanic 2 /\
  compile_v V308 far_base example_pre far_jump_program = CPanic 2 /\
  compile_v V307 far_base example_pre far_jump_program = CPanic 2 /\
  known_far_jump V309 far_base example_pre far_jump_program = true /\
  known_far_jump V311 far_base example_pre far_jump_program = false.
Proof.
  split; [eexists _, _; vm_compute; reflexivity|].
  split; [eexists _, _; vm_compute; reflexivity|].
  repeat apply conj; vm_compute; reflexivity.
Qed.

(** the class is decided by the position only for the byte-addressed targets: below the limit all targets compile *)
Example near_jump_compiles :
  forallb (fun v => negb (known_far_jump v 32000 example_pre far_jump_program)) all_versions = true.
Proof. vm_compute. reflexivity. Qed.
