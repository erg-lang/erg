(** C13: for every target version the generator model is correct w.r.t. that version's machine and the evaluator Sem.v.
    [does] says what a piece of code does to the top of the stack, [emitted] what an emitting function returns if it
    returns at all; every combinator of [emit_expr_v] preserves [code_spec], so the induction over expressions only
    assembles them.  The version branches and the absolute jump targets of 3.7 - 3.10 stay in the single-instruction lemmas.
    Statement lists: [chunk_v_correct] for one chunk, [stmts_spec] / [stmts_v_spec] over [uncancelled] / [kept] (the code up to
    a final POP_TOP), and [compile_v_module_correct] for either branch of [compile_v]. *)
From Coq Require Import ZArith List Bool Lia.
From ErgV Require Import Common.Lists Common.Sx CoreErg.Syntax CoreErg.Sem CoreErg.Codegen CoreErg.VM CoreErg.Spec_C01 CoreErg.Proofs_C01.
From ErgV Require Import Versions.Model.
Import ListNotations.
Close Scope string_scope.
Close Scope N_scope.
Open Scope list_scope.
Open Scope Z_scope.

Lemma len_app : forall A (a b : list A), len (a ++ b) = len a + len b.
Proof. intros. unfold len. rewrite app_length. lia. Qed.
Lemma len_nonneg : forall A (a : list A), 0 <= len a.
Proof. intros. unfold len. lia. Qed.
Lemma len_cons : forall A (x : A) l, len (x :: l) = 1 + len l.
Proof. intros. unfold len. cbn [length]. lia. Qed.
Lemma len_nil : forall A, len (@nil A) = 0.
Proof. reflexivity. Qed.

Section Machine.
  Variable v : pyver.
  Variable cs : list constv.
  Variable ns : list name.

  Lemma run_v_app : forall l1 l2 pos k st,
    run_v v cs ns (l1 ++ l2) pos k st =
    match run_v v cs ns l1 pos k st with
    | Halted o => Halted o
    | Reached k' st' => run_v v cs ns l2 (pos + len l1) k' st'
    end.
  Proof.
    induction l1 as [|[op a] l1 IH]; intros l2 pos k st; cbn [app run_v].
    - rewrite len_nil, Z.add_0_r. reflexivity.
    - rewrite len_cons. replace (pos + (1 + len l1)) with (pos + 1 + len l1) by lia.
      destruct k as [|k]; [|apply IH].
      destruct (step_v v cs ns pos op (vext st * 256 + a) st); [apply IH|reflexivity].
  Qed.

  Lemma run_v_skip : forall l pos k st,
    run_v v cs ns l pos (length l + k) st = Reached k st.
  Proof.
    induction l as [|[op a] l IH]; intros pos k st; cbn [length run_v Nat.add]; [reflexivity|apply IH].
  Qed.

  Definition nonjump (op : vop) : bool :=
    match op with X_JUMP_IF_FALSE_OR_POP | X_JUMP_IF_TRUE_OR_POP => false | _ => true end.

  Lemma step_v_pos_irrel : forall op, nonjump op = true -> forall p1 p2 arg st,
    step_v v cs ns p1 op arg st = step_v v cs ns p2 op arg st.
  Proof. intros op H p1 p2 arg st. destruct op; try discriminate; reflexivity. Qed.

  Lemma step_v_ext_irrel : forall pos op arg s e o x y,
    step_v v cs ns pos op arg (mkVm s e o x) = step_v v cs ns pos op arg (mkVm s e o y).
  Proof. intros; unfold step_v. destruct (negb (has_op v op)); [reflexivity|]. destruct op; reflexivity. Qed.

  Definition run1_v (op : vop) (arg : Z) (st : vm) : pref_res :=
    match step_v v cs ns 0 op arg st with Next k st' => Reached k st' | Halt o => Halted o end.

  Lemma run_v_ext : forall e rest pos s en o x,
    run_v v cs ns ((X_EXTENDED_ARG, e) :: rest) pos 0 (mkVm s en o x) =
    run_v v cs ns rest (pos + 1) 0 (mkVm s en o (x * 256 + e)).
  Proof. reflexivity. Qed.

  Lemma run_v_one : forall op a pos s en o x, nonjump op = true ->
    run_v v cs ns [(op, a)] pos 0 (mkVm s en o x) = run1_v op (x * 256 + a) (mkVm s en o 0).
  Proof.
    intros op a pos s en o x Hnj. unfold run1_v. cbn [run_v vext].
    rewrite (step_v_pos_irrel op Hnj pos 0), (step_v_ext_irrel 0 op _ s en o x 0).
    destruct (step_v v cs ns 0 op _ (mkVm s en o 0)); reflexivity.
  Qed.

  (* write_arg's EXTENDED_ARG prefixes rebuild the argument *)
  Lemma run_write_op_v : forall op arg c pos st,
    write_op_v op arg = COk c -> nonjump op = true -> 0 <= arg -> vext st = 0 ->
    run_v v cs ns c pos 0 st = run1_v op arg st.
  Proof.
    intros op arg c pos st H Hnj Hpos Hext. unfold write_op_v in H.
    destruct st as [s e o x]; cbn [vext] in Hext; subst x.
    destruct (arg <? 256) eqn:E1; [|destruct (arg <? 65536) eqn:E2; [|destruct (arg <? 4294967296) eqn:E3; [|discriminate]]];
      inversion H; subst c; clear H; rewrite ?run_v_ext, (run_v_one _ _ _ _ _ _ _ Hnj); f_equal.
    - Z.div_mod_to_equations. lia.
    - apply Z.ltb_ge in E1, E2. apply Z.ltb_lt in E3. Z.div_mod_to_equations. lia.
  Qed.
End Machine.

Lemma write_op_v_last : forall op arg co, write_op_v op arg = COk co -> exists pre a, co = pre ++ [(op, a)].
Proof.
  intros op arg co H. unfold write_op_v in H.
  destruct (arg <? 256); [inversion H; exists [], arg; reflexivity|].
  destruct (arg <? 65536); [inversion H; exists [(X_EXTENDED_ARG, arg / 256)], (arg mod 256); reflexivity|].
  destruct (arg <? 4294967296); [|discriminate].
  inversion H. eexists [_; _; _], _. reflexivity.
Qed.

Lemma write_op_v_len_pos : forall op arg c, write_op_v op arg = COk c -> 1 <= len c.
Proof.
  intros op arg c H. apply write_op_v_last in H as [pre [a Hc]]. subst c.
  rewrite len_app, len_cons, len_nil. pose proof (len_nonneg _ pre). lia.
Qed.

Definition does {A} (v : pyver) (P : pools) (c : list vunit) (pos : Z) (en : env) (ins : list sval)
    (push : A -> list sval) (R : res A) : Prop :=
  forall s out,
    match R with
    | Ok a => run_v v (p_consts P) (p_names P) c pos 0 (mkVm (ins ++ s) en out 0) = Reached 0 (mkVm (push a ++ s) en out 0)
    | Raise ex => run_v v (p_consts P) (p_names P) c pos 0 (mkVm (ins ++ s) en out 0) = Halted (rev out, Some (Uncaught ex))
    | OutOfFuel => True
    end.

Definition val (x : value) : list sval := [SV x].

Lemma does_seq : forall A B v P c1 c2 pos en ins (pa : A -> list sval) (pb : B -> list sval) Ra f,
  does v P c1 pos en [] pa Ra ->
  (forall a, Ra = Ok a -> does v P c2 (pos + len c1) en (pa a ++ ins) pb (f a)) ->
  does v P (c1 ++ c2) pos en ins pb (bind Ra f).
Proof.
  intros A B v P c1 c2 pos en ins pa pb Ra f H1 H2 s out. rewrite run_v_app.
  specialize (H1 (ins ++ s) out). cbn [app] in H1.
  destruct Ra as [a|ex|]; cbn [bind]; [|rewrite H1; reflexivity|exact I].
  rewrite H1. specialize (H2 a eq_refl s out). rewrite <- app_assoc in H2. exact H2.
Qed.

Definition emitted (p : pools) (r : cres (list vunit * pools)) (Q : list vunit -> pools -> Prop) : Prop :=
  match r with COk (c, p') => extends p p' /\ Q c p' | CPanic _ => True end.

Lemma emitted_bind : forall p r f Q Q',
  emitted p r Q -> (forall c q, extends p q -> Q c q -> emitted q (f (c, q)) Q') -> emitted p (cbind r f) Q'.
Proof.
  intros p [[c q]|site] f Q Q' Hr Hf; [|exact I]. destruct Hr as [E HQ]. specialize (Hf c q E HQ).
  cbn [cbind]. destruct (f (c, q)) as [[c' q']|]; [|exact I].
  destruct Hf as [E' HQ']. split; [exact (extends_trans _ _ _ E E')|exact HQ'].
Qed.

Lemma emitted_ret : forall p c (Q : list vunit -> pools -> Prop), Q c p -> emitted p (COk (c, p)) Q.
Proof. intros p c Q H. split; [apply extends_refl|exact H]. Qed.

Lemma emitted_impl : forall p r (Q Q' : list vunit -> pools -> Prop),
  emitted p r Q -> (forall c q, Q c q -> Q' c q) -> emitted p r Q'.
Proof. intros p [[c q]|site] Q Q' Hr HQ; [|exact I]. split; [apply Hr|apply HQ, Hr]. Qed.

Lemma emitted_ok : forall p r Q, emitted p r Q -> forall c p', r = COk (c, p') -> extends p p' /\ Q c p'.
Proof. intros p r Q H c p' E. rewrite E in H. exact H. Qed.

Lemma arith_of_arith_opcode : forall op, arith_of_vop (arith_opcode op) = Some op.
Proof. destruct op; reflexivity. Qed.

Section Instr.
  Variable v : pyver.

  Lemma emit_load_const_v_correct : forall p c,
    emitted p (emit_load_const_v p c) (fun code p' =>
      forall P, extends p' P -> forall pos s en out,
        run_v v (p_consts P) (p_names P) code pos 0 (mkVm s en out 0) = Reached 0 (mkVm (SV (cval c) :: s) en out 0)).
  Proof.
    intros p c. unfold emit_load_const_v.
    destruct (register_const const_same p c) as [i p1] eqn:R.
    apply (register_const_spec const_same const_same_sound) in R as [Hext [Hi [c' [Hn Hv]]]].
    destruct (write_op_v X_LOAD_CONST i) as [co|] eqn:W; [|exact I]. split; [exact Hext|].
    intros P HP pos s en out. rewrite (run_write_op_v v _ _ _ _ _ pos (mkVm s en out 0) W eq_refl Hi eq_refl). unfold run1_v, step_v.
    cbn [has_op negb stack]. rewrite (nth_error_extends_consts _ _ _ _ HP Hn), Hv. reflexivity.
  Qed.

  Lemma name_instr_run : forall op, nonjump op = true -> forall p n,
    emitted p (let '(i, p1) := register_name p n in cbind (write_op_v op i) (fun co => COk (co, p1))) (fun code p' =>
      (exists pre a, code = pre ++ [(op, a)]) /\
      forall P, extends p' P -> exists i, nth_error (p_names P) (Z.to_nat i) = Some n /\
        forall pos st, vext st = 0 ->
          run_v v (p_consts P) (p_names P) code pos 0 st = run1_v v (p_consts P) (p_names P) op i st).
  Proof.
    intros op Hop p n.
    destruct (register_name p n) as [i p1] eqn:R.
    apply register_name_spec in R as [Hext [Hi Hn]].
    destruct (write_op_v op i) as [co|] eqn:W; [|exact I]. split; [exact Hext|].
    split; [exact (write_op_v_last _ _ _ W)|]. intros P HP. exists i. split; [exact (nth_error_extends_names _ _ _ _ HP Hn)|].
    intros pos st Hx. exact (run_write_op_v v _ _ _ _ _ pos _ W Hop Hi Hx).
  Qed.

  Definition emit_load_name_v_run := name_instr_run X_LOAD_NAME eq_refl.
  Definition emit_store_name_v_run := name_instr_run X_STORE_NAME eq_refl.

  Lemma step_v_unary : forall cs ns pos op arg st, step_v v cs ns pos (unary_vop op) arg st = unary st op.
  Proof. intros. destruct op; reflexivity. Qed.

  Lemma run_unary_v : forall P op va pos en, does v P [(unary_vop op, 0)] pos en [SV va] val (un_op op va).
  Proof.
    intros P op va pos en s out. cbn [app run_v]. rewrite step_v_unary. unfold unary. cbn [stack].
    destruct (un_op op va); [reflexivity|reflexivity|exact I].
  Qed.

  Lemma has_arith_opcode : forall op, has_op v (arith_opcode op) = negb (is311 v).
  Proof. destruct op; reflexivity. Qed.

  Lemma step_v_arith : forall cs ns pos op arg st, is311 v = false ->
    step_v v cs ns pos (arith_opcode op) arg st = binary_v st op 0.
  Proof. intros cs ns pos op arg st E. unfold step_v. rewrite has_arith_opcode, E. destruct op; reflexivity. Qed.

  Lemma run_arith_v : forall op co, emit_arith_v v op = COk co ->
    forall P pos en va vb, does v P co pos en [SV vb; SV va] val (bin_op op va vb).
  Proof.
    intros op co H P pos en va vb s out. cbn [app]. unfold emit_arith_v in H.
    destruct (is311 v) eqn:E.
    - apply cbind_ok in H as [c0 [W H]]. inversion H; subst co; clear H.
      rewrite run_v_app, (run_write_op_v v _ _ _ _ _ pos (mkVm (SV vb :: SV va :: s) en out 0) W eq_refl (binop_arg_nonneg op) eq_refl).
      unfold run1_v, step_v. cbn [has_op]. rewrite E. cbn [negb]. rewrite arith_of_binop_arg.
      unfold binary_v. cbn [stack]. destruct (bin_op op va vb); [reflexivity|reflexivity|exact I].
    - inversion H; subst co; clear H. cbn [run_v]. rewrite step_v_arith by exact E.
      unfold binary_v. cbn [stack]. destruct (bin_op op va vb); [reflexivity|reflexivity|exact I].
  Qed.

  Lemma run_cmp_v : forall op co, emit_cmp_v v op = COk co ->
    forall P pos en va vb, does v P co pos en [SV vb; SV va] val (cmp_op op va vb).
  Proof.
    intros op co H P pos en va vb s out. cbn [app]. unfold emit_cmp_v in H.
    apply cbind_ok in H as [c0 [W H]]. inversion H; subst co; clear H.
    rewrite run_v_app, (run_write_op_v v _ _ _ _ _ pos (mkVm (SV vb :: SV va :: s) en out 0) W eq_refl (cmp_arg_nonneg op) eq_refl).
    unfold run1_v, step_v. cbn [has_op negb]. rewrite cmp_of_cmp_arg. cbn [stack].
    destruct (cmp_op op va vb); [|reflexivity|exact I].
    destruct (is311 v); reflexivity.
  Qed.

  (** calls: 3.11 has NULL below the callable and skips the cache entries, <= 3.10 has neither *)
  Definition null_v : list sval := if is311 v then [SNull] else [].

  Lemma call_v_args : forall vs f s en out,
    call_v v (mkVm (rev (map SV vs) ++ SCallable f :: null_v ++ s) en out 0) (len vs) =
    apply_callable (mkVm (rev (map SV vs) ++ SCallable f :: null_v ++ s) en out 0) f vs s (if is311 v then 4 else 0).
  Proof.
    intros vs f s en out. unfold call_v, len. rewrite Nat2Z.id. cbn [stack].
    assert (Hl : length (rev (map SV vs)) = length vs) by (rewrite rev_length, map_length; reflexivity).
    rewrite <- Hl, (firstn_app_exact _ _ _ eq_refl), (skipn_app_exact _ _ _ eq_refl), Nat.eqb_refl, rev_involutive, all_values_map_SV. cbn [negb].
    unfold null_v. destruct (is311 v); reflexivity.
  Qed.

  Lemma run_call_v : forall cs ns vs f s en out cc pos st',
    emit_call_v v (len vs) = COk cc ->
    (forall k, apply_callable (mkVm (rev (map SV vs) ++ SCallable f :: null_v ++ s) en out 0) f vs s k = Next k st') ->
    run_v v cs ns cc pos 0 (mkVm (rev (map SV vs) ++ SCallable f :: null_v ++ s) en out 0) = Reached 0 st'.
  Proof.
    intros cs ns vs f s en out cc pos st' H Hf.
    pose proof (call_v_args vs f s en out) as Hcall. rewrite Hf in Hcall.
    set (st := mkVm (rev (map SV vs) ++ SCallable f :: null_v ++ s) en out 0) in *.
    unfold emit_call_v in H. destruct (is311 v) eqn:E.
    - apply cbind_ok in H as [c1 [W1 H]]. apply cbind_ok in H as [c2 [W2 H]]. inversion H; subst cc; clear H.
      rewrite run_v_app, (run_write_op_v v cs ns _ _ _ pos st W1 eq_refl (len_nonneg _ _) eq_refl).
      unfold run1_v, step_v. cbn [has_op]. rewrite E. cbn [negb app run_v].
      change (with_stack st (stack st)) with st.
      rewrite run_v_app, (run_write_op_v v cs ns _ _ _ _ st W2 eq_refl (len_nonneg _ _) eq_refl).
      unfold run1_v, step_v. cbn [has_op]. rewrite E. cbn [negb]. rewrite Hcall. reflexivity.
    - rewrite (run_write_op_v v cs ns _ _ _ pos st H eq_refl (len_nonneg _ _) eq_refl).
      unfold run1_v, step_v. cbn [has_op]. rewrite E. cbn [negb]. rewrite Hcall. reflexivity.
  Qed.

  Lemma run_push_load : forall p f, (f = NPrint \/ exists w, f = NCls w) ->
    emitted p (emit_load_name_v p f) (fun cl p' =>
      forall P, extends p' P -> forall pos s en out,
        run_v v (p_consts P) (p_names P) (emit_push_null_v v ++ cl) pos 0 (mkVm s en out 0) =
        Reached 0 (mkVm (SCallable f :: null_v ++ s) en out 0)).
  Proof.
    intros p f Hf. eapply emitted_impl; [exact (emit_load_name_v_run p f)|].
    intros cl p' [_ Hl] P HP pos s en out. destruct (Hl P HP) as [i [Hn Hrun]].
    assert (Hload : forall pos' s', run_v v (p_consts P) (p_names P) cl pos' 0 (mkVm s' en out 0)
                                    = Reached 0 (mkVm (SCallable f :: s') en out 0)).
    { intros pos' s'. rewrite Hrun by reflexivity. unfold run1_v, step_v. cbn [has_op negb]. rewrite Hn.
      destruct Hf as [Hf|[w Hf]]; subst f; reflexivity. }
    unfold emit_push_null_v, null_v. destruct (is311 v) eqn:E'; [|apply Hload].
    cbn [app run_v]. unfold step_v at 1. cbn [has_op]. rewrite E'. cbn [negb]. apply Hload.
  Qed.

  Lemma jump_arg_311 : forall jpos n, jump_arg_v V311 (2 * jpos) (2 * (jpos + 2 + n)) = n.
  Proof.
    intros. change (jump_arg_v V311 (2 * jpos) (2 * (jpos + 2 + n))) with ((2 * (jpos + 2 + n) - 2 * jpos - 4) / 2).
    replace (2 * (jpos + 2 + n) - 2 * jpos - 4) with (n * 2) by lia. apply Z.div_mul. lia.
  Qed.

  (* the argument written by fill_jump makes machine [v] skip exactly the right operand *)
  Lemma jump_skip_ok : forall jpos n, 0 <= n ->
    jump_skip v (jpos + 1) (jump_arg_v v (2 * jpos) (2 * (jpos + 2 + n))) = Some (Z.to_nat n).
  Proof.
    intros jpos n Hn.
    assert (Hbytes : forall m, (if Z.even (2 * m) && (jpos + 1 <? 2 * m / 2) then Some (Z.to_nat (2 * m / 2 - (jpos + 1 + 1))) else None)
                               = if jpos + 1 <? m then Some (Z.to_nat (m - (jpos + 1 + 1))) else None).
    { intros m. rewrite Z.even_mul. cbn [Z.even orb andb]. rewrite (Z.mul_comm 2 m), Z.div_mul by lia. reflexivity. }
    assert (Hlt : (jpos + 1 <? jpos + 2 + n) = true) by (apply Z.ltb_lt; lia).
    destruct v.
    1-3: change (jump_arg_v _ (2 * jpos) (2 * (jpos + 2 + n))) with (2 * (jpos + 2 + n)); cbn [jump_skip];
         rewrite Hbytes, Hlt; f_equal; f_equal; lia.
    - change (jump_arg_v V310 (2 * jpos) (2 * (jpos + 2 + n))) with (2 * (jpos + 2 + n) / 2). cbn [jump_skip].
      rewrite (Z.mul_comm 2 (jpos + 2 + n)), Z.div_mul by lia. rewrite Hlt. f_equal. f_equal. lia.
    - rewrite jump_arg_311. reflexivity.
  Qed.

  Lemma run_jump_v : forall P (is_or : bool) cb jpos en va Rb,
    does v P cb (jpos + 2) en [] val Rb ->
    let arg := jump_arg_v v (2 * jpos) (2 * (jpos + 2 + len cb)) in
    does v P ((X_EXTENDED_ARG, arg / 256) :: ((if is_or then X_JUMP_IF_TRUE_OR_POP else X_JUMP_IF_FALSE_OR_POP), arg mod 256) :: cb)
         jpos en [SV va] val
         (if is_or then (if truthy va then Ok va else Rb) else (if truthy va then Rb else Ok va)).
  Proof.
    intros P is_or cb jpos en va Rb Hb arg s out. specialize (Hb s out). cbn [app] in Hb.
    assert (Hn : arg / 256 * 256 + arg mod 256 = arg) by (rewrite (Z.div_mod arg 256) at 3; lia).
    assert (Hskip : jump_skip v (jpos + 1) arg = Some (length cb)).
    { unfold arg. rewrite jump_skip_ok by apply len_nonneg. unfold len. rewrite Nat2Z.id. reflexivity. }
    cbn [app run_v vext]. unfold step_v at 1. cbn [has_op negb stack venv vout vext]. rewrite Z.mul_0_l, Z.add_0_l, Hn.
    replace (jpos + 1 + 1) with (jpos + 2) by lia.
    destruct is_or; unfold step_v; cbn [has_op negb]; unfold jump_if_v, with_stack; cbn [stack venv vout];
      destruct (truthy va); cbn [Bool.eqb]; rewrite ?Hskip.
    - rewrite <- (Nat.add_0_r (length cb)). apply run_v_skip.
    - exact Hb.
    - exact Hb.
    - rewrite <- (Nat.add_0_r (length cb)). apply run_v_skip.
  Qed.
End Instr.

Section ExprV.
  Variable v : pyver.

  (* [P]: whatever the rest of the module adds to the pools *)
  Definition code_spec (emit : Z -> pools -> cres (list vunit * pools)) (ok : env -> Prop) (ev : env -> res value) : Prop :=
    forall base p, emitted p (emit base p) (fun c p' =>
      forall P en, extends p' P -> ok en -> does v P c base en [] val (ev en)).

  Lemma lit_spec : forall w l,
    code_spec (fun _ p => emit_load_const_v p (const_of_lit l)) (fun _ => True) (fun en => eval0 en (ELit w l)).
  Proof.
    intros w l base p. eapply emitted_impl; [exact (emit_load_const_v_correct v p (const_of_lit l))|].
    intros c p' Hc P en HP _ s out. cbn [eval0 eval app]. rewrite (Hc P HP). destruct l; reflexivity.
  Qed.

  Lemma var_spec : forall w x,
    code_spec (fun _ p => emit_load_name_v p (NVar x)) (fun _ => True) (fun en => eval0 en (EVar w x)).
  Proof.
    intros w x base p. eapply emitted_impl; [exact (emit_load_name_v_run v p (NVar x))|].
    intros c p' [_ Hl] P en HP _ s out. destruct (Hl P HP) as [i [Hn Hrun]].
    rewrite Hrun by reflexivity. unfold run1_v, step_v. cbn [has_op negb eval0 eval venv]. rewrite Hn.
    destruct (lookup x en); reflexivity.
  Qed.

  Lemma unary_spec op {ema ok ev} : code_spec ema ok ev ->
    code_spec (fun b p => cbind (ema b p) (fun ca => COk (fst ca ++ [(unary_vop op, 0)], snd ca)))
              ok (fun en => bind (ev en) (un_op op)).
  Proof.
    intros IH base p. eapply emitted_bind; [apply IH|]. intros ca pa E Ha. cbn [fst snd].
    apply emitted_ret.
    intros P en HP Hok. eapply does_seq; [exact (Ha P en HP Hok)|]. intros va _. apply run_unary_v.
  Qed.

  Lemma binary_spec {ema emb emo oka okb eva evb f} :
    code_spec ema oka eva -> code_spec emb okb evb ->
    (forall co, emo = COk co -> forall P pos en va vb, does v P co pos en [SV vb; SV va] val (f va vb)) ->
    code_spec (fun b p => cbind (ema b p) (fun ca =>
                          cbind (emb (b + len (fst ca)) (snd ca)) (fun cb =>
                          cbind emo (fun co => COk (fst ca ++ fst cb ++ co, snd cb)))))
              (fun en => oka en /\ okb en)
              (fun en => bind (eva en) (fun va => bind (evb en) (fun vb => f va vb))).
  Proof.
    intros IHa IHb Ho base p.
    eapply emitted_bind; [apply IHa|]. intros ca pa E1 Ha. cbn [fst snd].
    eapply emitted_bind; [apply IHb|]. intros cb pb E2 Hb. cbn [fst snd].
    destruct emo as [co|]; [|exact I]. apply emitted_ret.
    intros P en HP [Hoa Hob].
    eapply does_seq; [exact (Ha P en (extends_trans _ _ _ E2 HP) Hoa)|]. intros va _.
    eapply does_seq; [exact (Hb P en HP Hob)|]. intros vb _. apply (Ho co eq_refl).
  Qed.

  (* and / or: EXTENDED_ARG; JUMP_IF_x_OR_POP over the right operand, which starts two units after the placeholder *)
  Lemma logic_spec (is_or : bool) {ema emb oka okb eva evb} :
    code_spec ema oka eva -> code_spec emb okb evb ->
    code_spec (fun b p => cbind (ema b p) (fun ca =>
                          let jpos := b + len (fst ca) in
                          cbind (emb (jpos + 2) (snd ca)) (fun cb =>
                          let arg := jump_arg_v v (2 * jpos) (2 * (jpos + 2 + len (fst cb))) in
                          if arg <? 65536 then
                            COk (fst ca ++ [(X_EXTENDED_ARG, arg / 256);
                                            ((if is_or then X_JUMP_IF_TRUE_OR_POP else X_JUMP_IF_FALSE_OR_POP), arg mod 256)] ++ fst cb,
                                 snd cb)
                          else CPanic 2)))
              (fun en => oka en /\ okb en)
              (fun en => bind (eva en) (fun va => if is_or then (if truthy va then Ok va else evb en)
                                                  else (if truthy va then evb en else Ok va))).
  Proof.
    intros IHa IHb base p.
    eapply emitted_bind; [apply IHa|]. intros ca pa E1 Ha. cbn [fst snd].
    eapply emitted_bind; [apply IHb|]. intros cb pb E2 Hb. cbn [fst snd].
    destruct (_ <? 65536); [|exact I]. apply emitted_ret.
    intros P en HP [Hoa Hob].
    eapply does_seq; [exact (Ha P en (extends_trans _ _ _ E2 HP) Hoa)|]. intros va _.
    apply run_jump_v. exact (Hb P en HP Hob).
  Qed.

  (* emit_expr's wrapping: the class is called on the value the body computes, which it leaves as it is when it fits *)
  Lemma wrapped_spec {w body ok} {ok' : env -> Prop} {ev} : code_spec body ok ev ->
    (forall en, ok' en -> (forall x, ev en = Ok x -> fits w x) /\ ok en) ->
    code_spec (fun b p => emit_wrapped_v v w b p body) ok' ev.
  Proof.
    intros Hb Hok base p. unfold emit_wrapped_v.
    destruct (is_wrapped w) eqn:Hw.
    2:{ eapply emitted_impl; [apply Hb|]. intros c p' Hc P en HP Ho. apply Hc; [exact HP|apply Hok; exact Ho]. }
    eapply emitted_bind; [apply (run_push_load v); right; eauto|]. intros cl pl E1 Hpre. cbn [fst snd].
    eapply emitted_bind; [apply Hb|]. intros cb pb E2 Hc. cbn [fst snd].
    destruct (emit_call_v v 1) as [cc|] eqn:EC; [|exact I]. apply emitted_ret.
    intros P en HP Ho. destruct (Hok en Ho) as [Hfit Ho'].
    assert (Hcall : forall x, ev en = Ok x -> wrap_call w x = Ok x).
    { intros x Hx. exact (wrap_call_fits w x Hw (Hfit x Hx)). }
    assert (Hseq : does v P (cb ++ cc) (base + len (emit_push_null_v v ++ cl)) en (SCallable (NCls w) :: null_v v) val
                     (bind (ev en) (wrap_call w))).
    { eapply does_seq; [exact (Hc P en HP Ho')|]. intros x Hx s out. rewrite (Hcall x Hx).
      apply (run_call_v v _ _ [x]); [exact EC|]. intros k. unfold apply_callable. rewrite (Hcall x Hx). reflexivity. }
    intros s out. specialize (Hseq s out). cbn [app] in Hseq |- *.
    rewrite run_v_app, (Hpre P (extends_trans _ _ _ E2 HP)).
    destruct (ev en) as [x|ex|]; cbn [bind] in Hseq; [|exact Hseq|exact I].
    rewrite (Hcall x eq_refl) in Hseq. exact Hseq.
  Qed.

  (* outside the fragment the model emits nothing, so no hypothesis [in_frag] is needed *)
  Lemma panic_spec : forall site ok ev, code_spec (fun _ _ => CPanic site) ok ev.
  Proof. intros site ok ev base p. exact I. Qed.

  (* [wraps_ok en e] is by definition the conjunction that [wrapped_spec] asks for *)
  Lemma emit_expr_v_correct : forall e,
    code_spec (fun b p => emit_expr_v v b p e) (fun en => wraps_ok en e) (fun en => eval0 en e).
  Proof.
    induction e using expr_ind'; cbn [emit_expr_v];
      try exact (wrapped_spec (panic_spec 0 (fun _ => True) _) (fun en H => H)).
    - exact (wrapped_spec (lit_spec w l) (fun en H => H)).
    - exact (wrapped_spec (var_spec w x) (fun en H => H)).
    - exact (wrapped_spec (unary_spec o IHe) (fun en H => H)).
    - exact (wrapped_spec (binary_spec IHe1 IHe2 (run_arith_v v o)) (fun en H => H)).
    - exact (wrapped_spec (binary_spec IHe1 IHe2 (run_cmp_v v o)) (fun en H => H)).
    - exact (wrapped_spec (logic_spec k IHe1 IHe2) (fun en H => H)).
  Qed.

  Lemma does_at_state : forall P c pos st R, vext st = 0 -> does v P c pos (venv st) [] val R ->
    match R with
    | Ok x => run_v v (p_consts P) (p_names P) c pos 0 st = Reached 0 (with_stack st (SV x :: stack st))
    | Raise ex => run_v v (p_consts P) (p_names P) c pos 0 st = Halted (rev (vout st), Some (Uncaught ex))
    | OutOfFuel => True
    end.
  Proof. intros P c pos [s en out x] R Hx H. cbn [vext] in Hx. subst x. exact (H s out). Qed.
End ExprV.

Definition ends (S : sres) (stk : list sval) (r : pref_res) : Prop :=
  match S with
  | SOk st' => r = Reached 0 (mkVm stk (s_env st') (s_out st') 0)
  | SErr ex out => r = Halted (rev out, Some (Uncaught ex))
  | SFuel _ => True
  end.

Lemma ends_with_pop_v_app : forall a b, b <> [] -> ends_with_pop_v (a ++ b) = ends_with_pop_v b.
Proof.
  intros a b Hb. unfold ends_with_pop_v. rewrite rev_app_distr.
  destruct (rev b) as [|u r] eqn:E; [|reflexivity].
  apply (f_equal (@rev _)) in E. rewrite rev_involutive in E. contradiction.
Qed.

Lemma ends_with_pop_v_last : forall l a, ends_with_pop_v (l ++ [(X_POP_TOP, a)]) = true.
Proof. intros. apply ends_with_pop_v_app. discriminate. Qed.

Definition popc (s : stmt) : list vunit := if leaves_value s then [(X_POP_TOP, 0)] else [].

(** what cancel_if_pop_top keeps of a code sequence: everything but a final POP_TOP, whose value stays on the stack *)
Definition uncancelled (c : list vunit) : list vunit := if ends_with_pop_v c then removelast c else c.
Definition kept (c : list vunit) : list sval := if ends_with_pop_v c then [SV VNone] else [].

Lemma uncancelled_app : forall a b, b <> [] -> uncancelled (a ++ b) = a ++ uncancelled b /\ kept (a ++ b) = kept b.
Proof.
  intros a b Hb. unfold uncancelled, kept. rewrite (ends_with_pop_v_app a b Hb).
  destruct (ends_with_pop_v b); [rewrite (removelast_app a Hb)|]; split; reflexivity.
Qed.

Section StmtV.
  Variable v : pyver.

  Lemma emit_args_v_correct : forall es base p,
    emitted p (emit_args_v v base p es) (fun c p' =>
      forall P en, extends p' P -> Forall (wraps_ok en) es ->
        does v P c base en [] (fun vs => rev (map SV vs)) (evals0 en es)).
  Proof.
    induction es as [|e es IH]; intros base p; cbn [emit_args_v].
    - apply emitted_ret. intros P en _ _ s out. reflexivity.
    - eapply emitted_bind; [apply (emit_expr_v_correct v e)|]. intros ce pe E1 He. cbn [fst snd].
      eapply emitted_bind; [apply IH|]. intros cr pr E2 Hr. cbn [fst snd].
      apply emitted_ret.
      intros P en HP Hw. inversion Hw as [|? ? Hwe Hwr]; subst.
      change (evals0 en (e :: es)) with (bind (eval0 en e) (fun x => bind (evals0 en es) (fun vs => Ok (x :: vs)))).
      eapply does_seq; [exact (He P en (extends_trans _ _ _ E2 HP) Hwe)|]. intros x _ s out.
      specialize (Hr P en HP Hwr (val x ++ s) out).
      destruct (evals0 en es) as [vs|ex|]; cbn [bind]; [|exact Hr|exact I].
      cbn [map rev]. rewrite <- (app_assoc (rev (map SV vs))). exact Hr.
  Qed.

  Lemma run_pop_v : forall cs ns s pos stk en out,
    run_v v cs ns (popc s) pos 0
      (mkVm ((if leaves_value s then [SV VNone] else []) ++ stk) en out 0) = Reached 0 (mkVm stk en out 0).
  Proof. intros. unfold popc. destruct (leaves_value s); reflexivity. Qed.

  Section Sem.
    Variable cf : value -> list value -> list (Z * value) -> res value.
    Variable cp : value -> list value -> list (list Z) -> pres.
    Variable lf : nat.

    Lemma chunk_v_correct : forall s, stmt_in_frag s = true -> forall base p,
      emitted p (emit_chunk_v v base p s) (fun c p' =>
        (c ++ popc s <> [] /\ ends_with_pop_v (c ++ popc s) = leaves_value s) /\
        forall P, extends p' P -> forall stk en out r, stmt_wraps_ok en s ->
          ends (Sem.exec cf cp lf s (mkState en out r)) ((if leaves_value s then [SV VNone] else []) ++ stk)
               (run_v v (p_consts P) (p_names P) c base 0 (mkVm stk en out 0))).
    Proof.
      intros s Hf base p. destruct s; cbn [stmt_in_frag] in Hf; try discriminate; cbn [emit_chunk_v].
      - eapply emitted_bind; [apply (run_push_load v); left; reflexivity|]. intros cl pl E1 Hpre. cbn [fst snd].
        eapply emitted_bind; [apply emit_args_v_correct|]. intros ca pa E2 Ha. cbn [fst snd].
        destruct (emit_call_v v (len es)) as [cc|] eqn:EC; [|exact I]. apply emitted_ret.
        split; [split; [intros E; apply app_eq_nil in E; destruct E; discriminate|apply ends_with_pop_v_last]|].
        intros P HP stk en out r Hw. cbn [Sem.exec s_env s_out s_ret leaves_value app].
        rewrite (evals_frag_indep es Hf cf en).
        specialize (Ha P en HP Hw (SCallable NPrint :: null_v v ++ stk) out). cbn [app] in Ha.
        rewrite run_v_app, (Hpre P (extends_trans _ _ _ E2 HP)), run_v_app.
        destruct (evals0 en es) as [vs|ex|] eqn:EV; cbn [ends s_env s_out]; [|rewrite Ha; reflexivity|exact I].
        rewrite Ha. apply run_call_v; [|intros k; reflexivity].
        unfold len. rewrite <- (evals0_length _ _ _ EV). exact EC.
      - eapply emitted_bind; [apply (emit_expr_v_correct v e)|]. intros ce pe E1 He. cbn [fst snd].
        eapply emitted_bind; [apply (emit_store_name_v_run v)|]. intros cs ps E2 [[pre [a ->]] Hs]. cbn [fst snd].
        apply emitted_ret.
        split; [unfold popc; cbn [leaves_value]; rewrite app_nil_r, app_assoc;
                split; [intros E; apply app_eq_nil in E; destruct E; discriminate|rewrite ends_with_pop_v_app; [reflexivity|discriminate]]|].
        intros P HP stk en out r Hw. destruct (Hs P HP) as [i [Hn Hrun]].
        cbn [Sem.exec s_env s_out leaves_value app].
        rewrite (eval_frag_indep e Hf cf (fun _ _ _ => OutOfFuel)). fold (eval0 en e).
        specialize (He P en (extends_trans _ _ _ E2 HP) Hw stk out). cbn [app] in He.
        rewrite run_v_app. unfold with_val. cbn [s_out].
        destruct (eval0 en e) as [x'|ex|]; cbn [ends]; [|rewrite He; reflexivity|exact I].
        rewrite He, (Hrun _ (mkVm (SV x' :: stk) en out 0) eq_refl). unfold run1_v, step_v.
        cbn [has_op negb stack venv vout]. rewrite Hn. reflexivity.
    Qed.

    (* stated for [uncancelled c], the shape [chunk_v_correct] has for one chunk: both branches of [compile_v] follow *)
    Definition stmts_spec (ss : list stmt) (base : Z) (c : list vunit) (p' : pools) : Prop :=
      (ss <> [] -> c <> []) /\
      forall P, extends p' P -> forall stk en out r, prog_wraps_ok en ss ->
        ends (exec_block cf cp lf ss (mkState en out r)) (kept c ++ stk)
             (run_v v (p_consts P) (p_names P) (uncancelled c) base 0 (mkVm stk en out 0)).

    Lemma stmts_v_spec : forall ss, forallb stmt_in_frag ss = true -> forall base p,
      emitted p (emit_stmts_v v base p ss) (stmts_spec ss base).
    Proof.
      induction ss as [|s ss IH]; intros Hf base p.
      - apply emitted_ret. split; [intros E; contradiction|]. intros P _ stk en out r _. reflexivity.
      - cbn [forallb] in Hf. apply andb_true_iff in Hf as [Fs Fr]. cbn [emit_stmts_v].
        eapply emitted_bind; [apply (chunk_v_correct s Fs)|]. intros cs ps E1 [[Hne Hlast] Hs]. cbn [fst snd].
        fold (popc s) in *. eapply emitted_bind; [apply (IH Fr)|]. intros cr pr E2 [Hnr Hr]. cbn [fst snd].
        apply emitted_ret.
        split; [intros _ E; apply app_eq_nil in E; destruct E; contradiction|].
        intros P HP stk en out r Hw.
        specialize (Hs P (extends_trans _ _ _ E2 HP) stk en out r (proj1 Hw)). cbn [exec_block].
        destruct cr as [|u cr'].
        + (* the last chunk *)
          assert (ss = []) by (destruct ss; [reflexivity|exfalso; apply Hnr; [discriminate|reflexivity]]). subst ss.
          unfold uncancelled, kept. rewrite app_nil_r, Hlast. unfold popc.
          destruct (leaves_value s); [rewrite removelast_last|rewrite app_nil_r];
            destruct (Sem.exec cf cp lf s (mkState en out r)); exact Hs.
        + destruct (uncancelled_app (cs ++ popc s) (u :: cr')) as [-> ->]; [discriminate|].
          rewrite !run_v_app.
          pose proof (exec_frag_step cf cp lf s ss en out r) as Hw'.
          destruct (Sem.exec cf cp lf s (mkState en out r)) as [[en' out' r']|ex out'|out']; cbn [ends] in Hs |- *;
            [|rewrite Hs; reflexivity|exact I].
          rewrite Hs, run_pop_v. exact (Hr P HP stk en' out' r' (Hw' _ Fs Hw eq_refl)).
    Qed.
  End Sem.

  Lemma emit_stmts_v_app : forall r t base p,
    emit_stmts_v v base p (r ++ t) =
    cbind (emit_stmts_v v base p r) (fun cr =>
    cbind (emit_stmts_v v (base + len (fst cr)) (snd cr) t) (fun ct => COk (fst cr ++ fst ct, snd ct))).
  Proof.
    induction r as [|s r IH]; intros t base p.
    - cbn [app emit_stmts_v cbind fst snd]. rewrite len_nil, Z.add_0_r. destruct (emit_stmts_v v base p t) as [[c q]|]; reflexivity.
    - cbn [app emit_stmts_v]. destruct (emit_chunk_v v base p s) as [[cs ps]|]; cbn [cbind fst snd]; [|reflexivity].
      set (code := cs ++ (if leaves_value s then [(X_POP_TOP, 0)] else [])).
      rewrite IH. destruct (emit_stmts_v v _ ps r) as [[cr pr]|]; cbn [cbind fst snd]; [|reflexivity].
      rewrite (len_app _ code cr), Z.add_assoc.
      destruct (emit_stmts_v v _ pr t) as [[ct pt]|]; cbn [cbind fst snd]; [|reflexivity].
      rewrite <- !app_assoc. reflexivity.
  Qed.

  Theorem compile_v_module_correct : forall pre_len pre prog code P fuel,
    forallb stmt_in_frag prog = true ->
    compile_v v pre_len pre prog = COk (code, P) ->
    prog_wraps_ok [] prog ->
    snd (run_program fuel prog) <> FuelOut ->
    exec_v v (p_consts P) (p_names P) pre_len code = (fst (run_program fuel prog), Some (snd (run_program fuel prog))).
  Proof.
    intros pre_len pre prog code P fuel Hf H Hw Hfuel.
    unfold compile_v in H. apply cbind_ok in H as [[c0 p0] [ES H]].
    unfold run_program in *. unfold exec_v, init_vm.
    set (cf := callf_n fuel fuel) in *. set (cp := callp_n fuel fuel) in *.
    apply (emitted_ok _ _ _ (stmts_v_spec cf cp fuel prog Hf _ _)) in ES as [E1 [_ Hr]].
    unfold uncancelled, kept in Hr. destruct (ends_with_pop_v c0).
    - (* the last chunk left a value: its POP_TOP is cancelled *)
      inversion H; subst code P; clear H.
      specialize (Hr p0 (extends_refl _) [] [] [] None Hw). rewrite run_v_app.
      destruct (exec_block cf cp fuel prog (mkState [] [] None)) as [st1|ex out|out]; cbn [ends] in Hr;
        [|rewrite Hr; reflexivity|contradiction Hfuel; reflexivity].
      rewrite Hr. reflexivity.
    - (* nothing to cancel: LOAD_CONST None; RETURN_VALUE *)
      apply cbind_ok in H as [[cn pn] [EN H]]. inversion H; subst code P; clear H.
      apply (emitted_ok _ _ _ (emit_load_const_v_correct v _ _)) in EN as [E2 Hn].
      specialize (Hr pn E2 [] [] [] None Hw). rewrite run_v_app.
      destruct (exec_block cf cp fuel prog (mkState [] [] None)) as [st1|ex out|out]; cbn [ends] in Hr;
        [|rewrite Hr; reflexivity|contradiction Hfuel; reflexivity].
      rewrite Hr, run_v_app, (Hn pn (extends_refl _)). reflexivity.
  Qed.
End StmtV.
