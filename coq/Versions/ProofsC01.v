(** For the default target the version-indexed model is the model of C01 (CoreErg/Codegen.v), opcode by opcode, and the
    3.11 machine is the machine of CoreErg/VM.v ([run_v_311]); so C01's theorems are the 3.11 instances of the
    per-version ones ([codegen_expr_correct], [codegen_module_correct]). *)
From Coq Require Import ZArith List Bool Lia.
From ErgV Require Import Common.Sx CoreErg.Syntax CoreErg.Sem CoreErg.Codegen CoreErg.VM CoreErg.Proofs_C01.
From ErgV Require Import Versions.Model Versions.Proofs.
Import ListNotations.
Close Scope string_scope.
Close Scope N_scope.
Open Scope list_scope.
Open Scope Z_scope.

Definition inj (o : opcode) : vop :=
  match o with
  | CACHE => X_CACHE | POP_TOP => X_POP_TOP | PUSH_NULL => X_PUSH_NULL | NOP => X_NOP | UNARY_POSITIVE => X_UNARY_POSITIVE
  | UNARY_NEGATIVE => X_UNARY_NEGATIVE | UNARY_NOT => X_UNARY_NOT | UNARY_INVERT => X_UNARY_INVERT
  | RETURN_VALUE => X_RETURN_VALUE | STORE_NAME => X_STORE_NAME | LOAD_CONST => X_LOAD_CONST | LOAD_NAME => X_LOAD_NAME
  | COMPARE_OP => X_COMPARE_OP | JUMP_IF_FALSE_OR_POP => X_JUMP_IF_FALSE_OR_POP | JUMP_IF_TRUE_OR_POP => X_JUMP_IF_TRUE_OR_POP
  | BINARY_OP => X_BINARY_OP | EXTENDED_ARG => X_EXTENDED_ARG | RESUME => X_RESUME | PRECALL => X_PRECALL | CALL => X_CALL
  end.

Definition inju (u : cunit) : vunit := (inj (fst u), snd u).
Definition injc (c : list cunit) : list vunit := map inju c.
Definition injr (r : cres (list cunit * pools)) : cres (list vunit * pools) :=
  match r with COk (c, p) => COk (injc c, p) | CPanic s => CPanic s end.
Definition injo (r : cres (list cunit)) : cres (list vunit) :=
  match r with COk c => COk (injc c) | CPanic s => CPanic s end.

Lemma injc_app : forall a b, injc (a ++ b) = injc a ++ injc b.
Proof. intros. unfold injc. apply map_app. Qed.
Lemma len_injc : forall c, len (injc c) = len c.
Proof. intros. unfold len, injc. rewrite map_length. reflexivity. Qed.

(* closes a goal whose two sides are the same list of units once [injc] is pushed through the appends *)
Ltac fin := cbn [injr fst snd]; unfold injc; cbn [map]; rewrite ?map_app; cbn [map app inju inj fst snd]; rewrite <- ?app_assoc; cbn [app]; reflexivity.

Lemma write_op_311 : forall op arg, write_op_v (inj op) arg = injo (write_op op arg).
Proof.
  intros op arg. unfold write_op_v, write_op.
  destruct (arg <? 256); [reflexivity|]. destruct (arg <? 65536); [reflexivity|].
  destruct (arg <? 4294967296); reflexivity.
Qed.

Lemma load_const_311 : forall p c, emit_load_const_v p c = injr (emit_load_const const_same p c).
Proof.
  intros p c. unfold emit_load_const_v, emit_load_const. destruct (register_const const_same p c) as [i q].
  change X_LOAD_CONST with (inj LOAD_CONST). rewrite write_op_311. destruct (write_op LOAD_CONST i); reflexivity.
Qed.
Lemma load_name_311 : forall p n, emit_load_name_v p n = injr (emit_load_name p n).
Proof.
  intros p n. unfold emit_load_name_v, emit_load_name. destruct (register_name p n) as [i q].
  change X_LOAD_NAME with (inj LOAD_NAME). rewrite write_op_311. destruct (write_op LOAD_NAME i); reflexivity.
Qed.
Lemma store_name_311 : forall p n, emit_store_name_v p n = injr (emit_store_name p n).
Proof.
  intros p n. unfold emit_store_name_v, emit_store_name. destruct (register_name p n) as [i q].
  change X_STORE_NAME with (inj STORE_NAME). rewrite write_op_311. destruct (write_op STORE_NAME i); reflexivity.
Qed.

Lemma call_311 : forall argc, emit_call_v V311 argc = injo (emit_call argc).
Proof.
  intros argc. unfold emit_call_v, emit_call. change (is311 V311) with true. cbv iota.
  change X_PRECALL with (inj PRECALL). change X_CALL with (inj CALL). rewrite !write_op_311.
  destruct (write_op PRECALL argc) as [c1|]; [|reflexivity]. destruct (write_op CALL argc) as [c2|]; [|reflexivity].
  cbn [cbind injo]. fin.
Qed.

Lemma injr_cbind : forall r (f : list cunit * pools -> cres (list cunit * pools)) g,
  (forall c p, g (injc c, p) = injr (f (c, p))) -> cbind (injr r) g = injr (cbind r f).
Proof. intros [[c p]|site] f g H; [apply H|reflexivity]. Qed.

Lemma injo_cbind : forall r (f : list cunit -> cres (list cunit * pools)) g,
  (forall c, g (injc c) = injr (f c)) -> cbind (injo r) g = injr (cbind r f).
Proof. intros [c|site] f g H; [apply H|reflexivity]. Qed.

Lemma wrapped_311 : forall w base p bodyv body,
  (forall b0 p0, bodyv b0 p0 = injr (body p0)) ->
  emit_wrapped_v V311 w base p bodyv = injr (emit_wrapped w p body).
Proof.
  intros w base p bodyv body Hb. unfold emit_wrapped_v, emit_wrapped. destruct (is_wrapped w); [|apply Hb].
  rewrite load_name_311. apply injr_cbind. intros cl pl. cbn [fst snd].
  rewrite Hb. apply injr_cbind. intros cb pb. cbn [fst snd].
  rewrite call_311. apply injo_cbind. intros cc.
  unfold emit_push_null_v. change (is311 V311) with true. cbv iota. fin.
Qed.

Lemma expr_311 : forall e base p, emit_expr_v V311 base p e = injr (emit_expr const_same p e).
Proof.
  induction e using expr_ind'; intros base p; cbn [emit_expr_v emit_expr]; apply wrapped_311; intros b0 p0; try reflexivity.
  - apply load_const_311.
  - apply load_name_311.
  - rewrite IHe. apply injr_cbind. intros ca pa. destruct o; fin.
  - rewrite IHe1. apply injr_cbind. intros ca pa. cbn [fst snd].
    rewrite IHe2. apply injr_cbind. intros cb pb. cbn [fst snd].
    unfold emit_arith_v. change (is311 V311) with true. cbv iota. change X_BINARY_OP with (inj BINARY_OP). rewrite write_op_311.
    destruct (write_op BINARY_OP (binop_arg o)) as [co|]; [|reflexivity]. cbn [injo cbind]. fin.
  - rewrite IHe1. apply injr_cbind. intros ca pa. cbn [fst snd].
    rewrite IHe2. apply injr_cbind. intros cb pb. cbn [fst snd].
    unfold emit_cmp_v. change (is311 V311) with true. cbv iota. change X_COMPARE_OP with (inj COMPARE_OP). rewrite write_op_311.
    destruct (write_op COMPARE_OP (cmp_arg o)) as [co|]; [|reflexivity]. cbn [injo cbind]. fin.
  - rewrite IHe1. apply injr_cbind. intros ca pa. cbn [fst snd].
    rewrite IHe2. apply injr_cbind. intros cb pb. cbn [fst snd].
    rewrite (len_injc cb), jump_arg_311. fold (len cb).
    destruct (len cb <? 65536); [|reflexivity]. destruct k; fin.
Qed.

Lemma args_311 : forall es base p, emit_args_v V311 base p es = injr (emit_args const_same p es).
Proof.
  induction es as [|e es IH]; intros base p; cbn [emit_args_v emit_args]; [reflexivity|].
  rewrite expr_311. apply injr_cbind. intros ce pe. cbn [fst snd].
  rewrite IH. apply injr_cbind. intros cr pr. fin.
Qed.

Lemma chunk_311 : forall s base p, emit_chunk_v V311 base p s = injr (emit_chunk const_same p s).
Proof.
  intros s base p. destruct s; cbn [emit_chunk_v emit_chunk]; try reflexivity.
  - rewrite load_name_311. apply injr_cbind. intros cl pl. cbn [fst snd].
    rewrite args_311. apply injr_cbind. intros ca pa. cbn [fst snd].
    rewrite call_311. apply injo_cbind. intros cc.
    unfold emit_push_null_v. change (is311 V311) with true. cbv iota. fin.
  - rewrite expr_311. apply injr_cbind. intros ce pe. cbn [fst snd].
    rewrite store_name_311. apply injr_cbind. intros cs ps. fin.
Qed.

Lemma stmts_311 : forall ss base p, emit_stmts_v V311 base p ss = injr (emit_stmts const_same p ss).
Proof.
  induction ss as [|s ss IH]; intros base p; cbn [emit_stmts_v emit_stmts]; [reflexivity|].
  rewrite chunk_311. apply injr_cbind. intros cs ps. cbn [fst snd].
  rewrite IH. apply injr_cbind. intros cr pr. destruct (leaves_value s); fin.
Qed.

Lemma ends_with_pop_311 : forall c, ends_with_pop_v (injc c) = ends_with_pop c.
Proof.
  intros c. unfold ends_with_pop_v, ends_with_pop, injc. rewrite <- map_rev. destruct (rev c) as [|[o a] r]; [reflexivity|].
  destruct o; reflexivity.
Qed.

Lemma removelast_injc : forall c, removelast (injc c) = injc (removelast c).
Proof.
  induction c as [|u c IH]; [reflexivity|]. cbn [injc map removelast]. destruct c; [reflexivity|].
  cbn [map]. f_equal. exact IH.
Qed.

Lemma compile_311_is_c01 : forall pre_len pre prog, compile_v V311 pre_len pre prog = injr (compile pre prog).
Proof.
  intros pre_len pre prog. unfold compile_v, compile, compile_module. rewrite stmts_311.
  destruct (emit_stmts const_same pre prog) as [[c0 p0]|]; [|reflexivity]. cbn [injr cbind].
  rewrite ends_with_pop_311. destruct (ends_with_pop c0).
  - cbn [injr]. rewrite removelast_injc; fin.
  - rewrite load_const_311. destruct (emit_load_const const_same p0 CNone) as [[cn pn]|]; [|reflexivity]. cbn [injr cbind fst snd].
    fin.
Qed.

Lemma step_311 : forall cs ns pos op arg st, step_v V311 cs ns pos (inj op) arg st = step cs ns op arg st.
Proof.
  intros cs ns pos op arg st. destruct op; try reflexivity.
  (* CALL: the two machines inspect the arguments and the callable in a different order *)
  unfold step_v, step, call_v, call. cbn [inj]. change (has_op V311 X_CALL) with true. change (is311 V311) with true. cbn [negb].
  destruct (negb _); [reflexivity|].
  destruct (skipn _ (stack st)) as [|[x| |f] [|[y| |g] below]]; destruct (all_values _); reflexivity.
Qed.

Lemma run_v_311 : forall cs ns c pos k st, run_v V311 cs ns (injc c) pos k st = run_prefix cs ns c k st.
Proof.
  intros cs ns c; induction c as [|[op a] c IH]; intros pos k st; cbn [injc map inju fst snd run_v run_prefix]; [reflexivity|].
  destruct k as [|k]; [|apply IH]. rewrite step_311. destruct (step cs ns op _ st); [apply IH|reflexivity].
Qed.

Lemma exec_v_311 : forall cs ns pre_len c, exec_v V311 cs ns pre_len (injc c) = VM.exec cs ns c.
Proof. intros. unfold exec_v, VM.exec. rewrite run_v_311. reflexivity. Qed.

Theorem codegen_expr_correct : forall e p code p', emit_expr const_same p e = COk (code, p') ->
  forall P, extends p' P -> forall st, vext st = 0 -> wraps_ok (venv st) e ->
    match eval0 (venv st) e with
    | Ok x => run_prefix (p_consts P) (p_names P) code 0 st = Reached 0 (with_stack st (SV x :: stack st))
    | Raise ex => run_prefix (p_consts P) (p_names P) code 0 st = Halted (rev (vout st), Some (Uncaught ex))
    | OutOfFuel => True
    end.
Proof.
  intros e p code p' H P HP st Hx Hw.
  assert (Hv : emit_expr_v V311 0 p e = COk (injc code, p')) by (rewrite expr_311, H; reflexivity).
  destruct (emitted_ok _ _ _ (emit_expr_v_correct V311 e 0 p) _ _ Hv) as [_ Hc].
  pose proof (does_at_state V311 P _ 0 st _ Hx (Hc P (venv st) HP Hw)) as Hr.
  rewrite run_v_311 in Hr. exact Hr.
Qed.

Theorem codegen_module_correct : forall pre prog code P fuel,
  forallb stmt_in_frag prog = true ->
  compile pre prog = COk (code, P) ->
  prog_wraps_ok [] prog ->
  snd (run_program fuel prog) <> FuelOut ->
  VM.exec (p_consts P) (p_names P) code = (fst (run_program fuel prog), Some (snd (run_program fuel prog))).
Proof.
  intros pre prog code P fuel Hf H Hw Hfuel. rewrite <- (exec_v_311 _ _ 0).
  apply (compile_v_module_correct V311 0 pre prog); try assumption.
  rewrite compile_311_is_c01, H. reflexivity.
Qed.
