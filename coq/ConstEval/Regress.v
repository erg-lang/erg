(** C04 — the evaluator as it was BEFORE the repairs ([*_nofix], transcribed arm by arm from /repo at e96cdbf1),
    and the witnesses showing that it violated the property.  Each [*_refuted] / [*_panics] lemma is a concrete
    input evaluated by [vm_compute]; the same inputs are in corpus/C04/.  Before the repairs were committed the
    [_nofix] model was run against that tree (check with C04_NOFIX=1: 2981 generated cases under a debug and a
    release harness build, 0 differences between model and implementation, 724 verdicts "violates" from the judge).
    Repairs in /repo: 8fda608f (+ typo), 78dd990a (exact integer + - * ** and unary -), f4bd88bc (zero divisors),
    8a9db201 (floor // %), 98d4a695 (Int/Nat comparison), efce320d (Nat/Float comparison), a8bdbefe (float // %),
    b15c7007 (~Bool), 6ec6dcd4 (int / int double rounding).  Model.v is the model of the repaired code;
    [repaired_on_witnesses] at the end shows its answers on the same inputs.
    Kept so that the regression is documented; nothing in Props_C04.v depends on this file. *)
From Coq Require Import ZArith List Bool.
From Coq Require Import Floats.SpecFloat.
From ErgV Require Import ConstEval.Model ConstEval.Spec.
Import ListNotations.
Open Scope Z_scope.

(** `impl From<i32> for ValueObj` *)
Definition from_i32 (i : Z) : value := if 0 <=? i then VNat i else VInt i.
Definition as_i32 (v : Z) : Z := cast I32 v.

Definition int_nofix (r : res Z) : res (option value) := bind r (fun v => Ok (Some (VInt v))).
Definition nat_nofix (r : res Z) : res (option value) := bind r (fun v => Ok (Some (VNat v))).
Definition from_nofix (r : res Z) : res (option value) := bind r (fun v => Ok (Some (from_i32 v))).

Definition try_add_nofix (debug : bool) (a b : value) : res (option value) :=
  match a, b with
  | VInt l, VInt r => int_nofix (arith debug I32 (l + r))
  | VNat l, VNat r => nat_nofix (arith debug U64 (l + r))
  | VFloat l, VFloat r => some_float (F_add l r)
  | VInt l, VNat r => from_nofix (arith debug I32 (l + as_i32 r))
  | VNat l, VInt r => int_nofix (arith debug I32 (as_i32 l + r))
  | VFloat l, VNat r => some_float (F_sub l (Z2F r))         (* `*l - r as f64` *)
  | VInt l, VFloat r => some_float (F_sub (Z2F l) r)
  | VNat l, VFloat r => some_float (F_sub (Z2F l) r)
  | VFloat l, VInt r => some_float (F_sub l (Z2F r))
  | _, _ => none
  end.

Definition try_sub_nofix (debug : bool) (a b : value) : res (option value) :=
  match a, b with
  | VInt l, VInt r => int_nofix (arith debug I32 (l - r))
  | VNat l, VNat r => int_nofix (arith debug I32 (as_i32 l - as_i32 r))
  | VFloat l, VFloat r => some_float (F_sub l r)
  | VInt l, VNat r => from_nofix (arith debug I32 (l - as_i32 r))
  | VNat l, VInt r => from_nofix (arith debug I32 (as_i32 l - r))
  | VFloat l, VNat r => some_float (F_sub l (Z2F r))
  | VNat l, VFloat r => some_float (F_sub (Z2F l) r)
  | VFloat l, VInt r => some_float (F_sub l (Z2F r))
  | VInt l, VFloat r => some_float (F_sub (Z2F l) r)
  | _, _ => none
  end.

Definition try_mul_nofix (debug : bool) (a b : value) : res (option value) :=
  match a, b with
  | VInt l, VInt r => from_nofix (arith debug I32 (l * r))
  | VNat l, VNat r => nat_nofix (arith debug U64 (l * r))
  | VFloat l, VFloat r => some_float (F_mul l r)
  | VInt l, VNat r => int_nofix (arith debug I32 (l * as_i32 r))
  | VNat l, VInt r => int_nofix (arith debug I32 (as_i32 l * r))
  | VFloat l, VNat r => some_float (F_mul l (Z2F r))
  | VNat l, VFloat r => some_float (F_mul (Z2F l) r)
  | VFloat l, VInt r => some_float (F_mul l (Z2F r))
  | VInt l, VFloat r => some_float (F_mul (Z2F l) r)
  | _, _ => none
  end.

Definition try_div_nofix (debug : bool) (a b : value) : res (option value) :=
  match a, b with
  | VInt l, VInt r | VNat l, VNat r | VInt l, VNat r | VNat l, VInt r => some_float (F_div (Z2F l) (Z2F r))
  | VFloat l, VFloat r => some_float (F_div l r)
  | VFloat l, VNat r | VFloat l, VInt r => some_float (F_div l (Z2F r))
  | VNat l, VFloat r | VInt l, VFloat r => some_float (F_div (Z2F l) r)
  | _, _ => none
  end.

(** Rust `/` and `%` on an integer type: zero divisor and MIN / -1 panic in every build *)
Definition idiv (t : ity) (l r : Z) : res Z :=
  if r =? 0 then Panic else if (l =? ity_lo t) && (r =? -1) then Panic else Ok (Z.quot l r).
Definition irem (t : ity) (l r : Z) : res Z :=
  if r =? 0 then Panic else if (l =? ity_lo t) && (r =? -1) then Panic else Ok (Z.rem l r).

Definition try_floordiv_nofix (debug : bool) (a b : value) : res (option value) :=
  match a, b with
  | VInt l, VInt r => int_nofix (idiv I32 l r)
  | VNat l, VNat r => nat_nofix (idiv U64 l r)
  | VFloat l, VFloat r => some_float (F_floor (F_div l r))
  | VInt l, VNat r => int_nofix (idiv I32 l (as_i32 r))
  | VNat l, VInt r => int_nofix (idiv I32 (as_i32 l) r)
  | VFloat l, VNat r | VFloat l, VInt r => some_float (F_floor (F_div l (Z2F r)))
  | VNat l, VFloat r | VInt l, VFloat r => some_float (F_floor (F_div (Z2F l) r))
  | _, _ => none
  end.

Definition try_mod_nofix (debug : bool) (a b : value) : res (option value) :=
  match a, b with
  | VInt l, VInt r => int_nofix (irem I32 l r)
  | VNat l, VNat r => nat_nofix (irem U64 l r)
  | VFloat l, VFloat r => some_float (F_fmod l r)
  | VInt l, VNat r => int_nofix (irem I32 l (as_i32 r))
  | VNat l, VInt r => int_nofix (irem I32 (as_i32 l) r)
  | VFloat l, VNat r | VFloat l, VInt r => some_float (F_fmod l (Z2F r))
  | VNat l, VFloat r | VInt l, VFloat r => some_float (F_fmod (Z2F l) r)
  | _, _ => none
  end.

(** `l.pow(r.try_into().ok()?)`: overflow of a product panics (debug) or wraps (release) *)
Definition pow_nofix (debug : bool) (t : ity) (l r : Z) (k : Z -> value) : res (option value) :=
  match try_from U32 r with
  | Some e => bind (arith debug t (l ^ e)) (fun v => Ok (Some (k v)))
  | None => none
  end.
Definition try_pow_nofix (debug : bool) (a b : value) : res (option value) :=
  match a, b with
  | VInt l, VInt r => pow_nofix debug I32 l r VInt
  | VNat l, VNat r => pow_nofix debug U64 l r VNat
  | VInt l, VNat r => pow_nofix debug I32 l r VInt
  | VNat l, VInt r => pow_nofix debug U64 l r VNat
  | VFloat _, VFloat _ | VFloat _, VNat _ | VNat _, VFloat _ | VFloat _, VInt _ | VInt _, VFloat _ =>
    Ok (Some VFloatUnk)
  | _, _ => none
  end.

Definition try_cmp_nofix (on_cmp : comparison -> bool) (on_nan : bool) (bool_ok : bool) (a b : value)
  : res (option value) :=
  match a, b with
  | VInt l, VInt r | VNat l, VNat r => some_bool (on_cmp (Z.compare l r))
  | VFloat l, VFloat r => some_bool (cmp_test on_cmp on_nan (F_cmp l r))
  | VInt l, VNat r => some_bool (on_cmp (Z.compare l (as_i32 r)))          (* `l > r as i32` *)
  | VNat l, VInt r => some_bool (on_cmp (Z.compare (as_i32 l) r))
  | VFloat l, VNat r | VFloat l, VInt r => some_bool (cmp_test on_cmp on_nan (F_cmp l (Z2F r)))
  | VNat l, VFloat r | VInt l, VFloat r => some_bool (cmp_test on_cmp on_nan (F_cmp (Z2F l) r))
  | VBool l, VBool r => if bool_ok then some_bool (on_cmp (Z.compare (Z.b2z l) (Z.b2z r))) else none
  | _, _ => none
  end.

Definition eval_bin_nofix (debug : bool) (op : binop) (a b : value) : res (option value) :=
  match op with
  | OAdd => try_add_nofix debug a b
  | OSub => try_sub_nofix debug a b
  | OMul => try_mul_nofix debug a b
  | ODiv => try_div_nofix debug a b
  | OFloorDiv => try_floordiv_nofix debug a b
  | OPow => try_pow_nofix debug a b
  | OMod => try_mod_nofix debug a b
  | OGt => try_cmp_nofix is_gt false false a b
  | OGe => try_cmp_nofix is_ge false false a b
  | OLt => try_cmp_nofix is_lt false false a b
  | OLe => try_cmp_nofix is_le false false a b
  | OEq => try_cmp_nofix is_eq false true a b
  | ONe => try_cmp_nofix is_ne true true a b
  | OOr | OBitOr => eval_or a b
  | OAnd | OBitAnd => eval_and a b
  | OBitXor => eval_xor a b
  | OShl | OShr => none
  end.
Definition try_binary_nofix (debug : bool) (op : binop) (a b : value) : res (option value) :=
  match op with
  | OAdd | OSub | OMul | ODiv | OLt | OGt | OLe | OGe | OEq | ONe => eval_bin_nofix debug op a b
  | _ => none
  end.
Definition try_direct_nofix (debug : bool) (op : binop) (a b : value) : res (option value) :=
  match op with
  | OOr => try_or a b
  | OAnd | OBitAnd | OBitOr | OBitXor | OShl | OShr => none
  | _ => eval_bin_nofix debug op a b
  end.

Definition eval_unary_nofix (debug : bool) (op : unop) (a : value) : res (option value) :=
  match op with
  | UPos => match a with VNat _ | VInt _ | VFloat _ => Ok (Some a) | _ => none end
  | UNeg => match a with
           | VNat n => int_nofix (arith debug I32 (- as_i32 n))      (* Int(-(n as i32)) *)
           | VInt i => int_nofix (arith debug I32 (- i))
           | VFloat f => some_float (F_neg f)
           | _ => none
           end
  | UInvert => match a with VBool b => some_bool (negb b) | _ => none end
  | UNot => match a with VBool b => some_bool (negb b) | _ => none end
  end.

(** the evaluator folds to a value; at run time the expression has another value or none (it raises, or Spec.v
    does not model it) *)
Definition disagrees (r : res (option value)) (p : pyres) : Prop :=
  exists v, r = Ok (Some v) /\ (forall v', p = PyOk v' -> ~ same_value v v').
Definition f (num den : Z) : spec_float := F_div (Z2F num) (Z2F den).   (* the double nearest to num/den *)

Lemma disagrees_by : forall r p v, r = Ok (Some v) ->
  match p with PyOk w => ~ same_value v w | _ => True end -> disagrees r p.
Proof. intros r p v -> N. exists v. split; [reflexivity|]. intros v' ->. exact N. Qed.
Ltac refute x := apply disagrees_by with (v := x); now vm_compute.

(** 1. `N = 1.5 + 2` is folded to -0.5 (try_add used `-` for Float/Int mixes) *)
Lemma add_float_nat_refuted : forall debug,
  disagrees (eval_bin_nofix debug OAdd (VFloat (f 3 2)) (VNat 2)) (py_eval OAdd (PFloat (f 3 2)) (PInt 2)).
Proof. intros debug. refute (VFloat (f (-1) 2)). Qed.
Lemma add_int_float_refuted : forall debug,
  disagrees (eval_bin_nofix debug OAdd (VInt (-3)) (VFloat (f 1 2))) (py_eval OAdd (PInt (-3)) (PFloat (f 1 2))).
Proof. intros debug. refute (VFloat (f (-7) 2)). Qed.

(** 2. `-7 // 2` is folded to -3 and `-7 % 2` to -1 (truncation instead of floor) *)
Lemma floordiv_trunc_refuted : forall debug,
  disagrees (eval_bin_nofix debug OFloorDiv (VInt (-7)) (VNat 2)) (py_eval OFloorDiv (PInt (-7)) (PInt 2)).
Proof. intros debug. refute (VInt (-3)). Qed.
Lemma mod_trunc_refuted : forall debug,
  disagrees (eval_bin_nofix debug OMod (VInt (-7)) (VNat 2)) (py_eval OMod (PInt (-7)) (PInt 2)).
Proof. intros debug. refute (VInt (-1)). Qed.

(** 3. i32 / u64 overflow: panic in a debug build, silent wrap in a release build *)
Lemma add_overflow_panics : eval_bin_nofix true OAdd (VInt (-2147483648)) (VInt (-1)) = Panic.
Proof. reflexivity. Qed.
Lemma add_overflow_wraps_refuted :
  disagrees (eval_bin_nofix false OAdd (VInt (-2147483648)) (VInt (-1))) (py_eval OAdd (PInt (-2147483648)) (PInt (-1))).
Proof. refute (VInt 2147483647). Qed.
Lemma mul_overflow_panics : eval_bin_nofix true OMul (VNat 4294967296) (VNat 4294967296) = Panic.
Proof. reflexivity. Qed.
Lemma pow_overflow_panics : eval_bin_nofix true OPow (VNat 2) (VNat 64) = Panic.
Proof. reflexivity. Qed.
Lemma neg_overflow_panics : eval_unary_nofix true UNeg (VNat 2147483648) = Panic.
Proof. reflexivity. Qed.

(** 4. zero divisors: `//` and `%` panic in every build; `/` folds to inf although run time raises *)
Lemma floordiv_zero_panics : forall debug, eval_bin_nofix debug OFloorDiv (VNat 7) (VNat 0) = Panic.
Proof. intros debug. reflexivity. Qed.
Lemma mod_zero_panics : forall debug, eval_bin_nofix debug OMod (VInt (-7)) (VInt 0) = Panic.
Proof. intros debug. reflexivity. Qed.
Lemma floordiv_min_panics : forall debug, eval_bin_nofix debug OFloorDiv (VInt (-2147483648)) (VInt (-1)) = Panic.
Proof. intros debug. reflexivity. Qed.
Lemma div_zero_refuted : forall debug,
  disagrees (eval_bin_nofix debug ODiv (VNat 7) (VNat 0)) (py_eval ODiv (PInt 7) (PInt 0)).
Proof. intros debug. refute (VFloat (S754_infinity false)). Qed.

(** 5. `as i32` truncation of a u64: `3000000000 - 1` is folded to -1294967297; `-1 == 4294967295` to True *)
Lemma sub_truncation_refuted : forall debug,
  disagrees (eval_bin_nofix debug OSub (VNat 3000000000) (VNat 1)) (py_eval OSub (PInt 3000000000) (PInt 1)).
Proof. intros debug. refute (VInt (-1294967297)). Qed.
Lemma eq_truncation_refuted : forall debug,
  disagrees (eval_bin_nofix debug OEq (VInt (-1)) (VNat 4294967295)) (py_eval OEq (PInt (-1)) (PInt 4294967295)).
Proof. intros debug. refute (VBool true). Qed.

(** 6. comparison of a Nat above 2^53 with a Float goes through a rounding conversion *)
Lemma eq_nat_float_refuted : forall debug,
  disagrees (eval_bin_nofix debug OEq (VNat 9007199254740993) (VFloat (Z2F 9007199254740992)))
            (py_eval OEq (PInt 9007199254740993) (PFloat (Z2F 9007199254740992))).
Proof. intros debug. refute (VBool true). Qed.

(** 7. float `//` is floor(l / r) and float `%` is C fmod: `1.0 // 0.1` folds to 10.0 (run time: 9.0),
       `-1.0 % 3.0` to -1.0 (run time: 2.0) *)
Lemma float_floordiv_refuted : forall debug,
  disagrees (eval_bin_nofix debug OFloorDiv (VFloat (Z2F 1)) (VFloat (f 1 10)))
            (py_eval OFloorDiv (PFloat (Z2F 1)) (PFloat (f 1 10))).
Proof. intros debug. refute (VFloat (Z2F 10)). Qed.
Lemma float_mod_refuted : forall debug,
  disagrees (eval_bin_nofix debug OMod (VFloat (Z2F (-1))) (VFloat (Z2F 3)))
            (py_eval OMod (PFloat (Z2F (-1))) (PFloat (Z2F 3))).
Proof. intros debug. refute (VFloat (Z2F (-1))). Qed.

(** 8. `~True` is folded to False; at run time it is -2 *)
Lemma invert_bool_refuted : forall debug,
  exists v, eval_unary_nofix debug UInvert (VBool true) = Ok (Some v) /\
            forall v', py_unary UInvert (PBool true) = PyOk v' -> ~ same_value v v'.
Proof. intros debug. refute (VBool false). Qed.

(** 9. `/` on integers rounds twice when an operand above 2^53 is not exactly an f64 *)
Lemma div_double_rounding_refuted : forall debug,
  disagrees (eval_bin_nofix debug ODiv (VNat 14098162137463602736) (VNat 4705193143269049554))
            (py_eval ODiv (PInt 14098162137463602736) (PInt 4705193143269049554)).
Proof.
  intros debug. eapply disagrees_by; [vm_compute; reflexivity | now vm_compute].
Qed.

(** the repaired evaluator (Model.v) on the same inputs: folded to the run-time value or not evaluated *)
Lemma repaired_on_witnesses :
  eval_bin true OAdd (VFloat (f 3 2)) (VNat 2) = Ok (Some (VFloat (f 7 2))) /\
  eval_bin true OFloorDiv (VInt (-7)) (VNat 2) = Ok (Some (VInt (-4))) /\
  eval_bin true OMod (VInt (-7)) (VNat 2) = Ok (Some (VInt 1)) /\
  eval_bin true OAdd (VInt (-2147483648)) (VInt (-1)) = Ok None /\
  eval_bin true OMul (VNat 4294967296) (VNat 4294967296) = Ok None /\
  eval_bin true OPow (VNat 2) (VNat 64) = Ok None /\
  eval_unary true UNeg (VNat 2147483648) = Ok (Some (VInt (-2147483648))) /\
  eval_bin true OFloorDiv (VNat 7) (VNat 0) = Ok None /\
  eval_bin true OFloorDiv (VInt (-2147483648)) (VInt (-1)) = Ok (Some (VNat 2147483648)) /\
  eval_bin true ODiv (VNat 7) (VNat 0) = Ok None /\
  eval_bin true OSub (VNat 3000000000) (VNat 1) = Ok (Some (VNat 2999999999)) /\
  eval_bin true OEq (VInt (-1)) (VNat 4294967295) = Ok (Some (VBool false)) /\
  eval_bin true OEq (VNat 9007199254740993) (VFloat (Z2F 9007199254740992)) = Ok (Some (VBool false)) /\
  eval_bin true OFloorDiv (VFloat (Z2F 1)) (VFloat (f 1 10)) = Ok (Some (VFloat (Z2F 9))) /\
  eval_bin true OMod (VFloat (Z2F (-1))) (VFloat (Z2F 3)) = Ok (Some (VFloat (Z2F 2))) /\
  eval_unary true UInvert (VBool true) = Ok (Some (VInt (-2))) /\
  eval_bin true ODiv (VNat 14098162137463602736) (VNat 4705193143269049554) = Ok None.
Proof. vm_compute. repeat split. Qed.
