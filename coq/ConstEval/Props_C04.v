(** C04 — property theorems; those about [eval_bin] and [eval_unary] are read off [eval_bin_outcome] and
    [eval_unary_outcome] of Proofs.v.

    Model: ConstEval/Model.v ([eval_bin], [eval_unary]: the compile-time evaluator of erg on Int / Nat / Float /
    Bool values, machine integers and overflow behaviour explicit, [debug] = debug or release build).
    Run-time side: ConstEval/Spec.v ([py_eval], [py_unary]: Python semantics on unbounded integers and binary64).
    [Ok None] = the expression is not evaluated at compile time (left to run time / reported as a diagnostic). *)
From Coq Require Import ZArith List Bool.
From Coq Require Import Floats.SpecFloat.
From ErgV Require Import ConstEval.Model ConstEval.Spec ConstEval.Proofs.
Import ListNotations.
Open Scope Z_scope.

(** Constant evaluation never crashes: every operator, all operands in the machine ranges (including zero
    divisors, i32::MIN, u64::MAX, every float), debug and release build. *)
Theorem fold_total : forall debug op a b,
  wf_value a = true -> wf_value b = true -> eval_bin debug op a b <> Panic.
Proof. intros debug op a b Wa Wb. exact (outcome_total _ _ _ (eval_bin_outcome debug op a b Wa Wb)). Qed.
Example fold_total_ex :
  wf_value (VInt (-2147483648)) = true /\ wf_value (VNat 0) = true /\
  eval_bin true OFloorDiv (VInt (-2147483648)) (VInt (-1)) = Ok (Some (VNat 2147483648)) /\
  eval_bin true OMod (VInt (-2147483648)) (VNat 0) = Ok None.
Proof. vm_compute. repeat split. Qed.

Theorem unary_total : forall debug op a, wf_value a = true -> eval_unary debug op a <> Panic.
Proof. intros debug op a Wa. exact (outcome_total _ _ _ (eval_unary_outcome debug op a Wa)). Qed.
Example unary_total_ex : eval_unary true UNeg (VNat 2147483648) = Ok (Some (VInt (-2147483648))).
Proof. vm_compute. reflexivity. Qed.

(** A folded value is the run-time value — integer/bool fragment (no Float operand, operator other than [/]):
    fully proved, all operators, all operands in the machine ranges. *)
Theorem fold_agrees_int : forall debug op a b v,
  wf_value a = true -> wf_value b = true -> int_fragment op a b = true ->
  eval_bin debug op a b = Ok (Some v) ->
  exists v', py_eval op (to_py a) (to_py b) = PyOk v' /\ same_value v v'.
Proof.
  intros debug op a b v Wa Wb F.
  apply outcome_agrees with (1 := eval_bin_outcome debug op a b Wa Wb). apply int_fragment_guard, F.
Qed.
Example fold_agrees_int_ex :
  int_fragment OFloorDiv (VInt (-7)) (VNat 2) = true /\
  eval_bin false OFloorDiv (VInt (-7)) (VNat 2) = Ok (Some (VInt (-4))) /\
  py_eval OFloorDiv (PInt (-7)) (PInt 2) = PyOk (PInt (-4)) /\
  eval_bin true OSub (VNat 3000000000) (VNat 1) = Ok (Some (VNat 2999999999)) /\
  eval_bin true OPow (VNat 2) (VNat 63) = Ok (Some (VNat 9223372036854775808)) /\
  eval_bin true OEq (VInt (-1)) (VNat 4294967295) = Ok (Some (VBool false)).
Proof. vm_compute. repeat split. Qed.

(** Full statement (NOT proved in this generality):
      forall debug op a b v, wf_value a = true -> wf_value b = true -> Known_C04 op a b = false ->
        eval_bin debug op a b = Ok (Some v) -> exists v', py_eval op (to_py a) (to_py b) = PyOk v' /\ same_value v v'.
    Proved with the additional guard [By_correspondence_C04 op a b = false], which excludes [/] on two integers
    (model: one IEEE division of the converted operands; Python: the exact quotient rounded once) and the
    comparison of an integer with a Float (model: through [Z2F] / the exact [cmp_nat_float]; Python: exact).  Both
    need rounding-error lemmas about SpecFloat that are not in Coq's standard library; these cases are carried by
    the correspondence check and the extracted judge only.  So the theorem covers: every operator on Int/Nat/Bool
    operands except [/]; [+ - * / // %] with a Float operand; comparisons of two Floats.
    [Known_C04] = [**] with a Float operand (libm pow: known finding C04-float-pow). *)
Theorem fold_agrees_partial : forall debug op a b v,
  wf_value a = true -> wf_value b = true -> Known_C04 op a b = false -> By_correspondence_C04 op a b = false ->
  eval_bin debug op a b = Ok (Some v) ->
  exists v', py_eval op (to_py a) (to_py b) = PyOk v' /\ same_value v v'.
Proof.
  intros debug op a b v Wa Wb K C.
  apply outcome_agrees with (1 := eval_bin_outcome debug op a b Wa Wb). rewrite K, C. reflexivity.
Qed.
Example fold_agrees_partial_ex :
  Known_C04 OAdd (VFloat (F_div (Z2F 3) (Z2F 2))) (VNat 2) = false /\
  By_correspondence_C04 OAdd (VFloat (F_div (Z2F 3) (Z2F 2))) (VNat 2) = false /\
  eval_bin true OAdd (VFloat (F_div (Z2F 3) (Z2F 2))) (VNat 2) = Ok (Some (VFloat (F_div (Z2F 7) (Z2F 2)))) /\
  eval_bin true OFloorDiv (VFloat (Z2F 1)) (VFloat (F_div (Z2F 1) (Z2F 10))) = Ok (Some (VFloat (Z2F 9))).
Proof. vm_compute. repeat split. Qed.

(** The known class is not empty and not covered: the model folds [0.0 ** -1.0] to a Float that Spec.v cannot
    account for (the implementation folds it to inf; at run time it raises ZeroDivisionError: replayed by the check). *)
Theorem fold_agrees_known_refuted : exists op a b v,
  wf_value a = true /\ wf_value b = true /\ Known_C04 op a b = true /\
  eval_bin true op a b = Ok (Some v) /\ forall v', py_eval op (to_py a) (to_py b) <> PyOk v'.
Proof. exact known_class_refuted. Qed.

(** Unary operators: every operator, every operand kind (Floats included). *)
Theorem unary_agrees : forall debug op a v,
  wf_value a = true -> eval_unary debug op a = Ok (Some v) ->
  exists v', py_unary op (to_py a) = PyOk v' /\ same_value v v'.
Proof. intros debug op a v Wa. exact (outcome_agrees _ _ _ v (eval_unary_outcome debug op a Wa) eq_refl). Qed.
Example unary_agrees_ex :
  eval_unary true UInvert (VBool true) = Ok (Some (VInt (-2))) /\ py_unary UInvert (PBool true) = PyOk (PInt (-2)) /\
  eval_unary true UNeg (VInt (-2147483648)) = Ok (Some (VNat 2147483648)).
Proof. vm_compute. repeat split. Qed.

(** An integer result is a well-formed ValueObj: Int within i32, Nat within u64 (all operators, all operands). *)
Theorem fold_in_range : forall debug op a b v,
  wf_value a = true -> wf_value b = true -> eval_bin debug op a b = Ok (Some v) -> int_wf v.
Proof. intros debug op a b v Wa Wb. exact (outcome_wf _ _ _ v (eval_bin_outcome debug op a b Wa Wb)). Qed.
Theorem unary_in_range : forall debug op a v,
  wf_value a = true -> eval_unary debug op a = Ok (Some v) -> int_wf v.
Proof. intros debug op a v Wa. exact (outcome_wf _ _ _ v (eval_unary_outcome debug op a Wa)). Qed.
Example fold_in_range_ex : eval_bin true OAdd (VInt 2147483647) (VInt 2147483647) = Ok (Some (VNat 4294967294)).
Proof. vm_compute. reflexivity. Qed.

(** The public entry points ValueObj::try_<op> and ValueObj::try_binary answer like [eval_bin] or not at all,
    so the theorems above hold for them as well. *)
Theorem apis_refine_eval_bin : forall debug op a b,
  (try_direct debug op a b = Ok None \/ try_direct debug op a b = eval_bin debug op a b) /\
  (try_binary debug op a b = Ok None \/ try_binary debug op a b = eval_bin debug op a b).
Proof.
  intros debug op a b. split.
  - destruct op; cbn [try_direct eval_bin]; auto.
    destruct a, b; cbn; auto.
  - destruct op; cbn [try_binary eval_bin]; auto.
Qed.

(** The executable judge applied to the implementation's answers (Spec.judge_bin, extracted) is sound for the
    property: verdict 1 means no crash and, if a value was folded, it is the run-time value. *)
Theorem judge_sound : forall op a b r, judge_bin op a b r = 1 ->
  r <> Panic /\
  (forall v, r = Ok (Some v) -> exists v', py_eval op (to_py a) (to_py b) = PyOk v' /\ same_value v v').
Proof.
  intros op a b r H. destruct (verdict_sound _ _ H) as [T A]. split; [exact T|].
  intros v E. destruct (A v E) as [v' [P S]]. exists v'. split; [apply py_eval_x_ok, P | exact S].
Qed.
Example judge_ex :
  judge_bin OFloorDiv (VInt (-7)) (VNat 2) (Ok (Some (VInt (-4)))) = 1 /\
  judge_bin OFloorDiv (VInt (-7)) (VNat 2) (Ok (Some (VInt (-3)))) = 0 /\
  judge_bin OFloorDiv (VInt 7) (VNat 0) Panic = 0 /\ judge_bin OFloorDiv (VInt 7) (VNat 0) (Ok None) = 1.
Proof. vm_compute. repeat split. Qed.
