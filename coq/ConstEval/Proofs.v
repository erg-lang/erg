(** C04 — the constant evaluator (Model.v) against the Python semantics of Spec.v.  What Props_C04.v states about
    [eval_bin] and [eval_unary] is read off one fact about each: the answer is an [outcome].  An arithmetic arm on
    integers is [int_op] on operands that fit i128 exactly; a float arm is the same float operation on both sides; a
    comparison or a bitwise arm computes the run-time answer directly; the remaining arms are [Ok None] or lie in a
    guarded class.  Then: the two fragments lie outside the guards ([int_fragment_guard], [float_fragment_guard]); a witness
    inside the known class ([known_class_refuted]); the executable judge is sound ([verdict_sound], [py_eval_x_ok]). *)
From Coq Require Import ZArith List Bool Lia.
From Coq Require Import Floats.SpecFloat.
From ErgV Require Import ConstEval.Model ConstEval.Spec.
Import ListNotations.
Open Scope Z_scope.

(** every i32 and every u64 operand lies here, well inside i128 *)
Definition opnd (v : Z) : Prop := -2147483648 <= v <= 18446744073709551615.

Lemma in_range_iff : forall t v, in_range t v = true <-> ity_lo t <= v <= ity_hi t.
Proof. intros t v. unfold in_range. rewrite andb_true_iff, !Z.leb_le. tauto. Qed.

Lemma i32_opnd : forall v, in_range I32 v = true -> opnd v.
Proof. intros v H. apply in_range_iff in H. cbn in H. unfold opnd. lia. Qed.
Lemma u64_opnd : forall v, in_range U64 v = true -> opnd v.
Proof. intros v H. apply in_range_iff in H. cbn in H. unfold opnd. lia. Qed.

Lemma as_i128_id : forall v, opnd v -> as_i128 v = v.
Proof.
  intros v H. unfold as_i128, cast, wrap, opnd in *. cbn [ity_lo ity_hi].
  rewrite Z.mod_small; lia.
Qed.

Lemma try_from_some : forall t v x, try_from t v = Some x -> x = v /\ in_range t v = true.
Proof. unfold try_from. intros t v x. destruct (in_range t v); intros H; inversion H; auto. Qed.

Definition int_wf (v : value) : Prop :=
  match v with
  | VInt i => in_range I32 i = true
  | VNat n => in_range U64 n = true
  | _ => True
  end.

Lemma exact_int_some : forall v int x, exact_int v int = Some x -> int_wf x /\ same_value x (PInt v).
Proof.
  intros v int x. unfold exact_int, try_from.
  destruct (in_range I32 v) eqn:E1, (in_range U64 v) eqn:E2; cbn [option_map];
    try destruct (int || (v <? 0)); intros [= <-]; split; (assumption || reflexivity).
Qed.

Lemma checked_add_some : forall a b v, checked_add a b = Some v -> v = a + b.
Proof. unfold checked_add. intros a b v H. apply try_from_some in H. tauto. Qed.
Lemma checked_sub_some : forall a b v, checked_sub a b = Some v -> v = a - b.
Proof. unfold checked_sub. intros a b v H. apply try_from_some in H. tauto. Qed.
Lemma checked_mul_some : forall a b v, checked_mul a b = Some v -> v = a * b.
Proof. unfold checked_mul. intros a b v H. apply try_from_some in H. tauto. Qed.
Lemma checked_div_some : forall a b q, checked_div a b = Some q -> b <> 0 /\ q = Z.quot a b.
Proof.
  unfold checked_div. intros a b q. destruct (Z.eqb_spec b 0); [discriminate|].
  destruct (_ && _); [discriminate|]. intros [= <-]. auto.
Qed.
Lemma checked_rem_some : forall a b q, checked_rem a b = Some q -> b <> 0 /\ q = Z.rem a b.
Proof.
  unfold checked_rem. intros a b q. destruct (Z.eqb_spec b 0); [discriminate|].
  destruct (_ && _); [discriminate|]. intros [= <-]. auto.
Qed.

Lemma pow_xO : forall b q, b ^ Z.pos q~0 = b ^ Z.pos q * b ^ Z.pos q.
Proof. intros b q. rewrite Pos2Z.inj_xO. apply Z.pow_twice_r. Qed.
Lemma pow_xI : forall b q, b ^ Z.pos q~1 = b ^ Z.pos q * b ^ Z.pos q * b.
Proof. intros b q. rewrite Pos2Z.inj_xI, Z.pow_add_r, Z.pow_twice_r, Z.pow_1_r by lia. reflexivity. Qed.

Lemma checked_pow_pos_some : forall p b v, checked_pow_pos b p = Some v -> v = b ^ Zpos p.
Proof.
  induction p as [q IH|q IH|]; intros b v; cbn [checked_pow_pos].
  - destruct (checked_pow_pos b q) as [h|] eqn:E; [apply IH in E; subst h|discriminate].
    destruct (checked_mul _ _) as [h2|] eqn:E2; [apply checked_mul_some in E2; subst h2|discriminate].
    intros H. apply checked_mul_some in H. rewrite pow_xI. exact H.
  - destruct (checked_pow_pos b q) as [h|] eqn:E; [apply IH in E; subst h|discriminate].
    intros H. apply checked_mul_some in H. rewrite pow_xO. exact H.
  - intros [= <-]. symmetry. apply Z.pow_1_r.
Qed.

Lemma pow_op_some : forall l r v, pow_op l r = Some v -> 0 <= r /\ v = l ^ r.
Proof.
  unfold pow_op. intros l r v. destruct (try_from U32 r) as [e|] eqn:E; [|discriminate].
  apply try_from_some in E. destruct E as [-> E]. apply in_range_iff in E. cbn in E.
  intros H. split; [lia|]. destruct r as [|p|p]; [inversion H; reflexivity | apply checked_pow_pos_some, H | lia].
Qed.

Lemma floor_adjust : forall l r q m, l = r * q + m -> Z.abs m < Z.abs r ->
  (if negb (m =? 0) && negb (Bool.eqb (m <? 0) (r <? 0)) then (q - 1, m + r) else (q, m)) = (l / r, l mod r).
Proof.
  intros l r q m Hl Hm.
  assert (U : forall q' m', l = r * q' + m' -> 0 <= m' < r \/ r < m' <= 0 -> (q', m') = (l / r, l mod r)).
  { intros q' m' E B. f_equal; [apply Z.div_unique with m' | apply Z.mod_unique with q']; assumption. }
  destruct (Z.eqb_spec m 0) as [->|N]; cbn [negb andb]; [apply U; lia|].
  destruct (Z.ltb_spec m 0), (Z.ltb_spec r 0); cbn [negb Bool.eqb]; apply U; lia.
Qed.

Lemma quot_bound : forall l r, r <> 0 -> Z.abs (Z.quot l r) <= Z.abs l.
Proof.
  intros l r Hr. rewrite <- Z.quot_abs by assumption. apply Z.quot_le_upper_bound; nia.
Qed.

Lemma floor_divmod_ok : forall debug l r, opnd l -> opnd r -> r <> 0 ->
  floor_divmod debug l r = Ok (Some (l / r, l mod r)).
Proof.
  intros debug l r Hl Hr E. unfold floor_divmod, checked_div, checked_rem, opnd in *.
  rewrite (proj2 (Z.eqb_neq r 0) E), (proj2 (Z.eqb_neq l (ity_lo I128))) by (cbn; lia). cbn [andb].
  pose proof (floor_adjust l r _ _ (Z.quot_rem' l r) (Z.rem_bound_abs l r E)) as FA.
  pose proof (quot_bound l r E) as QB.
  pose proof (Z.rem_bound_abs l r E) as RB.
  destruct (negb _ && negb _); [|rewrite FA; reflexivity].
  unfold arith. rewrite !(proj2 (in_range_iff I128 _)) by (cbn; lia). cbn [bind]. rewrite FA. reflexivity.
Qed.

Lemma F_eq_zero : forall f, F_eq f F_zero = float_is_zero f.
Proof. intros [[]|[]| |[] m e]; reflexivity. Qed.

Lemma float_divmod_eq : forall l r, float_divmod l r = py_float_divmod l r.
Proof.
  intros l r. unfold float_divmod, py_float_divmod.
  destruct (F_nonzero (F_fmod l r)); [destruct (negb _)|]; cbv zeta beta iota; unfold F_nonzero;
    match goal with |- context [F_eq ?d F_zero] => destruct (F_eq d F_zero) end; reflexivity.
Qed.

(* [guard]: the operands are in a class whose agreement with [p] is not claimed *)
Inductive outcome (guard : bool) (p : pyres) : res (option value) -> Prop :=
| out_none : outcome guard p (Ok None)
| out_some v : int_wf v -> (guard = false -> exists v', p = PyOk v' /\ same_value v v') ->
               outcome guard p (Ok (Some v)).

Lemma outcome_total : forall guard p r, outcome guard p r -> r <> Panic.
Proof. intros guard p r [|v _ _]; discriminate. Qed.
Lemma outcome_wf : forall guard p r v, outcome guard p r -> r = Ok (Some v) -> int_wf v.
Proof. intros guard p r v [|w W _]; intros [= <-]. exact W. Qed.
Lemma outcome_agrees : forall guard p r v, outcome guard p r -> guard = false -> r = Ok (Some v) ->
  exists v', p = PyOk v' /\ same_value v v'.
Proof. intros guard p r v [|w _ A] G; intros [= <-]. exact (A G). Qed.

Lemma out_same : forall guard v v', int_wf v -> same_value v v' -> outcome guard (PyOk v') (Ok (Some v)).
Proof. intros guard v v' W S. apply out_some; [exact W | intros _; exists v'; auto]. Qed.
Lemma out_guarded : forall p v, int_wf v -> outcome true p (Ok (Some v)).
Proof. intros p v W. apply out_some; [exact W | discriminate]. Qed.
(** a zero divisor is not evaluated, and raises at run time *)
Lemma out_unless : forall guard (c : bool) e p r, (c = false -> outcome guard p r) ->
  outcome guard (if c then PyRaise e else p) (if c then none else r).
Proof. intros guard [] e p r H; [apply out_none | auto]. Qed.

Lemma int_op_outcome : forall guard p l r int op o, opnd l -> opnd r -> op l r = Ok o ->
  (forall z, o = Some z -> p = PyOk (PInt z)) -> outcome guard p (int_op l r int op).
Proof.
  intros guard p l r int op o Hl Hr Hop Hp. unfold int_op. rewrite !as_i128_id, Hop by assumption. cbn [bind].
  destruct o as [z|]; [|apply out_none].
  destruct (exact_int z int) as [x|] eqn:E; [|apply out_none].
  apply exact_int_some in E. destruct E as [W S]. rewrite (Hp z eq_refl). apply out_same; assumption.
Qed.

Lemma pure_outcome : forall guard p l r int f, opnd l -> opnd r ->
  (forall z, f l r = Some z -> p = PyOk (PInt z)) -> outcome guard p (int_op l r int (pure_op f)).
Proof. intros guard p l r int f Hl Hr Hp. apply int_op_outcome with (o := f l r); auto. Qed.

Lemma divmod_outcome : forall guard debug l r int pick x, opnd l -> opnd r -> r <> 0 ->
  x = pick (l / r, l mod r) -> outcome guard (PyOk (PInt x)) (divmod_result debug l r int pick).
Proof.
  intros guard debug l r int pick x Hl Hr E ->. unfold divmod_result.
  apply int_op_outcome with (o := Some (pick (l / r, l mod r))); auto.
  - rewrite floor_divmod_ok by assumption. reflexivity.
  - intros z [= <-]. reflexivity.
Qed.

Definition bin_outcome (debug : bool) (op : binop) (a b : value) : Prop :=
  outcome (Known_C04 op a b || By_correspondence_C04 op a b) (py_eval op (to_py a) (to_py b)) (eval_bin debug op a b).

Ltac opnds := auto using i32_opnd, u64_opnd.

(* [checked_add], [checked_sub], [checked_mul] are [try_from I128] of the exact result *)
Lemma checked_py : forall v z, try_from I128 v = Some z -> PyOk (PInt v) = PyOk (PInt z).
Proof. intros v z H. apply try_from_some in H. destruct H as [-> _]. reflexivity. Qed.

Lemma pow_op_py : forall l r z, pow_op l r = Some z -> py_arith OPow (NI l) (NI r) = PyOk (PInt z).
Proof.
  intros l r z H. apply pow_op_some in H. destruct H as [H ->].
  cbn [py_arith]. rewrite (proj2 (Z.leb_le 0 r) H). reflexivity.
Qed.

Lemma div_nat_outcome : forall p x y, outcome true p (div_nat x y).
Proof. intros p [x|] [y|]; first [apply out_none | now apply out_guarded]. Qed.

Lemma cmp_outcome : forall on_cmp on_nan bool_ok a b, wf_value a = true -> wf_value b = true ->
  outcome (negb (Bool.eqb (is_vfloat a) (is_vfloat b)))
          (py_compare on_cmp on_nan (as_num (to_py a)) (as_num (to_py b))) (try_cmp_with on_cmp on_nan bool_ok a b).
Proof.
  intros on_cmp on_nan bool_ok [l|l|l|l|] [r|r|r|r|] Wa Wb.
  all: cbn [try_cmp_with py_compare py_cmp to_py as_num cmp_test is_vfloat negb Bool.eqb some_bool none].
  all: rewrite ?as_i128_id by opnds.
  all: first [ apply out_none | now apply out_same | now apply out_guarded | destruct bool_ok ].
  all: first [ apply out_none | now apply out_same ].
Qed.

(** an i32 is an integer whose bits from 31 upwards are all equal; a bitwise operation keeps that *)
Lemma i32_shift : forall x, in_range I32 x = true <-> (Z.shiftr x 31 = 0 \/ Z.shiftr x 31 = -1).
Proof.
  intros x. rewrite in_range_iff. cbn [ity_lo ity_hi]. rewrite Z.shiftr_div_pow2 by lia.
  change (2 ^ 31) with 2147483648.
  pose proof (Z.div_mod x 2147483648 ltac:(lia)) as D.
  pose proof (Z.mod_pos_bound x 2147483648 ltac:(lia)) as B.
  split; intros H; lia.
Qed.

Lemma bitwise_i32 : forall f : Z -> Z -> Z,
  (forall a b n, Z.shiftr (f a b) n = f (Z.shiftr a n) (Z.shiftr b n)) ->
  (forall a b, a = 0 \/ a = -1 -> b = 0 \/ b = -1 -> f a b = 0 \/ f a b = -1) ->
  forall l r, in_range I32 l = true -> in_range I32 r = true -> in_range I32 (f l r) = true.
Proof. intros f Hs Ht l r Hl Hr. apply i32_shift. rewrite Hs. apply Ht; apply i32_shift; assumption. Qed.
Lemma land_i32 : forall l r, in_range I32 l = true -> in_range I32 r = true -> in_range I32 (Z.land l r) = true.
Proof. apply bitwise_i32; [intros; apply Z.shiftr_land | intros a b [-> | ->] [-> | ->]; vm_compute; auto]. Qed.
Lemma lor_i32 : forall l r, in_range I32 l = true -> in_range I32 r = true -> in_range I32 (Z.lor l r) = true.
Proof. apply bitwise_i32; [intros; apply Z.shiftr_lor | intros a b [-> | ->] [-> | ->]; vm_compute; auto]. Qed.
Lemma lxor_i32 : forall l r, in_range I32 l = true -> in_range I32 r = true -> in_range I32 (Z.lxor l r) = true.
Proof. apply bitwise_i32; [intros; apply Z.shiftr_lxor | intros a b [-> | ->] [-> | ->]; vm_compute; auto]. Qed.
Lemma lnot_i32 : forall l, in_range I32 l = true -> in_range I32 (Z.lnot l) = true.
Proof. intros l H. apply in_range_iff in H. apply in_range_iff. unfold Z.lnot. cbn [ity_lo ity_hi] in *. lia. Qed.

Theorem eval_bin_outcome : forall debug op a b,
  wf_value a = true -> wf_value b = true -> bin_outcome debug op a b.
Proof.
  intros debug op a b Wa Wb. destruct op; try (apply cmp_outcome; assumption).
  (* one arm of [eval_bin] and the matching arm of [py_eval], for operands of known kinds *)
  all: destruct a as [l|l|l|l|], b as [r|r|r|r|]; unfold bin_outcome; cbn [eval_bin];
    unfold try_div, try_floordiv, try_mod;
    cbn [try_add try_sub try_mul try_pow mul_result pow_result is_zero eval_or eval_and eval_xor
         py_eval py_arith py_bitop to_py as_num to_float num_is_zero
         Known_C04 By_correspondence_C04 is_float is_int_like is_vfloat orb andb negb Bool.eqb];
    rewrite ?F_eq_zero, ?float_divmod_eq.
  all: try (apply out_unless; intros E).
  (* every arm is then: not evaluated; the same float operation on both sides; in a guarded class; an exact integer
     operation; floor division; a bitwise operation on two i32 *)
  all: first [ apply out_none | now apply out_same | now apply out_guarded | apply div_nat_outcome
             | apply pure_outcome; [opnds | opnds | first [apply checked_py | apply pow_op_py]]
             | apply divmod_outcome; [opnds | opnds | apply Z.eqb_neq, E | reflexivity]
             | apply out_same; [first [apply land_i32 | apply lor_i32 | apply lxor_i32]; assumption | reflexivity] ].
Qed.

(* unary minus is [0 - l].  The literal 0 is a variable here: matching [int_op 0 l ..] against a constructor, or a
   constructor against it, would evaluate the cast of 0 to i128 *)
Lemma neg_outcome : forall z l int, z = 0 -> opnd l ->
  outcome false (PyOk (PInt (- l))) (int_op z l int (pure_op checked_sub)).
Proof.
  intros z l int -> Hl. apply pure_outcome; [unfold opnd; lia | exact Hl |].
  intros z H. apply checked_sub_some in H. rewrite H. reflexivity.
Qed.

Theorem eval_unary_outcome : forall debug op a, wf_value a = true ->
  outcome false (py_unary op (to_py a)) (eval_unary debug op a).
Proof.
  intros debug op [l|l|l|l|] Wa; destruct op.
  (* [neg_outcome] is tried first for the reason given there *)
  all: first [ apply neg_outcome; [reflexivity | opnds] | apply out_none | now apply out_same
             | apply out_same; [|reflexivity] ].
  - apply lnot_i32, Wa.
  - destruct l; reflexivity.
Qed.

Lemma int_fragment_guard : forall op a b, int_fragment op a b = true ->
  Known_C04 op a b || By_correspondence_C04 op a b = false.
Proof.
  intros op a b H. destruct op.
  all: destruct a; try discriminate H; destruct b; (discriminate H || reflexivity).
Qed.
Lemma float_fragment_guard : forall op a b, float_fragment op a b = true ->
  Known_C04 op a b || By_correspondence_C04 op a b = false.
Proof.
  intros op a b H. destruct op; try discriminate H.
  all: destruct a; try discriminate H; destruct b; (discriminate H || reflexivity).
Qed.

Lemma eval_bin_agrees_float : forall debug op a b v,
  wf_value a = true -> wf_value b = true -> float_fragment op a b = true ->
  eval_bin debug op a b = Ok (Some v) ->
  exists v', py_eval op (to_py a) (to_py b) = PyOk v' /\ same_value v v'.
Proof.
  intros debug op a b v Wa Wb F.
  apply outcome_agrees with (1 := eval_bin_outcome debug op a b Wa Wb). apply float_fragment_guard, F.
Qed.

Lemma known_class_refuted : exists op a b v,
  wf_value a = true /\ wf_value b = true /\ Known_C04 op a b = true /\
  eval_bin true op a b = Ok (Some v) /\ forall v', py_eval op (to_py a) (to_py b) <> PyOk v'.
Proof.
  exists OPow, (VFloat (S754_zero false)), (VFloat (Z2F (-1))), VFloatUnk.
  repeat split. intros v' E. discriminate E.
Qed.

Lemma sf_eqb_eq : forall f g, sf_eqb f g = true -> f = g.
Proof.
  intros [s|s| |s m e] [t|t| |t n d]; cbn; try discriminate; auto.
  1-2: intros H; apply eqb_prop in H; congruence.
  intros H. apply andb_true_iff in H. destruct H as [H H3]. apply andb_true_iff in H. destruct H as [H1 H2].
  apply eqb_prop in H1. apply Pos.eqb_eq in H2. apply Z.eqb_eq in H3. congruence.
Qed.
Lemma same_valueb_sound : forall v p, same_valueb v p = true -> same_value v p.
Proof.
  intros [i|n|f|b|] [z|g|c]; cbn; try discriminate.
  - apply Z.eqb_eq. - apply Z.eqb_eq. - apply sf_eqb_eq. - apply eqb_prop.
Qed.

Lemma verdict_sound : forall r p, verdict_of r p = 1 ->
  r <> Panic /\ (forall v, r = Ok (Some v) -> exists v', p = XOk v' /\ same_value v v').
Proof.
  intros r p. unfold verdict_of. destruct r as [[v|]|]; try discriminate.
  - destruct p as [v'| | |]; try discriminate. destruct (same_valueb v v') eqn:S; [|discriminate].
    intros _. split; [discriminate|]. intros v0 [= <-]. exists v'. split; [reflexivity | apply same_valueb_sound, S].
  - intros _. split; [discriminate|]. intros v H. discriminate H.
Qed.

Lemma pow_pos_lim_some : forall p b v, pow_pos_lim b p = Some v -> v = b ^ Zpos p.
Proof.
  induction p as [q IH|q IH|]; intros b v; cbn [pow_pos_lim].
  1-2: destruct (pow_pos_lim b q) as [h|] eqn:E; [apply IH in E; subst h|discriminate].
  all: destruct (Z.abs _ <? pow_limit); [|discriminate]; intros [= <-]; symmetry.
  - apply pow_xI.
  - apply pow_xO.
  - apply Z.pow_1_r.
Qed.

Lemma py_eval_x_ok : forall op a b v, py_eval_x op a b = XOk v -> py_eval op a b = PyOk v.
Proof.
  intros op a b v. unfold py_eval_x.
  assert (G : match py_eval op a b with PyOk v0 => XOk v0 | PyRaise e => XRaise e | PyUnmodelled => XUnmodelled end = XOk v
              -> py_eval op a b = PyOk v).
  { destruct (py_eval op a b); intros H; inversion H; reflexivity. }
  destruct op; try exact G.
  destruct (as_num a) as [x|f] eqn:Ea; try exact G.
  destruct (as_num b) as [y|g] eqn:Eb; try exact G.
  destruct y as [|p|p]; try exact G.
  destruct (pow_pos_lim x p) as [w|] eqn:E; [|discriminate].
  intros H; inversion H. apply pow_pos_lim_some in E. subst.
  unfold py_eval. rewrite Ea, Eb. reflexivity.
Qed.
